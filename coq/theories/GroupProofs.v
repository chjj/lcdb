(* GroupProofs.v -- properties of the group-commit selection rule (Group.v).  group_grow_spec says what the loop of
   ldb_build_batch_group does from any point; from it: build_group_bounds, group_sync_rule (C02), group_size_cap and
   group_maximal (C04), and build_group_satisfies_lts_guard: the choice meets the guard group_ok of Lts.v (C08). *)
From Coq Require Import List NArith Bool Lia Arith.
From LCDB Require Import Group Lts.
Import ListNotations.
Local Open Scope N_scope.

Definition bytes_of (l : list gw) : N := fold_right (fun w a => gw_size w + a) 0 l.

(* what a covered entry adds to the group batch *)
Definition gain (w : gw) : N := if gw_batch w then gw_size w else 0.

Lemma bytes_of_filter_cons : forall w l,
  bytes_of (filter gw_batch (w :: l)) = gain w + bytes_of (filter gw_batch l).
Proof. intros w l. unfold gain. cbn [filter]. destruct (gw_batch w); reflexivity. Qed.

(* one turn of the loop at entry w with size bytes gathered: it stops, at a sync writer it must not take or
   at a batch that would exceed the cap, or it covers w and goes on with w's bytes added *)
Lemma group_grow_cons : forall fsync maxs size w r,
  (group_grow fsync maxs size (w :: r) = O /\
   ((gw_sync w = true /\ fsync = false) \/ (gw_batch w = true /\ maxs < size + gw_size w))) \/
  (group_grow fsync maxs size (w :: r) = S (group_grow fsync maxs (size + gain w) r) /\
   (gw_sync w = true -> fsync = true) /\ (gain w = 0 \/ size + gain w <= maxs)).
Proof.
  intros fsync maxs size w r. unfold gain. cbn [group_grow].
  destruct (gw_sync w), fsync; cbn [andb negb]; auto;
    (destruct (gw_batch w); [destruct (N.ltb_spec maxs (size + gw_size w))|rewrite N.add_0_r]; auto 6).
Qed.

(* the loop of ldb_build_batch_group, from a follower list r with size bytes gathered so far: it covers a prefix;
   a sync writer is covered only under a sync leader; the gathered bytes stay under the cap; and it stops
   before the end only at a sync writer it must not take or at a batch that would exceed the cap *)
Lemma group_grow_spec : forall fsync maxs r size,
  (group_grow fsync maxs size r <= length r)%nat /\
  (forall w, In w (firstn (group_grow fsync maxs size r) r) -> gw_sync w = true -> fsync = true) /\
  size + bytes_of (filter gw_batch (firstn (group_grow fsync maxs size r) r)) <= N.max size maxs /\
  ((group_grow fsync maxs size r < length r)%nat ->
   exists w, nth_error r (group_grow fsync maxs size r) = Some w /\
     ((gw_sync w = true /\ fsync = false) \/
      (gw_batch w = true /\
       maxs < size + bytes_of (filter gw_batch (firstn (group_grow fsync maxs size r) r)) + gw_size w))).
Proof.
  intros fsync maxs r. induction r as [|x r IH]; intros size.
  - cbn. repeat split; lia.
  - destruct (group_grow_cons fsync maxs size x r) as [[-> Hs]|(-> & Hx & Hg)].
    + cbn. rewrite N.add_0_r. repeat split; try lia. intros _. exists x. auto.
    + destruct (IH (size + gain x)) as (I1 & I2 & I3 & I4).
      cbn [firstn length nth_error]. rewrite bytes_of_filter_cons, N.add_assoc.
      split; [lia|]. split; [intros w [<-|Hin]; [exact Hx|exact (I2 w Hin)]|]. split; [lia|].
      intros Hk. apply I4. lia.
Qed.

(* the group is a non-empty prefix of the queue *)
Theorem build_group_bounds : forall q, q <> [] -> (1 <= build_group q <= length q)%nat.
Proof.
  intros [|f r] H; [congruence|]. cbn [build_group length].
  pose proof (proj1 (group_grow_spec (gw_sync f) (group_max_size (gw_size f)) r (gw_size f))). lia.
Qed.

(* C02: every sync=1 writer the group covers is led by a sync=1 leader, who fsyncs the log *)
Theorem group_sync_rule : forall q w,
  In w (firstn (build_group q) q) -> gw_sync w = true -> group_is_synced q = true.
Proof.
  intros [|f r] w Hin Hs; cbn [build_group firstn group_is_synced] in *; [destruct Hin|].
  destruct Hin as [Hin|Hin]; [subst f; exact Hs|].
  exact (proj1 (proj2 (group_grow_spec _ _ _ _)) w Hin Hs).
Qed.

Lemma group_bytes_cons : forall f r, gw_batch f = true ->
  group_bytes (f :: r) = gw_size f + bytes_of (filter gw_batch (firstn (group_grow (gw_sync f) (group_max_size (gw_size f)) (gw_size f) r) r)).
Proof. intros f r Hb. unfold group_bytes, group_members. cbn [build_group firstn filter]. rewrite Hb. reflexivity. Qed.

(* the group batch stays under the cap (or is the leader's own batch alone) *)
Theorem group_size_cap : forall f r, gw_batch f = true ->
  group_bytes (f :: r) <= N.max (gw_size f) (group_max_size (gw_size f)).
Proof. intros f r Hb. rewrite (group_bytes_cons f r Hb). apply group_grow_spec. Qed.

(* the group is maximal: it stops only at a sync writer behind a non-sync leader, or at a batch that would exceed the cap *)
Theorem group_maximal : forall f r, gw_batch f = true ->
  let n := build_group (f :: r) in
  (n < length (f :: r))%nat ->
  exists w, nth_error (f :: r) n = Some w /\
    ((gw_sync w = true /\ gw_sync f = false) \/
     (gw_batch w = true /\ group_max_size (gw_size f) < group_bytes (f :: r) + gw_size w)).
Proof.
  intros f r Hb n Hn. subst n. rewrite (group_bytes_cons f r Hb). cbn [build_group length nth_error] in *.
  apply group_grow_spec. lia.
Qed.

(* everything the leader acknowledges was merged: the covered entries that have a batch ARE the members *)
Theorem group_members_are_covered : forall q w,
  In w (group_members q) <-> In w (firstn (build_group q) q) /\ gw_batch w = true.
Proof. intros q w. unfold group_members. apply filter_In. Qed.

Definition view_of (sz : qent -> N) (e : qent) : gw :=
  mkGW (sz e) (q_sync e) (match q_batch e with Some _ => true | None => false end).

Lemma grow_group_ok : forall sz hs maxs r size,
  forallb (fun e => implb (q_sync e) hs) (firstn (group_grow hs maxs size (map (view_of sz) r)) r) = true.
Proof.
  intros sz hs maxs r size. apply forallb_forall. intros e He. destruct (q_sync e) eqn:Es; [cbn|reflexivity].
  apply (proj1 (proj2 (group_grow_spec hs maxs (map (view_of sz) r) size)) (view_of sz e)); [|exact Es].
  rewrite firstn_map. apply in_map, He.
Qed.

Theorem build_group_satisfies_lts_guard : forall sz h r b,
  q_batch h = Some b ->
  group_ok (h :: r) (build_group (map (view_of sz) (h :: r))) = true.
Proof.
  intros sz h r b Hb. cbn [map build_group group_ok]. rewrite Hb, andb_true_r.
  set (k := group_grow _ _ _ (map (view_of sz) r)).
  assert (Hk : (k <= length r)%nat) by (rewrite <- (map_length (view_of sz) r); apply group_grow_spec).
  replace (S k - 1)%nat with k by lia. apply andb_true_iff. split; [|apply grow_group_ok].
  apply andb_true_iff. split; [reflexivity|]. apply Nat.leb_le. cbn [length]. lia.
Qed.

(* the rule evaluated: a sync follower stops a non-sync leader, the cap, a flush request inside a group *)
Example group_example_sync_stops :
  build_group [mkGW 100 false true; mkGW 50 false true; mkGW 10 true true; mkGW 10 false true] = 2%nat.
Proof. reflexivity. Qed.
Example group_example_cap :
  build_group [mkGW 16 false true; mkGW 200000 false true; mkGW 10 false true] = 1%nat.
Proof. vm_compute. reflexivity. Qed.
Example group_example_flush_request :
  build_group [mkGW 16 true true; mkGW 0 false false; mkGW 30 true true] = 3%nat /\
  group_bytes [mkGW 16 true true; mkGW 0 false false; mkGW 30 true true] = 46.
Proof. vm_compute. split; reflexivity. Qed.
