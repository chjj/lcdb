(* LogFormatClosed.v -- the reader theorems read off the two general lemmas of
   LogFormatProofs.v ([add_record_read_prefix]: one record, any cut;
   [read_cut_gen]: any records from any block offset, any cut).  The rest of
   the development cites the forms about a whole file: [read_write_roundtrip],
   [_events], [_reopen], [read_cut], [read_cut_prefix].  The file re-exports
   LogFormatProofs.v, so that one import gives everything about the log.  The
   round trip is the cut at the end of the file; the [read_log] forms are the
   instances with checksum verification on. *)
From LCDB Require Import Base BaseProofs Crc32c LogFormat.
From LCDB Require Export LogFormatProofs.
Local Open Scope N_scope.

Theorem parse_phys : forall c e ty p buf,
  is_wtype ty -> wf_bytes p = true ->
  parse c e (phys_record ty p ++ buf) = PRec ty p :: parse c e buf.
Proof. intros c e ty p buf Hty. apply parse_written; apply (is_wtype_bounds ty Hty). Qed.

(* [add_record_read_prefix] with nothing cut off *)
Theorem add_record_read : forall c off r X,
  off <= BLOCK -> wf_bytes r = true ->
  logical (pe_at c off (fst (add_record off r) ++ X)) false [] =
    Rec r :: logical (pe_at c (snd (add_record off r)) X) false [].
Proof.
  intros c off r X _ Hwf.
  pose proof (add_record_read_prefix c off r X (nlen (fst (add_record off r) ++ X)) Hwf) as L.
  unfold after_record in L. rewrite take_all, nlen_app, N.add_comm, N.add_sub, take_all in L by apply N.le_refl.
  destruct (N.ltb_spec (nlen X + nlen (fst (add_record off r))) (nlen (fst (add_record off r)))); [lia|exact L].
Qed.

Theorem read_cut_events : forall c rs n,
  Forall (fun r => wf_bytes r = true) rs -> (n <= length (write_log rs))%nat ->
  exists k,
    read_log_events c (firstn n (write_log rs)) = map Rec (firstn k rs) /\
    (length (write_log (firstn k rs)) <= n)%nat /\
    ((k < length rs)%nat -> (n < length (write_log (firstn (S k) rs)))%nat).
Proof.
  intros c rs n Hwf _. unfold read_log_events. rewrite <- pe_at_0. exact (read_cut_nat c rs n Hwf).
Qed.

(* round trip, with or without checksum verification: the cut at the end *)
Theorem read_write_roundtrip_events : forall c rs,
  Forall (fun r => wf_bytes r = true) rs ->
  read_log_events c (write_log rs) = map Rec rs.
Proof.
  intros c rs Hwf.
  destruct (read_cut_events c rs (length (write_log rs)) Hwf (le_n _)) as (k & E & _ & Hk).
  rewrite firstn_all in E. rewrite E.
  destruct (Nat.lt_ge_cases k (length rs)) as [L|L]; [|rewrite firstn_all2 by exact L; reflexivity].
  pose proof (f_equal (@length N) (write_log_app (firstn (S k) rs) (skipn (S k) rs))) as A.
  rewrite firstn_skipn, app_length in A. specialize (Hk L). lia.
Qed.

Theorem read_write_roundtrip : forall rs,
  Forall (fun r => wf_bytes r = true) rs -> read_log (write_log rs) = map Rec rs.
Proof. exact (read_write_roundtrip_events true). Qed.

Theorem read_write_roundtrip_reopen : forall rs1 rs2,
  Forall (fun r => wf_bytes r = true) (rs1 ++ rs2) ->
  read_log (write_log rs1 ++ write_log_from (nlen (write_log rs1)) rs2) = map Rec (rs1 ++ rs2).
Proof. intros. rewrite <- write_log_app. apply read_write_roundtrip. assumption. Qed.

Theorem read_cut : forall rs n,
  Forall (fun r => wf_bytes r = true) rs -> (n <= length (write_log rs))%nat ->
  exists k,
    read_log (firstn n (write_log rs)) = map Rec (firstn k rs) /\
    (length (write_log (firstn k rs)) <= n)%nat /\
    (k < length rs -> n < length (write_log (firstn (S k) rs)))%nat.
Proof. exact (read_cut_events true). Qed.

Corollary read_cut_prefix : forall rs n,
  Forall (fun r => wf_bytes r = true) rs -> (n <= length (write_log rs))%nat ->
  exists k, read_log (firstn n (write_log rs)) = map Rec (firstn k rs).
Proof.
  intros rs n H Hn. destruct (read_cut rs n H Hn) as (k & Hk & _). exists k. exact Hk.
Qed.

(* a cut never produces a Drop event and never a record that was not written *)
Corollary read_cut_no_drop : forall rs n,
  Forall (fun r => wf_bytes r = true) rs -> (n <= length (write_log rs))%nat ->
  drops_of (read_log (firstn n (write_log rs))) = [] /\
  exists k, records_of (read_log (firstn n (write_log rs))) = firstn k rs.
Proof.
  intros rs n H Hn. destruct (read_cut_prefix rs n H Hn) as (k & ->).
  assert (Hd : forall l, drops_of (map Rec l) = []).
  { induction l as [|x l IH]; [reflexivity|exact IH]. }
  assert (Hr : forall l, records_of (map Rec l) = l).
  { induction l as [|x l IH]; [reflexivity|]. cbn [map]. unfold records_of in *.
    cbn [flat_map app]. f_equal. exact IH. }
  split; [apply Hd|]. exists k. apply Hr.
Qed.

Print Assumptions write_log_app.
Print Assumptions read_write_roundtrip.
Print Assumptions read_write_roundtrip_reopen.
Print Assumptions read_cut.
Print Assumptions read_log_no_invention_structural.
Print Assumptions phys_events_verified.
Print Assumptions zero_header_silent_refuted.
Print Assumptions add_record_fuel_ok.
Print Assumptions parse_block_fuel_ok.
Print Assumptions split_blocks_fuel_ok.
