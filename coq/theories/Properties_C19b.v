(* Properties_C19b.v -- C19, log salvage part: the record loop of convert_log_to_table (RepairLog.v).
   Statements only; proofs in RepairLog.v. *)
From Coq Require Import List NArith.
From LCDB Require Import Base Batch RepairLog.
Import ListNotations.
Local Open Scope N_scope.

(* a record that does not parse as a write batch affects nothing but itself *)
Theorem C19_bad_record_is_local : forall pre bad post,
  salvage (pre ++ bad :: post) = salvage pre ++ record_entries bad ++ salvage post.
Proof. exact salvage_local. Qed.
Print Assumptions C19_bad_record_is_local.

(* an intact record hands over all of its operations, numbered from its own sequence *)
Theorem C19_intact_record_salvaged : forall seq ops,
  wf_ops ops = true -> seq < 18446744073709551616 ->
  record_entries (batch_build seq ops) = number_ops seq ops /\ record_ok (batch_build seq ops) = true.
Proof. exact record_entries_intact. Qed.
Print Assumptions C19_intact_record_salvaged.

(* every intact record of a log with one damaged record is salvaged completely, wherever the damage is *)
Theorem C19_log_with_one_bad_record : forall pre post bad,
  (forall r, In r (pre ++ post) -> exists seq ops, wf_ops ops = true /\ seq < 18446744073709551616 /\ r = batch_build seq ops) ->
  forall seq ops, wf_ops ops = true -> seq < 18446744073709551616 ->
  In (batch_build seq ops) (pre ++ post) ->
  forall e, In e (number_ops seq ops) -> In e (salvage (pre ++ bad :: post)).
Proof. exact salvage_keeps_intact_records. Qed.
Print Assumptions C19_log_with_one_bad_record.

Theorem C19_short_record_ignored : forall r, nlen r < BATCH_HEADER -> record_entries r = [].
Proof. exact record_entries_short. Qed.
Print Assumptions C19_short_record_ignored.

(* a record with a header contributes the operations batch_iterate delivers (for a failing record:
   those before the failure), numbered from the record's own sequence *)
Theorem C19_failing_record_prefix : forall r, BATCH_HEADER <= nlen r ->
  record_entries r = number_ops (batch_sequence r) (batch_ops r).
Proof. exact record_entries_numbered. Qed.
Print Assumptions C19_failing_record_prefix.
