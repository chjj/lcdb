(* Properties_C18.v -- C18: decoders are total and memory-safe on arbitrary bytes.
   Every decoder of the model is a total Gallina function (termination is checked by Coq's
   guard condition; the log, batch and edit loops carry fuel-sufficiency lemmas, the table-layer
   loops return a defined value when their fuel runs out, and that the fuel suffices is shown for
   built blocks and tables only), and the table-layer decoders
   perform every memory access of the C code as a CHECKED access returning the distinguished
   outcome OOB: "never OOB, for ALL byte strings" is the memory-safety theorem.  That the C code
   performs the same accesses is established by the differential runs under ASan/UBSan. *)
From LCDB Require Import Base Varint Crc32c LogFormat Batch Edit Block Trie Filter Snappy TableFormat.
From LCDB Require Import VarintProofs LogFormatProofs BlockProofs BlockSeekProofs FilterProofs FilterBlockProofs SnappyProofs TableProofs TableBuildProofs.
Local Open Scope N_scope.

Theorem C18_block_iterator_safe :
  forall (cmp : bytes -> bytes -> comparison) (is_internal : bool) (b : bytes) (ops : list iop),
  block_run cmp is_internal b ops <> OOB.
Proof. exact block_run_safe. Qed.
Print Assumptions C18_block_iterator_safe.

Theorem C18_filter_reader_safe :
  forall (fmatch : bytes -> bytes -> res bool), (forall f k, fmatch f k <> OOB) ->
  forall (blockbytes : bytes) (off : N) (key : bytes), filter_block_matches fmatch blockbytes off key <> OOB.
Proof. exact filter_block_matches_safe. Qed.
Print Assumptions C18_filter_reader_safe.

Theorem C18_bloom_match_safe :
  forall (hashf : bytes -> N) (filter key : bytes), bloom_match_with hashf filter key <> OOB.
Proof. exact bloom_match_safe. Qed.
Print Assumptions C18_bloom_match_safe.

Theorem C18_snappy_decode_safe : forall x : bytes, snappy_decode x <> OOB.
Proof. exact snappy_decode_safe. Qed.
Print Assumptions C18_snappy_decode_safe.

Theorem C18_footer_decode_safe : forall l : bytes, footer_decode l <> OOB.
Proof. exact footer_decode_safe. Qed.
Print Assumptions C18_footer_decode_safe.

Theorem C18_read_block_safe :
  forall (file : bytes) (verify : bool) (h : handle), read_block file (nlen file) verify h <> OOB.
Proof. exact read_block_safe. Qed.
Print Assumptions C18_read_block_safe.

Theorem C18_table_iterator_safe :
  forall (cmp : bytes -> bytes -> comparison) (is_internal has_filter paranoid verify : bool)
         (file : bytes) (ops : list iop),
  table_run cmp is_internal has_filter paranoid verify file ops <> OOB.
Proof. exact table_iterator_safe. Qed.
Print Assumptions C18_table_iterator_safe.

Theorem C18_table_get_safe :
  forall (cmp : bytes -> bytes -> comparison) (is_internal has_filter : bool)
         (fmatch : bytes -> bytes -> res bool), (forall f k, fmatch f k <> OOB) ->
  forall (paranoid verify : bool) (file k : bytes),
  table_lookup cmp is_internal has_filter fmatch paranoid verify file k <> OOB.
Proof. exact table_lookup_safe. Qed.
Print Assumptions C18_table_get_safe.

(* Varint readers consume at most 5 / 10 bytes of ANY input and return in-range values. *)
Theorem C18_varint32_read_bounded : forall l v rest,
  varint32_read l = Some (v, rest) ->
  v < 4294967296 /\ exists pre, l = pre ++ rest /\ (1 <= length pre <= 5)%nat.
Proof. exact varint32_read_spec_gen. Qed.
Print Assumptions C18_varint32_read_bounded.

Theorem C18_varint64_read_bounded : forall l v rest,
  varint64_read l = Some (v, rest) ->
  v < 18446744073709551616 /\ exists pre, l = pre ++ rest /\ (1 <= length pre <= 10)%nat.
Proof. exact varint64_read_spec_gen. Qed.
Print Assumptions C18_varint64_read_bounded.

(* The log reader never invents bytes whatever it is fed, and its fuel always suffices. *)
Theorem C18_log_reader_no_invention : forall f r, In (Rec r) (read_log f) ->
  exists frags, r = concat frags /\ Forall (fun p => In p (verified_payloads f)) frags.
Proof. exact read_log_no_invention_structural. Qed.
Print Assumptions C18_log_reader_no_invention.

Theorem C18_log_parse_fuel : forall f c e buf, (length buf < f)%nat ->
  parse_block f c e buf = parse_block (S (length buf)) c e buf.
Proof. exact parse_block_fuel_ok. Qed.
Print Assumptions C18_log_parse_fuel.
