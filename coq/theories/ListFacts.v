(* ListFacts.v -- facts about the lists of Coq's library that several parts of the development
   use, by subject: segments and ends (firstn, skipn, nth_error, last), find, the boolean tests
   (filter, forallb, existsb), relations that hold from each element to every later one, NoDup
   as one of them, and map, flat_map, concat, fold_left; reading a conjunction of boolean tests.
   Nothing of the model is mentioned. *)
From Coq Require Import List Bool Arith Lia Sorting.Sorted.
Import ListNotations.

Section Lists.
Context {A : Type}.
Implicit Types (l : list A) (p : A -> bool).

Lemma firstn_app_le l x q : q <= length l -> firstn q (l ++ x) = firstn q l.
Proof.
  intros H. rewrite firstn_app. replace (q - length l) with 0 by lia. apply app_nil_r.
Qed.

Lemma firstn_app_length l x : firstn (length l) (l ++ x) = l.
Proof. rewrite firstn_app_le, firstn_all by apply le_n. reflexivity. Qed.

Lemma skipn_app_length l x : skipn (length l) (l ++ x) = x.
Proof. rewrite skipn_app, Nat.sub_diag, skipn_all. reflexivity. Qed.

Lemma skipn_skipn' a b l : skipn a (skipn b l) = skipn (b + a) l.
Proof.
  revert l. induction b; intros l; cbn [skipn Nat.add]; [reflexivity|].
  destruct l; [destruct a; reflexivity|apply IHb].
Qed.

Lemma In_firstn l n x : In x (firstn n l) -> In x l.
Proof. intros H. rewrite <- (firstn_skipn n l). apply in_or_app. left. exact H. Qed.

Lemma In_skipn l n x : In x (skipn n l) -> In x l.
Proof. intros H. rewrite <- (firstn_skipn n l). apply in_or_app. right. exact H. Qed.

Lemma Forall_firstn (P : A -> Prop) l k : Forall P l -> Forall P (firstn k l).
Proof. rewrite !Forall_forall. intros H x Hx. exact (H x (In_firstn l k x Hx)). Qed.

Lemma map_firstn_skipn {B} (f : A -> B) n l : map f l = map f (firstn n l) ++ map f (skipn n l).
Proof. rewrite <- map_app, firstn_skipn. reflexivity. Qed.

Lemma firstn_S_nth l k x : nth_error l k = Some x -> firstn (S k) l = firstn k l ++ [x].
Proof.
  revert k. induction l as [|y r IH]; intros k H.
  - destruct k; discriminate.
  - destruct k as [|k]; cbn [nth_error] in H.
    + injection H as ->. reflexivity.
    + change (firstn (S (S k)) (y :: r)) with (y :: firstn (S k) r). rewrite (IH _ H). reflexivity.
Qed.

Lemma firstn_succ_nth (d : A) l n : n < length l -> firstn (S n) l = firstn n l ++ [nth n l d].
Proof. intros Hn. apply firstn_S_nth, nth_error_nth', Hn. Qed.

Lemma nth_skipn (d : A) l k n : nth n (skipn k l) d = nth (k + n) l d.
Proof.
  revert k n. induction l as [|x l IH]; intros k n.
  - rewrite skipn_nil. destruct n; destruct (k + _); reflexivity.
  - destruct k; cbn [skipn Nat.add nth]; [reflexivity|apply IH].
Qed.

Lemma nth_error_In_skipn l k u x : nth_error l u = Some x -> k <= u -> In x (skipn k l).
Proof.
  intros H Hk. rewrite <- (firstn_skipn k l), nth_error_app2 in H by (rewrite firstn_length; lia).
  eapply nth_error_In; exact H.
Qed.

Lemma in_firstn_nth_error l j c x : nth_error l j = Some x -> j < c -> In x (firstn c l).
Proof.
  revert j c; induction l as [|y r IH]; intros j c H Hj; [destruct j; discriminate|].
  destruct c; [lia|]. destruct j; cbn in H |- *.
  - injection H as ->; left; reflexivity.
  - right; eapply IH; eauto. lia.
Qed.

Lemma nth_error_mid l x l' : nth_error (l ++ x :: l') (length l) = Some x.
Proof. rewrite nth_error_app2, Nat.sub_diag; [reflexivity|apply Nat.le_refl]. Qed.

Lemma nth_error_snoc l x n :
  nth_error (l ++ [x]) n = if n =? length l then Some x else nth_error l n.
Proof.
  destruct (Nat.eqb_spec n (length l)) as [->|Hne].
  - apply nth_error_mid.
  - destruct (lt_dec n (length l)) as [Hlt|Hge].
    + apply nth_error_app1. exact Hlt.
    + rewrite (proj2 (nth_error_None l n)) by lia.
      apply nth_error_None. rewrite app_length. cbn [length]. lia.
Qed.

Lemma nth_snoc_inv l x i y :
  nth_error (l ++ [x]) i = Some y -> nth_error l i = Some y \/ (i = length l /\ x = y).
Proof.
  intro H. rewrite nth_error_snoc in H. destruct (Nat.eqb_spec i (length l)) as [E|_]; [right|left; exact H].
  injection H as ->. split; [exact E|reflexivity].
Qed.

Lemma snoc_cases l : l = [] \/ exists m e, l = m ++ [e].
Proof. destruct l as [|x l] using rev_ind; [left; reflexivity|right; eauto]. Qed.

Lemma last_cons y l d : last (y :: l) d = last l y.
Proof.
  revert y d. induction l as [|z r IH]; intros y d. reflexivity.
  change (last (y :: z :: r) d) with (last (z :: r) d).
  rewrite (IH z d), (IH z y). reflexivity.
Qed.

Lemma last_In l d : In (last l d) (d :: l).
Proof.
  revert d. induction l as [|y r IH]; intros d. left; reflexivity.
  rewrite last_cons. right. apply IH.
Qed.

Lemma find_app p l1 l2 :
  find p (l1 ++ l2) = match find p l1 with Some x => Some x | None => find p l2 end.
Proof.
  induction l1 as [|a r IH]; cbn [app find]; [reflexivity|]. destruct (p a); [reflexivity|exact IH].
Qed.

Lemma find_none_iff p l : find p l = None <-> forall x, In x l -> p x = false.
Proof.
  split; [apply find_none|]. induction l as [|a r IH]; intros H; cbn [find]; [reflexivity|].
  rewrite (H a (or_introl eq_refl)). apply IH. intros x Hx. apply H. right. exact Hx.
Qed.

Lemma find_app_none p l1 l2 : (forall x, In x l1 -> p x = false) -> find p (l1 ++ l2) = find p l2.
Proof. intros H. rewrite find_app, (proj2 (find_none_iff p l1) H). reflexivity. Qed.

Lemma find_ext_in (P Q : A -> bool) l :
  (forall x, In x l -> P x = Q x) -> find P l = find Q l.
Proof.
  induction l as [|x r IH]; intros H; cbn [find]; [reflexivity|].
  rewrite (H x) by (left; reflexivity). destruct (Q x); [reflexivity|].
  apply IH. intros y Hy. apply H. right. exact Hy.
Qed.

Lemma filter_true p l : (forall y, In y l -> p y = true) -> filter p l = l.
Proof.
  induction l as [|y r IH]; intros H; cbn [filter]; [reflexivity|].
  rewrite (H y (or_introl eq_refl)). f_equal. apply IH. intros z Hz. apply H. right. exact Hz.
Qed.

Lemma filter_false p l : (forall y, In y l -> p y = false) -> filter p l = [].
Proof.
  induction l as [|y r IH]; intros H; cbn [filter]; [reflexivity|].
  rewrite (H y (or_introl eq_refl)). apply IH. intros z Hz. apply H. right. exact Hz.
Qed.

Lemma filter_idem p l : filter p (filter p l) = filter p l.
Proof. apply filter_true. intros y Hy. apply filter_In in Hy. apply Hy. Qed.

Lemma filter_length_le p l : length (filter p l) <= length l.
Proof.
  induction l as [|y r IH]; cbn [filter length]; [apply le_n|].
  destruct (p y); cbn [length]; lia.
Qed.

Lemma forallb_iff p (P : A -> Prop) l :
  (forall x, p x = true <-> P x) -> (forallb p l = true <-> forall x, In x l -> P x).
Proof. intros H. rewrite forallb_forall. split; intros H1 x Hx; apply H, H1, Hx. Qed.

Lemma existsb_false_iff p l : existsb p l = false <-> forall x, In x l -> p x = false.
Proof.
  rewrite <- not_true_iff_false, existsb_exists. split.
  - intros H x Hx. destruct (p x) eqn:E; [|reflexivity]. exfalso. apply H. exists x. split; assumption.
  - intros H (x & Hx & E). rewrite (H x Hx) in E. discriminate.
Qed.

Lemma existsb_eqb_In (eqb : A -> A -> bool) : (forall a b, eqb a b = true <-> a = b) ->
  forall x l, existsb (eqb x) l = true <-> In x l.
Proof.
  intros Heq x l. rewrite existsb_exists. split.
  - intros (y & Hy & E). apply Heq in E. subst y. exact Hy.
  - intros H. exists x. split; [exact H|apply Heq; reflexivity].
Qed.

(* A relation holding from each element to every later one: [ForallOrdPairs R]; Coq's
   [StronglySorted R] says the same, and each lemma is stated for the one its users have. *)
Section Pairs.
Variable R : A -> A -> Prop.

Lemma SS_FOP l : StronglySorted R l <-> ForallOrdPairs R l.
Proof.
  induction l as [|a l IH]. split; constructor.
  split; intros H; inversion H; subst; constructor; auto; apply IH; auto.
Qed.

Lemma FOP_cons_iff a l : ForallOrdPairs R (a :: l) <-> Forall (R a) l /\ ForallOrdPairs R l.
Proof. split; [intros H; inversion H; auto|intros [H1 H2]; constructor; auto]. Qed.

Lemma FOP_app (a b : list A) :
  ForallOrdPairs R (a ++ b) <->
  ForallOrdPairs R a /\ ForallOrdPairs R b /\ forall x y, In x a -> In y b -> R x y.
Proof.
  induction a as [|e a IH]; cbn [app].
  - split.
    + intros H. split; [constructor|]. split; [exact H|]. intros x y Hx. destruct Hx.
    + intros (_ & H & _); auto.
  - rewrite !FOP_cons_iff, IH, Forall_app, !Forall_forall. split.
    + intros ((Ha & Hb) & Hfa & Hfb & Hab). repeat split; auto.
      intros x y [<-|Hx] Hy; auto.
    + intros ((Ha & Hfa) & Hfb & Hab). repeat split; auto.
      intros y Hy. apply Hab; [left; reflexivity|exact Hy].
      intros x y Hx. apply Hab. right. exact Hx.
Qed.

Lemma SS_app (a b : list A) :
  StronglySorted R (a ++ b) <->
  StronglySorted R a /\ StronglySorted R b /\ forall x y, In x a -> In y b -> R x y.
Proof. rewrite !SS_FOP. apply FOP_app. Qed.

Lemma SS_snoc l a : StronglySorted R l -> (forall x, In x l -> R x a) -> StronglySorted R (l ++ [a]).
Proof.
  intros Hl Ha. apply SS_app. split; [exact Hl|]. split; [constructor; constructor|].
  intros x y Hx [<-|[]]. exact (Ha x Hx).
Qed.

Lemma FOP_concat (ls : list (list A)) :
  (forall l, In l ls -> ForallOrdPairs R l) ->
  ForallOrdPairs (fun a b => forall x y, In x a -> In y b -> R x y) ls ->
  ForallOrdPairs R (concat ls).
Proof.
  induction ls as [|l r IH]; intros H1 H2; cbn [concat]. constructor.
  inversion H2; subst. apply FOP_app. split; [|split].
  - apply H1. left; auto.
  - apply IH; auto. intros l' Hl'. apply H1. right; auto.
  - intros x y Hx Hy. apply in_concat in Hy. destruct Hy as (l' & Hl' & Hy).
    rewrite Forall_forall in H3. apply (H3 l' Hl' x y); auto.
Qed.

Lemma FOP_nth (d : A) l :
  ForallOrdPairs R l <->
  forall i j, i < j -> j < length l -> R (nth i l d) (nth j l d).
Proof.
  induction l as [|a l IH].
  - split. intros _ i j _ H. cbn in H. lia. constructor.
  - split.
    + intros H i j Hij Hj. inversion H; subst. rewrite Forall_forall in H2.
      destruct j as [|j]; [lia|]. cbn [length] in Hj.
      destruct i as [|i]; cbn [nth].
      * apply H2. apply nth_In. lia.
      * apply IH; auto; lia.
    + intros H. constructor.
      * apply Forall_forall. intros x Hx. destruct (In_nth _ _ d Hx) as (j & Hj & <-).
        apply (H 0 (S j)). lia. cbn [length]. lia.
      * apply IH. intros i j Hij Hj. apply (H (S i) (S j)). lia. cbn [length]. lia.
Qed.

Lemma FOP_impl (R' : A -> A -> Prop) l :
  (forall x y, In x l -> In y l -> R x y -> R' x y) -> ForallOrdPairs R l -> ForallOrdPairs R' l.
Proof.
  intros HI H. induction H as [|a l Ha Hl IH]; constructor.
  - rewrite Forall_forall in *. intros x Hx. apply HI; auto. left; auto. right; auto.
  - apply IH. intros x y Hx Hy. apply HI; right; auto.
Qed.

Lemma FOP_conj (R' : A -> A -> Prop) l :
  ForallOrdPairs R l -> ForallOrdPairs R' l -> ForallOrdPairs (fun x y => R x y /\ R' x y) l.
Proof.
  induction 1 as [|a l Ha Hl IH]; intros H'; inversion H'; subst; constructor; auto.
  rewrite Forall_forall in *. intros x Hx; split; auto.
Qed.

Lemma FOP_filter p l : ForallOrdPairs R l -> ForallOrdPairs R (filter p l).
Proof.
  induction 1 as [|a l Ha Hl IH]; cbn [filter]. constructor.
  destruct (p a); auto. constructor; auto.
  rewrite Forall_forall in *. intros x Hx. apply filter_In in Hx. apply Ha, Hx.
Qed.

Lemma SS_filter p l : StronglySorted R l -> StronglySorted R (filter p l).
Proof. rewrite !SS_FOP. apply FOP_filter. Qed.

(* a test that stays false once it is false along the list cuts it in two *)
Lemma SS_cut p l : StronglySorted R l ->
  (forall x y, In x l -> In y l -> R x y -> p x = false -> p y = false) ->
  exists l1 l2, l = l1 ++ l2 /\ (forall x, In x l1 -> p x = true) /\ (forall x, In x l2 -> p x = false).
Proof.
  induction 1 as [|a l Hl IH Ha]; intros Hm; [exists [], []; repeat split; intros x []|].
  destruct (p a) eqn:E.
  - destruct IH as (l1 & l2 & -> & H1 & H2); [intros x y Hx Hy; apply Hm; right; assumption|].
    exists (a :: l1), l2. split; [reflexivity|]. split; [|exact H2]. intros x [<-|Hx]; auto.
  - exists [], (a :: l). split; [reflexivity|]. split; [intros x []|]. intros x [<-|Hx]; [exact E|].
    rewrite Forall_forall in Ha. apply (Hm a x); auto with datatypes.
Qed.

(* irreflexive and transitive: the list is determined by its members *)
Hypothesis R_irrefl : forall a, ~ R a a.

Hypothesis R_trans : forall a b c, R a b -> R b c -> R a c.

Lemma SS_ext l1 l2 :
  StronglySorted R l1 -> StronglySorted R l2 -> (forall x, In x l1 <-> In x l2) -> l1 = l2.
Proof.
  revert l2. induction l1 as [|a l1 IH]; intros l2 H1 H2 Hm.
  - destruct l2 as [|b l2]; [reflexivity|]. exfalso. apply (proj2 (Hm b)). left. reflexivity.
  - destruct l2 as [|b l2]; [exfalso; apply (proj1 (Hm a)); left; reflexivity|].
    inversion H1 as [|a' l1' Hs1 Hf1]; subst. inversion H2 as [|b' l2' Hs2 Hf2]; subst.
    rewrite Forall_forall in Hf1, Hf2.
    assert (Hab : a = b).
    { destruct (proj1 (Hm a) (or_introl eq_refl)) as [Hba|Hin]; [symmetry; exact Hba|].
      destruct (proj2 (Hm b) (or_introl eq_refl)) as [Hba|Hin2]; [exact Hba|].
      exfalso. apply (R_irrefl a). apply (R_trans a b a); [apply Hf1; exact Hin2|apply Hf2; exact Hin]. }
    subst b. f_equal. apply IH; [exact Hs1|exact Hs2|].
    intros x. split; intros Hx.
    + destruct (proj1 (Hm x) (or_intror Hx)) as [Hax|Hin]; [|exact Hin].
      subst x. exfalso. apply (R_irrefl a). apply Hf1. exact Hx.
    + destruct (proj2 (Hm x) (or_intror Hx)) as [Hax|Hin]; [|exact Hin].
      subst x. exfalso. apply (R_irrefl a). apply Hf2. exact Hx.
Qed.

End Pairs.

Lemma SS_rev (R : A -> A -> Prop) l : StronglySorted R l -> StronglySorted (fun a b => R b a) (rev l).
Proof.
  induction 1 as [|a r Hr IH Hall]; [constructor|]. cbn [rev]. apply SS_snoc; [exact IH|].
  rewrite Forall_forall in Hall. intros x Hx. apply Hall. apply in_rev. exact Hx.
Qed.

End Lists.

Lemma FOP_map {A B} (f : A -> B) (R : B -> B -> Prop) (l : list A) :
  ForallOrdPairs R (map f l) <-> ForallOrdPairs (fun x y => R (f x) (f y)) l.
Proof.
  induction l as [|a l IH]; cbn [map].
  - split; constructor.
  - rewrite !FOP_cons_iff, IH, Forall_map. reflexivity.
Qed.

(* [NoDup] is that relation at [<>] *)
Lemma NoDup_FOP {A} (l : list A) : NoDup l <-> ForallOrdPairs (fun x y => x <> y) l.
Proof.
  induction l as [|a l IH]. split; constructor.
  rewrite NoDup_cons_iff, FOP_cons_iff, IH, Forall_forall. split; intros [H1 H2]; split; auto.
  - intros x Hx ->. exact (H1 Hx).
  - intros Hin. exact (H1 a Hin eq_refl).
Qed.

Lemma SS_NoDup {A} (R : A -> A -> Prop) : (forall a, ~ R a a) -> forall l, StronglySorted R l -> NoDup l.
Proof. intros HR l. rewrite SS_FOP, NoDup_FOP. apply FOP_impl. intros x y _ _ Hxy ->. exact (HR _ Hxy). Qed.

Lemma NoDup_app_iff {A} (a b : list A) :
  NoDup (a ++ b) <-> NoDup a /\ NoDup b /\ forall x, In x a -> In x b -> False.
Proof.
  rewrite !NoDup_FOP, FOP_app. split; intros (Ha & Hb & H); repeat split; auto.
  - intros x Hx Hy. exact (H x x Hx Hy eq_refl).
  - intros x y Hx Hy ->. exact (H y Hx Hy).
Qed.

Lemma NoDup_snoc {A} (l : list A) a : NoDup l -> ~ In a l -> NoDup (l ++ [a]).
Proof.
  intros Hl Ha. apply NoDup_app_iff. split; [exact Hl|]. split; [constructor; [intros []|constructor]|].
  intros x Hx [<-|[]]. exact (Ha Hx).
Qed.

Lemma NoDup_map_inj {A B} (f : A -> B) l x y : NoDup (map f l) -> In x l -> In y l -> f x = f y -> x = y.
Proof.
  rewrite NoDup_FOP, FOP_map. intros H Hx Hy E.
  destruct (ForallOrdPairs_In H x y Hx Hy) as [H0|[H0|H0]]; [exact H0|destruct (H0 E)|destruct (H0 (eq_sym E))].
Qed.

Lemma NoDup_map_filter {A B} (g : A -> B) (p : A -> bool) (l : list A) :
  NoDup (map g l) -> NoDup (map g (filter p l)).
Proof. rewrite !NoDup_FOP, !FOP_map. apply FOP_filter. Qed.

Lemma NoDup_map_firstn {A B} (f : A -> B) n l : NoDup (map f l) -> NoDup (map f (firstn n l)).
Proof. rewrite (map_firstn_skipn f n l), NoDup_app_iff. intro H. apply H. Qed.

(* no duplicates in [flat_map g l]: an element of it comes from one position of l *)
Lemma NoDup_flat_map_nth {A B} (g : A -> list B) (l : list A) : NoDup (flat_map g l) ->
  forall i j a b x, nth_error l i = Some a -> nth_error l j = Some b -> In x (g a) -> In x (g b) -> i = j.
Proof.
  induction l as [|c r IH]; intros ND i j a b x Hi Hj Ha Hb; [destruct i; discriminate|].
  cbn [flat_map] in ND. apply NoDup_app_iff in ND. destruct ND as [_ [Hr Hd]].
  destruct i as [|i], j as [|j]; cbn [nth_error] in Hi, Hj.
  - reflexivity.
  - injection Hi as ->. destruct (Hd x Ha). apply in_flat_map. exists b. split; [eapply nth_error_In; exact Hj|exact Hb].
  - injection Hj as ->. destruct (Hd x Hb). apply in_flat_map. exists a. split; [eapply nth_error_In; exact Hi|exact Ha].
  - f_equal. exact (IH Hr i j a b x Hi Hj Ha Hb).
Qed.

Lemma find_map {A B} (f : A -> B) (P : B -> bool) (l : list A) :
  find P (map f l) = option_map f (find (fun x => P (f x)) l).
Proof.
  induction l as [|x r IH]; cbn [map find option_map]; [reflexivity|].
  destruct (P (f x)); [reflexivity|exact IH].
Qed.

Lemma in_map_fst {A B} (l : list (A * B)) a : In a (map fst l) -> exists b, In (a, b) l.
Proof. intro H. apply in_map_iff in H. destruct H as [[a' b] [E Hin]]. cbn [fst] in E; subst a'. eauto. Qed.

(* a list of keyed lists, each the value of F at its key, flattens to F over the keys *)
Lemma flat_map_by_key {K C} (F : K -> list C) (l : list (K * list C)) :
  (forall n b, In (n, b) l -> b = F n) -> flat_map snd l = flat_map F (map fst l).
Proof.
  induction l as [|[n b] r IH]; intro H; cbn [flat_map map fst snd]; [reflexivity|].
  rewrite (H n b (or_introl eq_refl)), IH; [reflexivity|intros; apply H; right; assumption].
Qed.

Lemma concat_snoc {A} (ls : list (list A)) l : concat (ls ++ [l]) = concat ls ++ l.
Proof. rewrite concat_app. cbn [concat]. rewrite app_nil_r. reflexivity. Qed.

Lemma concat_map_snd_app {A B} (l : list (A * list B)) x :
  concat (map snd (l ++ [x])) = concat (map snd l) ++ snd x.
Proof. rewrite map_app. apply concat_snoc. Qed.

Lemma fold_snoc {A} (l l0 : list A) : fold_left (fun s x => s ++ [x]) l l0 = l0 ++ l.
Proof.
  revert l0. induction l as [|x l IH]; intros l0; cbn [fold_left].
  - rewrite app_nil_r. reflexivity.
  - rewrite IH, <- app_assoc. reflexivity.
Qed.

(* reading a conjunction of tests, the second one knowing what the first says *)
Lemma andb_split (a b : bool) (P Q : Prop) :
  (a = true <-> P) -> (P -> (b = true <-> Q)) -> (a && b = true <-> P /\ Q).
Proof.
  intros H1 H2. rewrite andb_true_iff, H1. split; intros [HP HQ]; (split; [exact HP|apply (H2 HP), HQ]).
Qed.
