(* LiveViewProofs.v -- what [live_of_sorted] (the live view a DB iterator must
   yield) contains: per user key, the first entry with sequence <= q of a strictly
   sorted run, present iff it is a value; and the view is strictly sorted by user key.

   [live_of_sorted q prev] is a left fold whose state [prev] is the user key being
   hidden: [out] is what one entry adds, [adv] the next state, [after] the state behind
   a prefix, and the view of l1 ++ l2 is that of l1 followed by that of l2 from
   [after prev l1] (live_app).  DbIterProofs.v runs the same fold on the iterator. *)
From LCDB Require Import Base Cursor CursorProofs Engine EngineSpec EngineStepsBase.
Local Open Scope N_scope.

Section Live.
Variable ucmp : bytes -> bytes -> comparison.
(* [total_order] is a class: [Existing Class total_order] in EngineStepsBase.v *)
Context {TO : total_order ucmp}.
Variable q : N.

Notation Srt := (EngineStepsBase.Srt ucmp).
Notation live := (live_of_sorted ucmp q).

Definition vis (e : entry) : bool := es e <=? q.
Definition kv (e : entry) : bytes * bytes := (ek e, ev e).
(* order of the view: by user key *)
Definition klt (a b : bytes * bytes) : bool := ult ucmp (fst a) (fst b).

Lemma klt_irrefl a : klt a a = false.
Proof. unfold klt, ult. rewrite (cmp_refl TO). reflexivity. Qed.

Lemma klt_trans a b c : klt a b = true -> klt b c = true -> klt a c = true.
Proof.
  unfold klt. intros H1 H2. apply (ult_iff ucmp). apply (ult_iff ucmp) in H1, H2.
  exact (cmp_lt_trans TO _ _ _ H1 H2).
Qed.

(* e has the key hidden by prev *)
Definition same (prev : option bytes) (e : entry) : bool :=
  match prev with Some k => ueq ucmp (ek e) k | None => false end.
(* what e adds to the view, and the [prev] the fold goes on with *)
Definition out (prev : option bytes) (e : entry) : list (bytes * bytes) :=
  if vis e && negb (same prev e) && et e then [kv e] else [].
Definition adv (prev : option bytes) (e : entry) : option bytes :=
  if vis e then if same prev e then prev else Some (ek e) else prev.
Definition after (prev : option bytes) (l : list entry) : option bytes := fold_left adv l prev.

Lemma live_step prev a r : live prev (a :: r) = out prev a ++ live (adv prev a) r.
Proof.
  cbn [live_of_sorted]. unfold out, adv, same, vis.
  destruct (es a <=? q); [|reflexivity].
  destruct (match prev with Some k => ueq ucmp (ek a) k | None => false end); [reflexivity|].
  destruct (et a); reflexivity.
Qed.

(* the four things one entry can do to the fold *)
Lemma step_ignored prev e : vis e = false -> out prev e = [] /\ adv prev e = prev.
Proof. intros V. unfold out, adv. rewrite V. auto. Qed.

Lemma step_hidden prev e : same prev e = true -> out prev e = [] /\ adv prev e = prev.
Proof. intros S. unfold out, adv. rewrite S. destruct (vis e); auto. Qed.

Lemma step_head prev e :
  vis e = true -> same prev e = false -> et e = true -> out prev e = [kv e] /\ adv prev e = Some (ek e).
Proof. intros V S T. unfold out, adv. rewrite V, S, T. auto. Qed.

Lemma step_deleted prev e :
  vis e = true -> same prev e = false -> et e = false -> out prev e = [] /\ adv prev e = Some (ek e).
Proof. intros V S T. unfold out, adv. rewrite V, S, T. auto. Qed.

Lemma out_deleted prev e : et e = false -> out prev e = [].
Proof. intros T. unfold out. rewrite T, andb_false_r. reflexivity. Qed.

Lemma out_head prev e x : In x (out prev e) <-> x = kv e /\ vis e = true /\ et e = true /\ same prev e = false.
Proof.
  unfold out. split.
  - destruct (vis e); [|intros []]. destruct (same prev e); [intros []|]. destruct (et e); [|intros []].
    intros [<-|[]]. auto.
  - intros (-> & -> & -> & ->). left. reflexivity.
Qed.

Lemma live_app prev l1 l2 : live prev (l1 ++ l2) = live prev l1 ++ live (after prev l1) l2.
Proof.
  revert prev. induction l1 as [|a r IH]; intros prev; [reflexivity|].
  cbn [app]. rewrite !live_step, IH, app_assoc. reflexivity.
Qed.

Lemma live_snoc prev l1 e : live prev (l1 ++ [e]) = live prev l1 ++ out (after prev l1) e.
Proof. rewrite live_app, live_step, app_nil_r. reflexivity. Qed.

Lemma after_app prev a b : after prev (a ++ b) = after (after prev a) b.
Proof. apply fold_left_app. Qed.

Lemma after_snoc prev l1 e : after prev (l1 ++ [e]) = adv (after prev l1) e.
Proof. apply after_app. Qed.

(* entries with sequence > q are ignored *)
Lemma live_invis prev m : (forall x, In x m -> vis x = false) -> live prev m = [] /\ after prev m = prev.
Proof.
  induction m as [|x m IH]; intros H; [auto|]. rewrite live_step. unfold after. cbn [fold_left].
  destruct (step_ignored prev x (H x (in_eq _ _))) as [-> ->]. apply IH. auto using in_cons.
Qed.

(* after a visible entry the fold hides exactly its key *)
Lemma same_adv prev e e' : vis e = true -> same (adv prev e) e' = ueq ucmp (ek e') (ek e).
Proof.
  intros V. unfold adv. rewrite V. destruct (same prev e) eqn:S; [|reflexivity].
  destruct prev as [k|]; [|discriminate]. cbn [same] in S |- *. apply (ueq_iff ucmp) in S.
  unfold ueq. rewrite (cmp_eq_r TO (ek e) k (ek e') S). reflexivity.
Qed.

Lemma live_in prev l x : In x (live prev l) -> exists e, In e l /\ vis e = true /\ x = kv e.
Proof.
  revert prev. induction l as [|a r IH]; intros prev; [cbn; intros []|].
  rewrite live_step, in_app_iff. intros [H|H].
  - apply out_head in H. destruct H as (-> & V & _). exists a. auto using in_eq.
  - destruct (IH _ H) as (e & He & R). exists e. auto using in_cons.
Qed.

(* the key hidden after l1 is that of a visible entry of l1 *)
Lemma after_key l1 e :
  same (after None l1) e = true -> exists x, In x l1 /\ vis x = true /\ ucmp (ek e) (ek x) = Eq.
Proof.
  induction l1 as [|a r IH] using rev_ind; [discriminate|]. rewrite after_snoc.
  destruct (vis a) eqn:V.
  - rewrite (same_adv _ a e V), (ueq_iff ucmp). intros E. exists a. auto using in_or_app, in_eq.
  - unfold adv. rewrite V. intros H. destruct (IH H) as (x & Hx & R). exists x. auto using in_or_app.
Qed.

Lemma live_key_eq k k' r : ucmp k k' = Eq -> live (Some k) r = live (Some k') r.
Proof.
  intros E. induction r as [|a r IH]; [reflexivity|]. rewrite !live_step.
  assert (S : same (Some k) a = same (Some k') a).
  { cbn [same]. unfold ueq. rewrite (cmp_eq_r TO k k' (ek a) E). reflexivity. }
  unfold out, adv. rewrite S. destruct (vis a); [|exact IH]. destruct (same (Some k') a); [exact IH|reflexivity].
Qed.

Lemma live_split prev l x :
  In x (live prev l) <-> exists l1 e l2, l = l1 ++ e :: l2 /\ In x (out (after prev l1) e).
Proof.
  revert prev. induction l as [|a r IH]; intros prev.
  - split; [intros []|]. intros (l1 & e & l2 & H & _). destruct l1; discriminate.
  - rewrite live_step. split.
    + intros H. apply in_app_or in H. destruct H as [H|H]; [exists [], a, r; auto|].
      apply IH in H. destruct H as (l1 & e & l2 & E & H). exists (a :: l1), e, l2.
      split; [rewrite E; reflexivity|exact H].
    + intros (l1 & e & l2 & Hl & H). apply in_or_app.
      destruct l1 as [|b l1]; injection Hl as <- ->; [left; exact H|].
      right. apply IH. exists l1, e, l2. auto.
Qed.

(* in a sorted run the converse of after_key: a visible entry of the key of e hides e *)
Lemma after_same l1 e x :
  Srt (l1 ++ [e]) -> In x l1 -> vis x = true -> ucmp (ek x) (ek e) = Eq -> same (after None l1) e = true.
Proof.
  induction l1 as [|a l1 IH] using rev_ind; intros Hs Hx Vx E; [destruct Hx|].
  apply (Srt_app ucmp) in Hs. destruct Hs as (Hs1 & He & Hae). apply (Srt_app ucmp) in Hs1.
  destruct Hs1 as (Hs1 & _ & Hla). rewrite after_snoc. apply in_app_or in Hx.
  destruct (vis a) eqn:Va.
  - rewrite (same_adv _ a e Va). apply (ueq_iff ucmp), (cmp_eq_sym TO).
    pose proof (ilt_ukey ucmp a e (Hae a e (in_or_app _ _ _ (or_intror (in_eq _ _))) (in_eq _ _))) as Hae'.
    destruct Hx as [Hx|[<-|[]]]; [|exact E].
    exact (proj2 (cmp_squeeze TO _ _ _ (ilt_ukey ucmp x a (Hla x a Hx (in_eq _ _))) Hae' E)).
  - unfold adv. rewrite Va. destruct Hx as [Hx|[<-|[]]]; [|congruence].
    apply IH; auto. apply (Srt_app ucmp). split; [exact Hs1|]. split; [exact He|].
    intros y z Hy. apply Hae, in_or_app. left. exact Hy.
Qed.

End Live.

Section LiveSorted.
Variable ucmp : bytes -> bytes -> comparison.
Context {TO : total_order ucmp}.
Variable q : N.
Variable l : list entry.
Hypothesis Hs : EngineStepsBase.Srt ucmp l.

(* the view holds, per user key, the newest entry with sequence <= q, when that is a value *)
Theorem live_newest x :
  In x (live_of_sorted ucmp q None l) <->
  exists e, is_best ucmp l (ek e) q (Some e) /\ et e = true /\ x = kv e.
Proof.
  assert (Hm: forall e e', matches ucmp (ek e) q e' = true <-> ucmp (ek e') (ek e) = Eq /\ vis q e' = true).
  { intros e e'. unfold vis. rewrite (matches_iff ucmp), (ueq_iff ucmp), N.leb_le. reflexivity. }
  split.
  - intros Hx. apply (live_split ucmp q) in Hx. destruct Hx as (l1 & e & l2 & Hl & Hx). apply out_head in Hx. destruct Hx as (-> & Ve & Te & S).
    rewrite Hl in Hs |- *. exists e. split; [|auto]. split; [apply in_elt|]. split; [apply Hm; split; [apply (cmp_refl TO)|exact Ve]|].
    intros e' He' Me'. apply Hm in Me'. destruct Me' as [E Ve']. apply in_app_or in He'. destruct He' as [He'|[<-|He']].
    + (* in front of e: it would hide e *)
      change (e :: l2) with ([e] ++ l2) in Hs. rewrite app_assoc in Hs.
      rewrite (after_same ucmp q l1 e e' (proj1 (proj1 (Srt_app ucmp _ _) Hs)) He' Ve' E) in S. discriminate.
    + apply N.le_refl.
    + (* behind e, with its key: older *)
      apply N.lt_le_incl, (ilt_ueq_seq ucmp e e').
      * exact (proj2 (Srt_cons_inv ucmp _ _ (proj1 (proj2 (proj1 (Srt_app ucmp _ _) Hs)))) e' He').
      * apply (ueq_iff ucmp), (cmp_eq_sym TO). exact E.
  - intros (e & (He & Me & Hnew) & Te & ->). apply Hm in Me. destruct Me as [_ Ve]. destruct (in_split e l He) as (l1 & l2 & Hl).
    apply (live_split ucmp q). exists l1, e, l2. split; [exact Hl|]. apply out_head. split; [reflexivity|]. split; [exact Ve|]. split; [exact Te|].
    destruct (same ucmp (after ucmp q None l1) e) eqn:S; [exfalso|reflexivity].
    destruct (after_key ucmp q l1 e S) as (y & Hy & Vy & E).
    (* y in front of e with its key is newer than e *)
    rewrite Hl in Hs. pose proof (proj2 (proj2 (proj1 (Srt_app ucmp _ _) Hs)) y e Hy (in_eq _ _)) as L.
    pose proof (cmp_eq_sym TO _ _ E) as E'.
    pose proof (ilt_ueq_seq ucmp y e L (proj2 (ueq_iff ucmp _ _) E')) as Hlt.
    apply (N.lt_irrefl (es e)), (N.lt_le_trans _ _ _ Hlt).
    apply Hnew; [rewrite Hl; apply in_or_app; left; exact Hy|apply Hm; auto].
Qed.

Theorem live_view_sorted : SrtBy (klt ucmp) (live_of_sorted ucmp q None l).
Proof.
  clear -TO Hs. induction l as [|e l1 IH] using rev_ind; [constructor|].
  rewrite live_snoc. pose proof (proj1 (Srt_app ucmp _ _) Hs) as (Hs1 & _ & Hle).
  destruct (out ucmp q (after ucmp q None l1) e) as [|x o] eqn:Ho; [rewrite app_nil_r; exact (IH Hs1)|].
  assert (Hx : In x (x :: o)) by apply in_eq. rewrite <- Ho in Hx. apply out_head in Hx.
  destruct Hx as (-> & Ve & Te & S). unfold out in Ho. rewrite Ve, Te, S in Ho. injection Ho as <-.
  apply SS_snoc; [exact (IH Hs1)|]. intros y Hy.
  destruct (live_in ucmp q _ _ y Hy) as (a & Ha & Va & ->). unfold klt, kv. cbn [fst]. apply (ult_iff ucmp).
  pose proof (ilt_ukey ucmp a e (Hle a e Ha (in_eq _ _))) as H1.
  destruct (ucmp (ek a) (ek e)) eqn:E; [|reflexivity|congruence].
  rewrite (after_same ucmp q l1 e a Hs Ha Va E) in S. discriminate.
Qed.

End LiveSorted.
