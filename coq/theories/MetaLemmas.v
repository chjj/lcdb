(* MetaLemmas.v -- lemmas shared by the proofs of the metadata codecs (BatchProofs,
   EditProofs, ManifestBuilderProofs).  The varint / slice readers consume
   input, and reading is stable under appending more input.  Section Ins: insertion into
   a list strictly sorted by a comparison function (BaseProofs.order). *)
From LCDB Require Import Base Varint BaseProofs VarintProofs.
From Coq Require Import Lia Sorted.
Local Open Scope N_scope.

Lemma varint_read_loop_shrinks : forall k width mult acc l v r,
  varint_read_loop k width mult acc l = Some (v, r) -> (length r < length l)%nat.
Proof.
  intros k width mult acc l v r H. apply varint_read_loop_consumes in H.
  destruct H as (pre & -> & Hl & _). rewrite app_length. lia.
Qed.

Lemma slice_read_shrinks : forall l s r,
  slice_read l = Some (s, r) -> (length r < length l)%nat.
Proof.
  unfold slice_read. intros l s r H.
  destruct (varint32_read l) as [[n b]|] eqn:Hv; [|discriminate H].
  destruct (nlen b <? n); [discriminate H|].
  injection H as _ Hr. subst r. apply varint_read_loop_shrinks in Hv.
  unfold drop_n. rewrite skipn_length. lia.
Qed.

Lemma varint_read_loop_app : forall k width mult acc l v r y,
  varint_read_loop k width mult acc l = Some (v, r) ->
  varint_read_loop k width mult acc (l ++ y) = Some (v, r ++ y).
Proof.
  induction k as [|k IH]; intros width mult acc l v r y H;
    cbn [varint_read_loop] in H; [discriminate H|].
  destruct l as [|b l']; [discriminate H|].
  cbn [app varint_read_loop].
  destruct (128 <=? b).
  - apply IH. exact H.
  - injection H as Hv Hr. subst. reflexivity.
Qed.

Lemma varint32_read_app : forall l v r y,
  varint32_read l = Some (v, r) -> varint32_read (l ++ y) = Some (v, r ++ y).
Proof. intros. unfold varint32_read in *. apply varint_read_loop_app. assumption. Qed.

Lemma varint64_read_app : forall l v r y,
  varint64_read l = Some (v, r) -> varint64_read (l ++ y) = Some (v, r ++ y).
Proof. intros. unfold varint64_read in *. apply varint_read_loop_app. assumption. Qed.

Lemma slice_read_app : forall l s r y,
  slice_read l = Some (s, r) -> slice_read (l ++ y) = Some (s, r ++ y).
Proof.
  unfold slice_read. intros l s r y H.
  destruct (varint32_read l) as [[n b]|] eqn:Hv; [|discriminate H].
  rewrite (varint32_read_app _ _ _ y Hv).
  destruct (nlen b <? n) eqn:Hn; [discriminate H|].
  apply N.ltb_ge in Hn. injection H as Hs Hr. subst s r.
  rewrite nlen_app.
  replace (nlen b + nlen y <? n) with false by (symmetry; apply N.ltb_ge; lia).
  unfold take_n, drop_n. unfold nlen in Hn.
  rewrite firstn_app, skipn_app.
  replace (N.to_nat n - length b)%nat with 0%nat by lia.
  cbn [firstn skipn]. rewrite app_nil_r. reflexivity.
Qed.

(* Insertion into a strictly sorted list that drops what compares equal (rb_set_put):
   Edit.set_insert and ManifestReplay.fset_insert are [set_put] at their comparison. *)
Section Ins.
Context {A : Type} (cmp : A -> A -> comparison).

Fixpoint set_put (x : A) (l : list A) : list A :=
  match l with
  | [] => [x]
  | y :: r =>
      match cmp x y with
      | Lt => x :: l
      | Eq => l
      | Gt => y :: set_put x r
      end
  end.

Definition set_put_all (xs s : list A) : list A := fold_left (fun s x => set_put x s) xs s.

Lemma set_put_Forall : forall (P : A -> Prop) x l, P x -> Forall P l -> Forall P (set_put x l).
Proof.
  intros P x l Hx. induction 1 as [|y l Hy Hl IH]; cbn [set_put]; [repeat constructor; exact Hx|].
  destruct (cmp x y); repeat constructor; assumption.
Qed.

Lemma set_put_all_Forall : forall (P : A -> Prop) xs s,
  Forall P xs -> Forall P s -> Forall P (set_put_all xs s).
Proof.
  intros P xs s H. revert s. induction H as [|x xs Hx _ IH]; intros s Hs; [exact Hs|].
  apply IH, set_put_Forall; assumption.
Qed.

(* the members, where what compares equal is equal *)
Lemma set_put_In : forall x l z,
  (forall y, In y l -> cmp x y = Eq -> x = y) -> (In z (set_put x l) <-> x = z \/ In z l).
Proof.
  intros x l z. induction l as [|y l IH]; intros H; cbn [set_put]; [reflexivity|].
  destruct (cmp x y) eqn:E; [|reflexivity|].
  - rewrite (H y (or_introl eq_refl) E). split; [right; assumption|intros [<-|Hz]; [left; reflexivity|exact Hz]].
  - cbn [In]. rewrite (IH (fun y Hy => H y (or_intror Hy))). split; intros [Hz|[Hz|Hz]]; auto.
Qed.

Lemma set_put_all_In : forall xs s z,
  (forall x y, In x xs -> In y (s ++ xs) -> cmp x y = Eq -> x = y) ->
  (In z (set_put_all xs s) <-> In z s \/ In z xs).
Proof.
  induction xs as [|x xs IH]; intros s z H; cbn [set_put_all fold_left In]; [split; [left; assumption|intros [Hz|[]]; exact Hz]|].
  fold (set_put_all xs (set_put x s)).
  assert (Hx : forall z, In z (set_put x s) <-> x = z \/ In z s).
  { intros z'. apply set_put_In. intros y Hy. apply H; [left; reflexivity|apply in_or_app; left; exact Hy]. }
  rewrite IH, Hx; [split; [intros [[Hz|Hz]|Hz]|intros [Hz|[Hz|Hz]]]; auto|].
  intros x' y Hx' Hy. apply (H x' y (or_intror Hx')).
  apply in_app_or in Hy. destruct Hy as [Hy|Hy]; [apply Hx in Hy; destruct Hy as [<-|Hy]|]; apply in_or_app; cbn [In]; auto.
Qed.

Hypothesis O : order cmp.
Notation sorted := (StronglySorted (fun a b => cmp a b = Lt)).

Lemma set_put_sorted : forall x l, sorted l -> sorted (set_put x l).
Proof.
  intros x. induction l as [|y l IH]; intros Hs; cbn [set_put].
  - constructor; constructor.
  - inversion Hs as [|y' l' Hs' Hf]; subst. destruct (cmp x y) eqn:Hxy.
    + exact Hs.
    + constructor; [exact Hs|]. constructor; [exact Hxy|].
      eapply Forall_impl; [|exact Hf]. intros z. apply (cmp_lt_trans O), Hxy.
    + constructor; [apply IH; exact Hs'|].
      apply set_put_Forall; [apply (cmp_gt_lt O); exact Hxy|exact Hf].
Qed.

Lemma set_put_all_sorted : forall xs s, sorted s -> sorted (set_put_all xs s).
Proof.
  induction xs as [|x xs IH]; intros s Hs; [exact Hs|]. apply IH, set_put_sorted, Hs.
Qed.
End Ins.
