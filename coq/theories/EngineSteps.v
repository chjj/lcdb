(* EngineSteps.v -- every guarded step of the engine model preserves the executable
   invariant inv_b and the agreement with the ghost write history; every step but OWrite
   preserves what a reader can see (view) at every readable sequence, and OWrite preserves
   the views at the sequences up to last_seq.

   Two facts about reachable states are NOT part of inv_b and are needed as extra
   hypotheses (counterexamples without them are recorded at the end of this file):
     hist_bounded s : (EngineStepsBasic) every ghost-history entry has a sequence <= last_seq s
                      (needed for hist_ok across OWrite),
     seqs_pos s     : every stored entry has a sequence >= 1
                      (needed for views across OReopen, which keeps an entry e only if 0 <? es e).
   Both hold initially and are preserved by every step: Inv2. *)
From LCDB Require Import Base Engine EngineSpec.
From LCDB Require Import EngineStepsBase EngineStepsInv EngineStepsBasic
                         EngineStepsFlush EngineStepsEdit.
From Coq Require Import Sorting.Sorted.
Require Import Lia.
Local Open Scope N_scope.

Section Steps.
Variable ucmp : bytes -> bytes -> comparison.
Hypothesis TO : total_order ucmp.

Notation SInv := (EngineStepsInv.SInv ucmp).

Definition Inv2 (s : state) : Prop := inv_b ucmp s = true /\ hist_bounded s /\ seqs_pos s.

Definition structural (o : op) : Prop := match o with OWrite _ => False | _ => True end.

Lemma op_cases o : (exists b, o = OWrite b) \/ structural o.
Proof. destruct o; cbn [structural]; eauto. Qed.

Lemma run_inv (P : state -> Prop) :
  (forall s o s', P s -> step ucmp s o = Some s' -> P s') ->
  forall ops s s', P s -> run ucmp s ops = Some s' -> P s'.
Proof.
  intros Hstep. induction ops as [|o r IH]; intros s s' HP H; cbn [run] in H.
  - injection H as <-. exact HP.
  - destruct (step ucmp s o) as [s1|] eqn:E; [|discriminate].
    exact (IH s1 s' (Hstep s o s1 HP E) H).
Qed.

(* what a step does to the snapshot list *)
Definition snaps_after (s : state) (o : op) (sn : list N) : Prop :=
  match o with
  | OSnapshot => sn = snaps s ++ [last_seq s]
  | ORelease q => remove_first q (snaps s) = Some sn
  | OReopen _ _ _ => sn = []
  | _ => sn = snaps s
  end.

Lemma step_meta s o s' :
  structural o -> step ucmp s o = Some s' ->
  last_seq s' = last_seq s /\ hist s' = hist s /\ snaps_after s o (snaps s').
Proof.
  intros Hst H. destruct o as [b| |lvl num nf|c|L n| |qr|bounds nums nf]; cbn [step] in H; cbn in Hst.
  - contradiction.
  - apply switch_state in H. destruct H as [_ ->]. cbn. auto.
  - apply (flush_state ucmp) in H. destruct H as (im & _ & _ & _ & _ & _ & ->). cbn. auto.
  - apply (compact_state ucmp) in H. destruct H as (_ & outs & _ & ->). cbn. auto.
  - apply (move_state ucmp) in H. destruct H as (_ & ->). cbn. auto.
  - injection H as <-. cbn. auto.
  - apply release_state in H. destruct H as (sn & E & ->). cbn. auto.
  - apply (reopen_state ucmp) in H. destruct H as (fs & top & _ & _ & _ & _ & ->). cbn. auto.
Qed.

Theorem init_inv : inv_b ucmp init_state = true.
Proof. reflexivity. Qed.

Lemma step_SInv s o s' : SInv s -> step ucmp s o = Some s' -> SInv s'.
Proof.
  intros HI H. destruct o as [b| |lvl num nf|c|L n| |q|bounds nums nf]; cbn [step] in H.
  - injection H as <-. apply write_SInv; auto.
  - eapply switch_SInv; eauto.
  - eapply (flush_SInv ucmp); eauto.
  - eapply (compact_SInv ucmp); eauto.
  - eapply (move_SInv ucmp); eauto.
  - injection H as <-. apply snapshot_SInv; auto.
  - eapply release_SInv; eauto.
  - eapply (reopen_SInv ucmp); eauto.
Qed.

Theorem step_preserves_inv : forall s o s',
  inv_b ucmp s = true -> step ucmp s o = Some s' -> inv_b ucmp s' = true.
Proof.
  intros s o s' HI H. apply (inv_b_SInv ucmp). apply (inv_b_SInv ucmp) in HI.
  eapply step_SInv; eauto.
Qed.

Theorem run_preserves_inv : forall ops s s',
  inv_b ucmp s = true -> run ucmp s ops = Some s' -> inv_b ucmp s' = true.
Proof. exact (run_inv (fun s => inv_b ucmp s = true) step_preserves_inv). Qed.

Lemma step_hist_bounded s o s' :
  hist_bounded s -> step ucmp s o = Some s' -> hist_bounded s'.
Proof.
  intros HB H. destruct (op_cases o) as [(b & ->)|Hst].
  - injection H as <-. apply write_hist_bounded; auto.
  - destruct (step_meta s o s' Hst H) as (E1 & E2 & _).
    intros e He. rewrite E1. apply HB. rewrite <- E2. exact He.
Qed.

(* sharp form: seqs_pos is needed for OReopen only *)
Definition views_side (s : state) (o : op) : Prop :=
  match o with OReopen _ _ _ => seqs_pos s | _ => True end.

(* what a structural step does to the stored entries: none appears, and none goes but in a compaction *)
Lemma step_entries s o s' :
  SInv s -> views_side s o -> structural o -> step ucmp s o = Some s' ->
  (forall e, In e (all_entries s') -> In e (all_entries s)) /\
  ((exists c, o = OCompact c) \/ forall e, In e (all_entries s) -> In e (all_entries s')).
Proof.
  intros HI HS Hst H. destruct o as [b| |lvl num nf|c|L n| |q|bounds nums nf]; cbn [step] in H; cbn in Hst, HS.
  - contradiction.
  - split; [|right]; intros e; apply (switch_all_entries s s' e H).
  - split; [|right]; intros e; apply (flush_all_entries ucmp s lvl num nf s' e HI H).
  - split; [intros e; exact (compact_sub ucmp s c s' e HI H)|eauto].
  - split; [|right]; intros e; apply (move_all_entries ucmp s L n s' e HI H).
  - injection H as <-. auto.
  - apply release_state in H. destruct H as (sn & _ & ->). auto.
  - split; [|right]; intros e; apply (reopen_all_entries ucmp s bounds nums nf s' e HI HS H).
Qed.

Lemma step_seqs_pos s o s' :
  SInv s -> seqs_pos s -> step ucmp s o = Some s' -> seqs_pos s'.
Proof.
  intros HI HP H. destruct (op_cases o) as [(b & ->)|Hst].
  - injection H as <-. apply write_seqs_pos; auto.
  - intros e He. apply HP, (step_entries s o s' HI), He; auto. destruct o; cbn; auto.
Qed.

Theorem init_Inv2 : Inv2 init_state.
Proof. split; [apply init_inv|]. split; intros e []. Qed.

Theorem step_preserves_Inv2 : forall s o s', Inv2 s -> step ucmp s o = Some s' -> Inv2 s'.
Proof.
  intros s o s' (H1 & H2 & H3) H. split; [|split].
  - eapply step_preserves_inv; eauto.
  - eapply step_hist_bounded; eauto.
  - eapply step_seqs_pos; eauto. apply (inv_b_SInv ucmp); auto.
Qed.

Theorem run_preserves_Inv2 : forall ops s s', Inv2 s -> run ucmp s ops = Some s' -> Inv2 s'.
Proof. exact (run_inv Inv2 step_preserves_Inv2). Qed.

Theorem step_preserves_views_sharp : forall s o s',
  inv_b ucmp s = true -> views_side s o -> step ucmp s o = Some s' -> structural o ->
  forall k q, readable s q -> view ucmp s' k q = view ucmp s k q.
Proof.
  intros s o s' HI HS H Hst k q Hq. apply (inv_b_SInv ucmp) in HI.
  destruct (step_entries s o s' HI HS Hst H) as [Hsub [(c & ->)|Hsup]].
  - exact (compact_view ucmp s c s' k q HI H Hq).
  - apply view_ext; auto. split; auto.
Qed.

Theorem step_preserves_views : forall s o s',
  Inv2 s -> step ucmp s o = Some s' -> structural o ->
  forall k q, readable s q -> view ucmp s' k q = view ucmp s k q.
Proof.
  intros s o s' (H1 & H2 & H3) H Hst. apply (step_preserves_views_sharp s o s'); auto.
  destruct o; cbn; auto.
Qed.

Theorem write_preserves_old_views : forall s b k q,
  inv_b ucmp s = true -> q <= last_seq s ->
  view ucmp (do_write ucmp s b) k q = view ucmp s k q.
Proof.
  intros s b k q HI Hq. apply (inv_b_SInv ucmp) in HI. apply write_old_views; auto.
Qed.

Theorem init_hist_ok : hist_ok ucmp init_state.
Proof. intros k q _. reflexivity. Qed.

Lemma step_readable s o s' q :
  SInv s -> step ucmp s o = Some s' -> readable s' q -> readable s q.
Proof.
  intros HI H Hq. destruct (op_cases o) as [(b & ->)|Hst].
  { injection H as <-. exact (write_readable ucmp s b q Hq). }
  destruct (step_meta s o s' Hst H) as (El & _ & Hsn).
  unfold readable in *. apply (N.le_trans _ (smallest_snapshot s')); [|exact Hq].
  apply (smallest_le ucmp); [exact HI|].
  destruct (smallest_cases s') as [Hc|Hc]; [|right; rewrite Hc; exact El].
  (* a snapshot of s' is one of s, or the one just taken *)
  revert Hc. generalize (smallest_snapshot s'). intros x Hx.
  destruct o as [b| |lvl num nf|c|L n| |qr|bounds nums nf]; cbn [snaps_after] in Hsn;
    try (rewrite Hsn in Hx; auto; fail).
  - rewrite Hsn in Hx. apply in_app_or in Hx. destruct Hx as [Hx|[<-|[]]]; auto.
  - left. exact (remove_first_In _ _ _ _ Hsn Hx).
  - rewrite Hsn in Hx. destruct Hx.
Qed.

Lemma structural_hist_ok s o s' :
  Inv2 s -> hist_ok ucmp s -> structural o -> step ucmp s o = Some s' -> hist_ok ucmp s'.
Proof.
  intros HI2 HO Hst H k q Hq. pose proof HI2 as (H1 & H2 & H3).
  pose proof (proj1 (inv_b_SInv ucmp s) H1) as HI.
  pose proof (step_readable s o s' q HI H Hq) as Hq0.
  rewrite (step_preserves_views s o s' HI2 H Hst k q Hq0).
  unfold spec_get. rewrite (proj1 (proj2 (step_meta s o s' Hst H))). apply (HO k q Hq0).
Qed.

Theorem step_preserves_hist_ok : forall s o s',
  Inv2 s -> hist_ok ucmp s -> step ucmp s o = Some s' -> hist_ok ucmp s'.
Proof.
  intros s o s' HI2 HO H. destruct (op_cases o) as [(b & ->)|Hst].
  - pose proof HI2 as (H1 & H2 & _). apply (inv_b_SInv ucmp) in H1.
    injection H as <-. apply write_hist_ok; auto.
  - exact (structural_hist_ok s o s' HI2 HO Hst H).
Qed.

Theorem run_hist_ok : forall ops s,
  run ucmp init_state ops = Some s -> inv_b ucmp s = true /\ hist_ok ucmp s.
Proof.
  intros ops s H.
  destruct (run_inv (fun s => Inv2 s /\ hist_ok ucmp s)) with (2 := conj init_Inv2 init_hist_ok) (3 := H)
    as [(HI & _) HO]; [|auto].
  intros s0 o s1 [HI HO] E. split.
  - exact (step_preserves_Inv2 s0 o s1 HI E).
  - exact (step_preserves_hist_ok s0 o s1 HI HO E).
Qed.

End Steps.

(* the statements without the auxiliary invariants; the witnesses below show where each
   fails, the negations themselves are not stated *)
Definition step_preserves_views_statement : Prop :=
  forall ucmp, total_order ucmp -> forall s o s',
  inv_b ucmp s = true -> step ucmp s o = Some s' ->
  (match o with OWrite _ => False | _ => True end) ->
  forall k q, readable s q -> view ucmp s' k q = view ucmp s k q.
(* cex_reopen_seq0: s = mem [(k,seq 0,v)], last_seq 0, OReopen [] [] 2 loses the entry *)

Definition step_preserves_hist_ok_statement : Prop :=
  forall ucmp, total_order ucmp -> forall s o s',
  inv_b ucmp s = true -> hist_ok ucmp s -> step ucmp s o = Some s' -> hist_ok ucmp s'.
(* cex_write_hist: hist holds an entry with a sequence > last_seq, and a write disagrees with it *)

Section Counterexamples.
Local Definition lv7 := repeat (@nil file) 7.
Local Definition s_seq0 := mkS [mkE [1] 0 true [7]] None lv7 0 [] 2 [mkE [1] 0 true [7]].
Example cex_reopen_seq0 :
  inv_b bytes_compare s_seq0 = true /\
  exists s', step bytes_compare s_seq0 (OReopen [] [] 2) = Some s' /\
             view bytes_compare s_seq0 [1] 0 = Some [7] /\ view bytes_compare s' [1] 0 = None.
Proof. split. reflexivity. eexists. split. reflexivity. split; reflexivity. Qed.

Local Definition s_hist := mkS [mkE [1] 3 true [7]] None lv7 5 [] 2
                               [mkE [1] 100 true [7]; mkE [1] 3 true [7]].
Example cex_write_hist :
  inv_b bytes_compare s_hist = true /\
  let s' := do_write bytes_compare s_hist [WPut [1] [9]] in
  readable s' 100 /\ view bytes_compare s' [1] 100 = Some [9] /\ spec_get bytes_compare s' [1] 100 = Some [7].
Proof. split. reflexivity. cbv zeta. split. unfold readable. cbn. lia. split; reflexivity. Qed.
End Counterexamples.

Print Assumptions step_preserves_inv.
Print Assumptions step_preserves_views.
Print Assumptions run_hist_ok.
