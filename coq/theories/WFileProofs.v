(* WFileProofs.v -- proofs about WFile.v (model of ldb_wfile_t and of the log
   writer driving it).  All under the assumption stated in WFile.v: system calls
   succeed and write(2) writes everything it is given. *)
From LCDB Require Import Base Crc32c LogFormat WFile BaseProofs LogFormatProofs.

Local Open Scope N_scope.

Lemma WBUF_eq : WBUF = 65536.
Proof. reflexivity. Qed.
Lemma WMAX_eq : WMAX = 1073741824.
Proof. reflexivity. Qed.
#[local] Opaque WBUF WMAX.

Lemma written_of_app : forall a b, written_of (a ++ b) = written_of a ++ written_of b.
Proof. intros a b. unfold written_of. apply flat_map_app. Qed.

Lemma written_of_nil : written_of [] = [].
Proof. reflexivity. Qed.

Lemma written_of_cons : forall e es, written_of (e :: es) = sys_bytes e ++ written_of es.
Proof. reflexivity. Qed.

Lemma write_sizes_app : forall a b, write_sizes (a ++ b) = write_sizes a ++ write_sizes b.
Proof. intros a b. unfold write_sizes. apply flat_map_app. Qed.

Lemma appended_app : forall a b, appended (a ++ b) = appended a ++ appended b.
Proof. intros a b. unfold appended. apply flat_map_app. Qed.

Lemma appended_cons : forall op ops, appended (op :: ops) = op_bytes op ++ appended ops.
Proof. reflexivity. Qed.

Lemma os_write_bytes : forall fuel d, written_of (os_write fuel d) = d.
Proof.
  induction fuel as [|f IH]; intros d; destruct d as [|x d]; cbn [os_write]; try reflexivity.
  - rewrite written_of_cons, written_of_nil. cbn [sys_bytes]. apply app_nil_r.
  - destruct (nlen (x :: d) <=? WMAX) eqn:Hle.
    + rewrite written_of_cons, written_of_nil. cbn [sys_bytes]. apply app_nil_r.
    + rewrite written_of_cons, IH. cbn [sys_bytes]. apply take_drop.
Qed.

Lemma fd_write_bytes : forall d, written_of (fd_write d) = d.
Proof. intros d. unfold fd_write. apply os_write_bytes. Qed.

Lemma fd_write_nil : fd_write [] = [].
Proof. unfold fd_write. destruct (N.to_nat (nlen (@nil N) / WMAX)); reflexivity. Qed.

Lemma fd_write_small : forall d, 0 < nlen d <= WMAX -> fd_write d = [WsWrite d].
Proof.
  intros d H. unfold fd_write. destruct d as [|x d]; [rewrite nlen_nil in H; lia|].
  destruct (N.to_nat (nlen (x :: d) / WMAX)); cbn [os_write]; [reflexivity|].
  destruct (N.leb_spec (nlen (x :: d)) WMAX); [reflexivity|lia].
Qed.

(* every call is non-empty and carries at most 2^30 bytes, or, the last one when the fuel runs out,
   whatever is left after [fuel] full calls *)
Lemma os_write_chunks : forall fuel d,
  Forall (fun e => exists c, e = WsWrite c /\ 0 < nlen c /\
                             (nlen c <= WMAX \/ nlen c + WMAX * N.of_nat fuel <= nlen d))
         (os_write fuel d).
Proof.
  induction fuel as [|f IH]; intros d; destruct d as [|x d]; cbn [os_write]; try constructor.
  - exists (x :: d). split; [reflexivity|]. rewrite nlen_cons. lia.
  - constructor.
  - destruct (N.leb_spec (nlen (x :: d)) WMAX) as [Hle|Hle].
    + constructor; [|constructor]. exists (x :: d). split; [reflexivity|]. rewrite nlen_cons in *. lia.
    + constructor.
      * exists (take_n WMAX (x :: d)). split; [reflexivity|]. rewrite nlen_take, WMAX_eq in *. lia.
      * refine (Forall_impl _ _ (IH _)). intros e (c & -> & H). exists c. split; [reflexivity|].
        rewrite nlen_drop in H. lia.
Qed.

Lemma os_write_only_writes : forall fuel d,
  Forall (fun e => exists c, e = WsWrite c /\ c <> []) (os_write fuel d).
Proof.
  intros fuel d. refine (Forall_impl _ _ (os_write_chunks fuel d)).
  intros e (c & -> & H & _). exists c. split; [reflexivity|]. intros ->. discriminate H.
Qed.

(* the fuel of fd_write is adequate: what is left after nlen d / 2^30 full calls fits one call *)
Lemma fd_write_chunks_bound : forall d,
  Forall (fun e => exists c, e = WsWrite c /\ 0 < nlen c <= WMAX) (fd_write d).
Proof.
  intros d. refine (Forall_impl _ _ (os_write_chunks _ d)).
  intros e (c & -> & H). exists c. split; [reflexivity|]. rewrite N2Nat.id in H.
  assert (Hq : nlen d < WMAX * N.succ (nlen d / WMAX)) by (apply N.mul_succ_div_gt; rewrite WMAX_eq; discriminate).
  revert H Hq. generalize (nlen d / WMAX). (* the quotient as a variable: cheaper for lia *) lia.
Qed.

Lemma wf_emit_spec : forall w es buf,
  wf_out (fst (wf_emit w es buf)) = wf_out w ++ es /\
  wf_buf (fst (wf_emit w es buf)) = buf /\
  wf_manifest (fst (wf_emit w es buf)) = wf_manifest w /\
  snd (wf_emit w es buf) = es.
Proof. intros w es buf. unfold wf_emit. cbn [fst snd wf_out wf_buf wf_manifest]. auto. Qed.

(* [r] is what [w] becomes, with the calls issued, when [d] is appended: the calls are recorded
   in the state, what they pass to write(2) followed by the new buffer is the old buffer
   followed by [d], and the buffer stays within its 64 KiB *)
Definition emits (w : wfile) (d : bytes) (r : wfile * list wsys) : Prop :=
  exists es buf, r = wf_emit w es buf /\
    written_of es ++ buf = wf_buf w ++ d /\
    (nlen (wf_buf w) <= WBUF -> nlen buf <= WBUF).

Lemma emits_flush : forall w es, written_of es = wf_buf w -> emits w [] (wf_emit w es []).
Proof.
  intros w es H. exists es, []. rewrite H. split; [reflexivity|]. split; [reflexivity|].
  intros _. apply N.le_0_l.
Qed.

Lemma emits_trans : forall w d1 r1 d2 r2,
  emits w d1 r1 -> emits (fst r1) d2 r2 -> emits w (d1 ++ d2) (fst r2, snd r1 ++ snd r2).
Proof.
  intros w d1 r1 d2 r2 (es1 & b1 & -> & H1 & B1) (es2 & b2 & -> & H2 & B2).
  cbn [wf_emit fst snd wf_buf wf_out wf_manifest] in *.
  exists (es1 ++ es2), b2. unfold wf_emit. rewrite app_assoc. split; [reflexivity|]. split.
  - rewrite written_of_app, <- app_assoc, H2, !app_assoc, H1. reflexivity.
  - intros Hb. apply B2, B1, Hb.
Qed.

Lemma wf_append_emits : forall w d, emits w d (wf_append w d).
Proof.
  intros w d. unfold wf_append.
  set (copy := N.min (nlen d) (WBUF - nlen (wf_buf w))).
  pose proof (take_drop N copy d) as Htd.
  destruct (nlen (drop_n copy d) =? 0) eqn:E0; [|destruct (nlen (drop_n copy d) <? WBUF) eqn:E1];
    eexists; eexists; (split; [reflexivity|]); split.
  - apply N.eqb_eq, nlen_0_nil in E0. rewrite E0, app_nil_r in *. rewrite Htd. reflexivity.
  - intros Hb. rewrite nlen_app, nlen_take. subst copy. lia.
  - rewrite fd_write_bytes, <- app_assoc, Htd. reflexivity.
  - intros _. apply N.ltb_lt in E1. lia.
  - rewrite written_of_app, !fd_write_bytes, app_nil_r, <- app_assoc, Htd. reflexivity.
  - intros _. apply N.le_0_l.
Qed.

Lemma wf_step_emits : forall w op, emits w (op_bytes op) (wf_step w op).
Proof.
  intros w op. destruct op as [d| | |]; [apply wf_append_emits|..]; apply emits_flush.
  - apply fd_write_bytes.
  - rewrite !written_of_app, fd_write_bytes. destruct (wf_manifest w); apply app_nil_r.
  - rewrite written_of_app, fd_write_bytes. apply app_nil_r.
Qed.

Lemma wf_run_cons : forall w op ops,
  wf_run w (op :: ops) =
    (fst (wf_run (fst (wf_step w op)) ops),
     snd (wf_step w op) ++ snd (wf_run (fst (wf_step w op)) ops)).
Proof.
  intros w op ops. cbn [wf_run].
  destruct (wf_step w op) as [w1 e1]. cbn [fst snd].
  destruct (wf_run w1 ops) as [w2 e2]. reflexivity.
Qed.

Lemma wf_run_nil : forall w, wf_run w [] = (w, []).
Proof. reflexivity. Qed.

Lemma wf_run_app : forall ops1 ops2 w,
  wf_run w (ops1 ++ ops2) =
    (fst (wf_run (fst (wf_run w ops1)) ops2),
     snd (wf_run w ops1) ++ snd (wf_run (fst (wf_run w ops1)) ops2)).
Proof.
  induction ops1 as [|op ops1 IH]; intros ops2 w.
  - cbn [app]. rewrite wf_run_nil. cbn [fst snd app].
    destruct (wf_run w ops2); reflexivity.
  - cbn [app]. rewrite !wf_run_cons. cbn [fst snd]. rewrite IH. cbn [fst snd].
    rewrite app_assoc. reflexivity.
Qed.

Lemma wf_run_emits : forall ops w, emits w (appended ops) (wf_run w ops).
Proof.
  induction ops as [|op ops IH]; intros w.
  - destruct w as [m o b]. exists [], b. unfold wf_emit. cbn [wf_manifest wf_out wf_buf app].
    rewrite !app_nil_r. auto.
  - rewrite wf_run_cons. apply (emits_trans w (op_bytes op) (wf_step w op) (appended ops)).
    + apply wf_step_emits.
    + apply IH.
Qed.

Lemma wf_run_out : forall ops w,
  wf_out (fst (wf_run w ops)) = wf_out w ++ snd (wf_run w ops).
Proof. intros ops w. destruct (wf_run_emits ops w) as (es & buf & -> & _). reflexivity. Qed.

Lemma wf_run_manifest : forall ops w, wf_manifest (fst (wf_run w ops)) = wf_manifest w.
Proof. intros ops w. destruct (wf_run_emits ops w) as (es & buf & -> & _). reflexivity. Qed.

Lemma wf_run_bytes : forall ops w,
  written_of (snd (wf_run w ops)) ++ wf_buf (fst (wf_run w ops)) = wf_buf w ++ appended ops.
Proof. intros ops w. destruct (wf_run_emits ops w) as (es & buf & -> & H & _). exact H. Qed.

Theorem wfile_buf_bound : forall ops w,
  nlen (wf_buf w) <= WBUF -> nlen (wf_buf (fst (wf_run w ops))) <= WBUF.
Proof. intros ops w. destruct (wf_run_emits ops w) as (es & buf & -> & _ & H). exact H. Qed.

Lemma wf_exec_run : forall ops w, wf_exec w ops = fst (wf_run w ops).
Proof.
  induction ops as [|op ops IH]; intros w.
  - reflexivity.
  - rewrite wf_run_cons. cbn [fst]. unfold wf_exec in *. cbn [fold_left]. apply IH.
Qed.

Lemma wf_exec_is_run : forall manifest ops,
  wf_exec (wf_init manifest) ops = fst (wf_run (wf_init manifest) ops) /\
  wf_out (wf_exec (wf_init manifest) ops) = snd (wf_run (wf_init manifest) ops).
Proof.
  intros manifest ops. split; [apply wf_exec_run|].
  rewrite wf_exec_run, wf_run_out. reflexivity.
Qed.

Lemma wf_run_written : forall ops w,
  wf_written (fst (wf_run w ops)) ++ wf_buf (fst (wf_run w ops)) =
    wf_written w ++ wf_buf w ++ appended ops.
Proof.
  intros ops w. unfold wf_written.
  rewrite wf_run_out, written_of_app, <- app_assoc, wf_run_bytes. reflexivity.
Qed.

(* After any sequence of operations on a fresh file, everything
   passed to write(2), followed by what is still buffered, is exactly the
   concatenation of everything appended. *)
Theorem wfile_bytes : forall manifest ops,
  wf_written (fst (wf_run (wf_init manifest) ops)) ++
  wf_buf (fst (wf_run (wf_init manifest) ops)) = appended ops.
Proof.
  intros m ops. rewrite wf_run_written. reflexivity.
Qed.

(* the calls returned by the run are the calls recorded in the state, and the
   write(2) payloads alone reproduce the appended bytes up to the buffer *)
Theorem wfile_bytes_calls : forall manifest ops,
  wf_out (fst (wf_run (wf_init manifest) ops)) = snd (wf_run (wf_init manifest) ops) /\
  written_of (snd (wf_run (wf_init manifest) ops)) ++
  wf_buf (fst (wf_run (wf_init manifest) ops)) = appended ops.
Proof.
  intros m ops. split.
  - rewrite wf_run_out. reflexivity.
  - rewrite wf_run_bytes. reflexivity.
Qed.

Definition is_flushing (op : wfop) : Prop :=
  match op with WfAppend _ => False | _ => True end.

Lemma wf_run_ends_flushing : forall ops op w,
  is_flushing op -> wf_buf (fst (wf_run w (ops ++ [op]))) = [].
Proof.
  intros ops op w H. rewrite wf_run_app. cbn [fst]. rewrite wf_run_cons, wf_run_nil.
  destruct op as [d| | |]; [destruct H|..]; reflexivity.
Qed.

(* Flush, sync and close leave the buffer empty; hence
   after a history that ends with one of them, write(2) has received every
   byte appended so far. *)
Theorem wfile_flush_empties : forall w,
  wf_buf (fst (wf_flush w)) = [] /\ wf_buf (fst (wf_sync w)) = [] /\
  wf_buf (fst (wf_close w)) = [].
Proof. intros w. repeat split; reflexivity. Qed.

Theorem wfile_flushed_all_written : forall manifest ops op,
  is_flushing op ->
  wf_buf (fst (wf_run (wf_init manifest) (ops ++ [op]))) = [] /\
  wf_written (fst (wf_run (wf_init manifest) (ops ++ [op]))) = appended ops.
Proof.
  intros m ops op Hop.
  pose proof (wf_run_ends_flushing ops op (wf_init m) Hop) as Hb. split; [exact Hb|].
  pose proof (wfile_bytes m (ops ++ [op])) as H.
  rewrite Hb, app_nil_r, appended_app in H. rewrite H.
  destruct op as [d| | |]; [destruct Hop|..]; cbn [appended flat_map op_bytes app];
    apply app_nil_r.
Qed.

(* sync: the data is written before the fsync, and the directory fsync of a
   MANIFEST file comes first *)
Lemma wf_sync_calls : forall w,
  snd (wf_sync w) =
    (if wf_manifest w then [WsSyncDir] else []) ++ fd_write (wf_buf w) ++ [WsFsync].
Proof. reflexivity. Qed.

Lemma wf_flush_empty_no_call : forall w, wf_buf w = [] -> snd (wf_flush w) = [].
Proof. intros w H. unfold wf_flush. cbn [wf_emit snd]. rewrite H. apply fd_write_nil. Qed.

Lemma wf_append_fits : forall w d,
  nlen d <= WBUF - nlen (wf_buf w) ->
  wf_append w d = (mk_wfile (wf_manifest w) (wf_out w) (wf_buf w ++ d), []).
Proof.
  intros w d H. unfold wf_append. rewrite (N.min_l _ _ H).
  rewrite (drop_all N (nlen d) d), (take_all N (nlen d) d), nlen_nil by apply N.le_refl.
  unfold wf_emit. cbn [N.eqb]. rewrite app_nil_r. reflexivity.
Qed.

Lemma wf_append_nil_no_call : forall w,
  snd (wf_append w []) = [] /\ wf_buf (fst (wf_append w [])) = wf_buf w.
Proof.
  intros w. rewrite wf_append_fits by apply N.le_0_l. split; [reflexivity | apply app_nil_r].
Qed.

Lemma phys_record_split : forall ty p, phys_record ty p = phys_header ty p ++ p.
Proof.
  intros ty p. unfold phys_record, phys_header. rewrite <- app_assoc. reflexivity.
Qed.

Lemma appended_appends : forall ds, appended (map WfAppend ds) = concat ds.
Proof. induction ds as [|d ds IH]; [reflexivity|]. cbn [map concat]. rewrite appended_cons, IH. reflexivity. Qed.

(* appends that fit the buffer are only copied; the flush then hands them to fd_write in one
   piece *)
Lemma wf_run_appends_flush : forall ds w,
  nlen (wf_buf w) + nlen (concat ds) <= WBUF ->
  wf_run w (map WfAppend ds ++ [WfFlush]) = wf_emit w (fd_write (wf_buf w ++ concat ds)) [].
Proof.
  induction ds as [|d ds IH]; intros w Hfit; cbn [map app concat] in *.
  - rewrite wf_run_cons, wf_run_nil. cbn [wf_step fst snd]. rewrite !app_nil_r. reflexivity.
  - rewrite nlen_app in Hfit. rewrite wf_run_cons. cbn [wf_step]. rewrite wf_append_fits by lia.
    cbn [fst snd app]. rewrite IH by (cbn [wf_buf]; rewrite nlen_app; lia).
    unfold wf_emit. cbn [wf_manifest wf_out wf_buf]. rewrite app_assoc. reflexivity.
Qed.

(* [ops] hands over the chunks [cs] one after the other: each in pieces [ds] that together fit the
   buffer, followed by a flush.  This is what the log writer does (one chunk per fragment), and all
   that the theorems below use of it. *)
Inductive chunked : list wfop -> list bytes -> Prop :=
| chunked_nil : chunked [] []
| chunked_cons : forall ds ops cs,
    0 < nlen (concat ds) <= WBUF ->
    chunked ops cs -> chunked ((map WfAppend ds ++ [WfFlush]) ++ ops) (concat ds :: cs).

Lemma chunked_appended : forall ops cs, chunked ops cs -> appended ops = concat cs.
Proof.
  induction 1 as [|ds ops cs _ _ IH]; [reflexivity|].
  rewrite !appended_app, appended_appends, IH. cbn [appended flat_map op_bytes concat app].
  rewrite app_nil_r. reflexivity.
Qed.

Lemma chunked_calls : forall ops cs, chunked ops cs ->
  forall w, wf_buf w = [] -> wf_run w ops = wf_emit w (map WsWrite cs) [].
Proof.
  induction 1 as [|ds ops cs Hl _ IH]; intros w Hw.
  - destruct w as [m o b]. cbn in Hw. subst b. unfold wf_emit. cbn. rewrite app_nil_r. reflexivity.
  - rewrite wf_run_app, wf_run_appends_flush by (rewrite Hw; apply Hl).
    rewrite Hw. cbn [app]. rewrite fd_write_small by (rewrite WMAX_eq, WBUF_eq in *; lia).
    cbn [wf_emit fst]. rewrite IH by reflexivity.
    unfold wf_emit. cbn [fst snd wf_manifest wf_out map app]. rewrite <- app_assoc. reflexivity.
Qed.

Lemma chunked_flushed : forall ops cs, chunked ops cs -> cs <> [] ->
  forall w, wf_buf (fst (wf_run w ops)) = [].
Proof.
  intros ops cs [|ds ops' cs' _ H'] Hne w; [destruct Hne; reflexivity|].
  rewrite wf_run_app. cbn [fst].
  rewrite (chunked_calls _ _ H') by exact (wf_run_ends_flushing (map WfAppend ds) WfFlush w I).
  reflexivity.
Qed.

(* the [pad] of [add_record_step_ops]: the trailer is appended only when it is not empty *)
Definition pad_ops_of (off : N) : list wfop :=
  if BLOCK - off <? HEADER
  then (if 0 <? BLOCK - off then [WfAppend (repeat 0 (N.to_nat (BLOCK - off)))] else [])
  else [].

Lemma pad_ops_pieces : forall off, exists ds, pad_ops_of off = map WfAppend ds /\ concat ds = pad_of off.
Proof.
  intros off. unfold pad_ops_of, pad_of.
  destruct (BLOCK - off <? HEADER); [destruct (N.ltb_spec 0 (BLOCK - off)) as [E|E]|].
  - exists [repeat 0 (N.to_nat (BLOCK - off))]. split; [reflexivity|apply app_nil_r].
  - exists []. apply N.le_0_r in E. rewrite E. auto.
  - exists []. auto.
Qed.

(* one iteration of the writer loop as file operations: appends carrying the bytes of the format
   model's iteration (trailer, header, fragment: under 64 KiB), then a flush; same offset, same
   remainder *)
Lemma add_record_step_ops_spec : forall off b data out off' rest,
  add_record_step off b data = (out, off', rest) ->
  exists ds,
    add_record_step_ops off b data = (map WfAppend ds ++ [WfFlush], off', rest) /\
    concat ds = out /\ 0 < nlen out <= WBUF.
Proof.
  intros off b data out off' rest. rewrite add_record_step_eq.
  set (ty := frag_type b _). set (p := take_n _ data). intros [= <- <- <-].
  destruct (pad_ops_pieces off) as (pd & Hpd & Hc).
  exists (pd ++ [phys_header ty p; p]). split; [|split].
  - rewrite map_app, <- Hpd, <- app_assoc. reflexivity.
  - rewrite concat_app, Hc, phys_record_split. cbn [concat]. rewrite app_nil_r. reflexivity.
  - rewrite nlen_app, nlen_phys_record, WBUF_eq.
    pose proof (nlen_pad_of_lt off). pose proof (nlen_take_flen off data).
    rewrite HEADER_eq, BLOCK_eq in *. subst p. lia.
Qed.

(* the writer loop, all at once: its operations hand over the chunks of the specification (one
   per iteration), which make up the bytes of the format model; same final offset *)
Lemma add_record_loop_ops_chunked : forall fuel off b data,
  chunked (fst (add_record_loop_ops fuel off b data)) (add_record_chunks fuel off b data) /\
  add_record_chunks fuel off b data <> [] /\
  concat (add_record_chunks fuel off b data) = fst (add_record_loop fuel off b data) /\
  snd (add_record_loop_ops fuel off b data) = snd (add_record_loop fuel off b data).
Proof.
  induction fuel as [|f IH]; intros off b data;
    cbn [add_record_loop_ops add_record_chunks add_record_loop];
    destruct (add_record_step off b data) as [[out off'] [d'|]] eqn:E;
    destruct (add_record_step_ops_spec _ _ _ _ _ _ E) as (ds & -> & <- & Hl).
  1,2,4: repeat split; [|discriminate|apply app_nil_r];
    rewrite <- (app_nil_r (_ ++ [WfFlush])); apply chunked_cons; auto using chunked_nil.
  destruct (IH off' false d') as (I1 & _ & I3 & I4).
  destruct (add_record_loop_ops f off' false d'), (add_record_loop f off' false d').
  cbn [fst snd concat] in *. rewrite I3. repeat split; [|discriminate|exact I4].
  apply chunked_cons; assumption.
Qed.

(* one record: the instance every theorem below starts from *)
Lemma add_record_ops_chunked : forall off data,
  chunked (fst (add_record_ops off data)) (record_chunks off data) /\
  record_chunks off data <> [] /\
  concat (record_chunks off data) = fst (add_record off data) /\
  snd (add_record_ops off data) = snd (add_record off data).
Proof. intros off data. apply add_record_loop_ops_chunked. Qed.

Theorem add_record_ops_bytes : forall off data,
  appended (fst (add_record_ops off data)) = fst (add_record off data) /\
  snd (add_record_ops off data) = snd (add_record off data).
Proof.
  intros off data. destruct (add_record_ops_chunked off data) as (H1 & _ & H3 & H4).
  rewrite (chunked_appended _ _ H1), H3. auto.
Qed.

(* ldb_writer_add_record on a file in any state [w], at
   block offset [off]: when it returns, the buffer is empty, the block offset
   is the one of the format model, and write(2) has received what was
   buffered before followed by every byte of the record's encoding
   fst (add_record off data) -- in particular, from an empty buffer,
   written = previously written ++ fst (add_record off data). *)
Theorem record_reaches_os_gen : forall w off data,
  let '(r, off') := wfile_add_record w off data in
  wf_buf (fst r) = [] /\
  off' = snd (add_record off data) /\
  written_of (snd r) = wf_buf w ++ fst (add_record off data) /\
  wf_out (fst r) = wf_out w ++ snd r /\
  wf_written (fst r) = wf_written w ++ wf_buf w ++ fst (add_record off data).
Proof.
  intros w off data. destruct (add_record_ops_chunked off data) as (Hc & Hne & Hb & Ho).
  unfold wfile_add_record. destruct (add_record_ops off data) as [ops off']. cbn [fst snd] in *.
  rewrite <- Hb, <- (chunked_appended _ _ Hc).
  pose proof (chunked_flushed _ _ Hc Hne w) as Hbuf.
  pose proof (wf_run_bytes ops w) as Hrb. pose proof (wf_run_written ops w) as Hrw.
  rewrite Hbuf, app_nil_r in Hrb, Hrw. repeat split; auto using wf_run_out.
Qed.

Theorem record_reaches_os : forall w off data,
  wf_buf w = [] ->
  let '(r, off') := wfile_add_record w off data in
  wf_buf (fst r) = [] /\
  off' = snd (add_record off data) /\
  written_of (snd r) = fst (add_record off data) /\
  wf_written (fst r) = wf_written w ++ fst (add_record off data).
Proof.
  intros w off data Hw.
  pose proof (record_reaches_os_gen w off data) as H.
  destruct (wfile_add_record w off data) as [r off'].
  destruct H as (H1 & H2 & H3 & _ & H5). rewrite Hw in *. cbn [app] in *. auto.
Qed.

Lemma wfile_add_records_written : forall rs w off,
  wf_buf w = [] ->
  wf_buf (fst (wfile_add_records w off rs)) = [] /\
  wf_written (fst (wfile_add_records w off rs)) = wf_written w ++ write_records off rs.
Proof.
  induction rs as [|r rs IH]; intros w off Hw.
  - cbn [wfile_add_records write_records fst]. rewrite app_nil_r. auto.
  - cbn [wfile_add_records write_records].
    pose proof (record_reaches_os w off r Hw) as H.
    destruct (wfile_add_record w off r) as [x off'].
    destruct H as (H1 & H2 & _ & H4).
    destruct (add_record off r) as [out off2]. cbn [fst snd] in *. subst off2.
    destruct (IH (fst x) off' H1) as [IH1 IH2].
    split; [exact IH1|]. rewrite IH2, H4, <- app_assoc. reflexivity.
Qed.

(* a whole log: records added one after the other to a fresh file (block
   offset 0) put exactly write_log rs through write(2), with nothing left in
   the buffer after each record *)
Theorem log_reaches_os : forall manifest rs,
  wf_buf (fst (wfile_add_records (wf_init manifest) 0 rs)) = [] /\
  wf_written (fst (wfile_add_records (wf_init manifest) 0 rs)) = write_log rs.
Proof.
  intros m rs.
  destruct (wfile_add_records_written rs (wf_init m) 0 eq_refl) as [H1 H2].
  split; [exact H1|]. rewrite H2. reflexivity.
Qed.

(* From an empty buffer, ldb_writer_add_record issues exactly one write(2)
   per fragment -- carrying the zero trailer of the previous block (if any),
   the 7-byte header and the fragment payload -- and nothing else. *)
Theorem record_one_write_per_fragment : forall w off data,
  wf_buf w = [] ->
  snd (fst (wfile_add_record w off data)) =
    map WsWrite (record_chunks off data) /\
  concat (record_chunks off data) = fst (add_record off data).
Proof.
  intros w off data Hw. destruct (add_record_ops_chunked off data) as (Hc & _ & H3 & _).
  unfold wfile_add_record. destruct (add_record_ops off data) as [ops off']. cbn [fst snd] in *.
  rewrite (chunked_calls _ _ Hc w Hw). auto.
Qed.

(* MANIFEST records (and log records of sync writes): the fsync follows the
   last write(2) of the record; for a MANIFEST the directory fsync comes in
   between (ldb_wfile_sync0: sync_dir, flush [nothing left to write], fsync) *)
Theorem record_sync_calls : forall w off data,
  wf_buf w = [] ->
  snd (fst (wfile_add_record_sync w off data)) =
    map WsWrite (record_chunks off data) ++
    (if wf_manifest w then [WsSyncDir] else []) ++ [WsFsync] /\
  wf_buf (fst (fst (wfile_add_record_sync w off data))) = [].
Proof.
  intros w off data Hw. destruct (add_record_ops_chunked off data) as (Hc & _).
  unfold wfile_add_record_sync. destruct (add_record_ops off data) as [ops off']. cbn [fst snd] in *.
  rewrite wf_run_app, (chunked_calls _ _ Hc w Hw). cbn [wf_emit fst snd].
  rewrite wf_run_cons, wf_run_nil. cbn [wf_step wf_sync wf_emit fst snd wf_buf wf_manifest].
  rewrite fd_write_nil, app_nil_r. split; reflexivity.
Qed.
