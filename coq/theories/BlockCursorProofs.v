(* BlockCursorProofs.v -- a packaged form of the block-cursor simulation of
   BlockSeekProofs.v, usable from the table layer: [bcur isint I es it z] says that the
   block iterator [it] runs over a block that holds the entries [es] encoded at restart
   interval [I] with a sound restart array ([bctx]; [block_build I es] is one:
   block_build_cursor) and stands at the list position [z] (a zipper over [es], or None =
   off the list).  Each block-iterator operation moves a [bcur] state as the reference
   cursor does.  First, what the table layer needs of entry lists as such: strict
   sortedness [sorted_by], and what the reference Seek [ref_seek] does on a list. *)
From LCDB Require Import Base Varint Block IKey BaseProofs VarintProofs IKeyProofs BlockProofs BlockSeekProofs.
From Coq Require Import Lia.
Local Open Scope N_scope.

(* strict sortedness of the keys of an entry list, in the form BlockSeekProofs uses *)
Definition sorted_by (cmp : bytes -> bytes -> comparison) (es : list entry) : Prop :=
  forall pre k v mid k' v' post, es = pre ++ (k, v) :: mid ++ (k', v') :: post -> cmp k k' = Lt.

Lemma sorted_by_single : forall cmp (e : entry), sorted_by cmp [e].
Proof.
  intros cmp e pre k v mid k' v' post H.
  destruct pre as [|? [|? ?]]; destruct mid; discriminate H.
Qed.

Lemma sorted_by_mid : forall cmp a b c, sorted_by cmp (a ++ b ++ c) -> sorted_by cmp b.
Proof.
  intros cmp a b c H pre k v mid k' v' post Hb.
  apply (H (a ++ pre) k v mid k' v' (post ++ c)).
  rewrite Hb. rewrite <- ?app_assoc. cbn [app]. rewrite <- ?app_assoc. reflexivity.
Qed.

Lemma sorted_by_app_l : forall cmp a b, sorted_by cmp (a ++ b) -> sorted_by cmp a.
Proof. intros cmp a b H. apply (sorted_by_mid cmp [] a b). exact H. Qed.

Lemma sorted_by_app_r : forall cmp a b, sorted_by cmp (a ++ b) -> sorted_by cmp b.
Proof. intros cmp a b H. apply (sorted_by_mid cmp a b []). rewrite app_nil_r. exact H. Qed.

Lemma sorted_by_cross : forall cmp a b x y,
  sorted_by cmp (a ++ b) -> In x a -> In y b -> cmp (fst x) (fst y) = Lt.
Proof.
  intros cmp a b [k v] [k' v'] H Hx Hy.
  destruct (in_split _ _ Hx) as [a1 [a2 ->]]. destruct (in_split _ _ Hy) as [b1 [b2 ->]].
  cbn [fst]. apply (H a1 k v (a2 ++ b1) k' v' b2).
  rewrite <- ?app_assoc. cbn [app]. rewrite <- ?app_assoc. reflexivity.
Qed.

Lemma sorted_by_cons : forall cmp (x : entry) l,
  (forall y, In y l -> cmp (fst x) (fst y) = Lt) -> sorted_by cmp l -> sorted_by cmp (x :: l).
Proof.
  intros cmp x l Hx Hl [|x' pre] k v mid k' v' post H; inversion H; subst.
  - apply (Hx (k', v')). apply in_or_app. right. left. reflexivity.
  - exact (Hl pre k v mid k' v' post eq_refl).
Qed.

(* what Seek does on a list *)
Section RefSeek.
Variable cmp : bytes -> bytes -> comparison.

Lemma ref_seek_cons : forall (x : entry) l k,
  ref_seek cmp (x :: l) k
  = match cmp (fst x) k with
    | Lt => option_map (fun z : zip => let '(p, e, q) := z in (x :: p, e, q)) (ref_seek cmp l k)
    | _ => Some ([], x, l)
    end.
Proof.
  intros x l k. unfold ref_seek. cbn [split_lt].
  destruct (cmp (fst x) k); try reflexivity. cbn [fst snd]. destruct (snd (split_lt cmp k l)); reflexivity.
Qed.

Lemma ref_seek_some : forall l k pre e post,
  ref_seek cmp l k = Some (pre, e, post) ->
  l = pre ++ e :: post /\ Forall (fun x => cmp (fst x) k = Lt) pre /\ cmp (fst e) k <> Lt.
Proof.
  intros l k pre e post H. unfold ref_seek in H.
  destruct (split_lt_spec cmp k l) as (A & B & C).
  destruct (snd (split_lt cmp k l)) as [|e' post'] eqn:E; [discriminate|].
  inversion H; subst. auto.
Qed.

Arguments ref_seek_some {l k pre e post}.

Lemma ref_seek_none : forall l k,
  ref_seek cmp l k = None -> Forall (fun x => cmp (fst x) k = Lt) l.
Proof.
  intros l k H. unfold ref_seek in H.
  destruct (split_lt_spec cmp k l) as (A & B & C).
  destruct (snd (split_lt cmp k l)) as [|e' post'] eqn:E; [|discriminate].
  rewrite app_nil_r in A. rewrite A. exact B.
Qed.

Lemma ref_seek_all_lt : forall (l : list entry) k,
  Forall (fun e => cmp (fst e) k = Lt) l -> ref_seek cmp l k = None.
Proof.
  induction 1 as [|e l He _ IH]; [reflexivity|]. rewrite ref_seek_cons, He, IH. reflexivity.
Qed.

(* Seek in a list whose front lies below the target and whose back does not *)
Lemma ref_seek_mid : forall (a b c : list entry) k,
  Forall (fun e => cmp (fst e) k = Lt) a -> Forall (fun e => cmp (fst e) k <> Lt) c ->
  ref_seek cmp (a ++ b ++ c) k
  = match ref_seek cmp b k with
    | Some (p, e, q) => Some (a ++ p, e, q ++ c)
    | None => match c with [] => None | e :: r => Some (a ++ b, e, r) end
    end.
Proof.
  intros a b c k Ha Hc. destruct (ref_seek cmp b k) as [[[p e] q]|] eqn:Eb.
  - destruct (ref_seek_some Eb) as (-> & Hp & He).
    apply ref_seek_unique; [rewrite <- !app_assoc; reflexivity|apply Forall_app; auto|exact He].
  - apply ref_seek_none in Eb. destruct c as [|e r].
    + apply ref_seek_all_lt. rewrite app_nil_r. apply Forall_app. auto.
    + apply ref_seek_unique; [rewrite app_assoc; reflexivity|apply Forall_app; auto|].
      inversion Hc. assumption.
Qed.

End RefSeek.
Arguments ref_seek_some {cmp l k pre e post}.

(* Seek for the key of an entry of a sorted list lands on that entry *)
Lemma ref_seek_present : forall cmp, order cmp -> forall (l : list entry) p k v q,
  sorted_by cmp l -> l = p ++ (k, v) :: q -> ref_seek cmp l k = Some (p, (k, v), q).
Proof.
  intros cmp Hord l p k v q Hs Hl.
  apply ref_seek_unique; [exact Hl| |cbn [fst]; rewrite (cmp_refl Hord); discriminate].
  apply Forall_forall. intros y Hy. rewrite Hl in Hs.
  exact (sorted_by_cross cmp p _ y (k, v) Hs Hy (or_introl eq_refl)).
Qed.

(* the static facts about a built block that the simulation of BlockSeekProofs needs *)
Record bctx (isint : bool) (I : N) (es : list entry) (TR : bytes) (num : N) : Prop := {
  bc_wf : Forall wf_entry es;
  bc_ge8 : keys_ge8 isint es;
  bc_TR : nlen TR = 4 * num + 4;
  bc_num : 1 <= num;
  bc_restarts : forall j, j < num -> exists off, rp I es TR j = Ok off /\ restart_entry I es off;
  bc_rp0 : rp I es TR 0 = Ok 0;
  bc_empty : es = [] -> num = 1
}.
Arguments bc_wf {isint I es TR num}. Arguments bc_ge8 {isint I es TR num}.
Arguments bc_TR {isint I es TR num}. Arguments bc_num {isint I es TR num}.
Arguments bc_restarts {isint I es TR num}. Arguments bc_rp0 {isint I es TR num}.
Arguments bc_empty {isint I es TR num}.

Definition bcur (isint : bool) (I : N) (es : list entry) (it : biter) (z : option zip) : Prop :=
  exists TR num, bctx isint I es TR num /\ sim I es TR num it z.

(* the size bound: restart offsets are stored as le32 and must read back unchanged (built_rp) *)
Theorem block_build_cursor : forall isint I es,
  wf_entries es -> keys_ge8 isint es ->
  nlen (block_build I es) < 4294967296 ->
  exists blk it0,
    block_init (block_build I es) = Ok blk /\ biter_create blk = Ok it0 /\
    bcur isint I es it0 None.
Proof.
  intros isint I es [Hwf Hcount] H8 Hsize.
  destruct (block_build_layout I es) as (rs & Hb & Hrs & Hrec).
  rewrite Hb in *. rewrite built_size in Hsize.
  assert (Hn : 1 <= nlen (0 :: rs) /\ nlen (0 :: rs) < 4294967296) by (rewrite nlen_cons; lia).
  destruct (block_open_built (encp I es) (0 :: rs)) as (blk & Hinit & Hcreate); try apply Hn.
  exists blk, (built_iter (encp I es) (0 :: rs)). split; [exact Hinit|]. split; [exact Hcreate|].
  exists (restart_trailer (0 :: rs)), (nlen (0 :: rs)). split; [|apply built_iter_invalid].
  constructor; try assumption.
  - apply restart_trailer_length.
  - apply Hn.
  - apply built_rp; [exact Hrec|lia].
  - apply built_rp0.
  - intros ->. destruct rs; [reflexivity|]. rewrite nlen_cons, nlen_nil in Hrs. lia.
Qed.

Lemma bcur_status : forall isint I es it z, bcur isint I es it z -> biter_status it = SOk.
Proof.
  intros isint I es it z (TR & num & _ & Hs).
  destruct (sim_statics _ _ _ _ _ _ Hs) as [(_ & _ & _ & _ & _ & S6) _]. exact S6.
Qed.
Arguments bcur_status {isint I es it z}.

Lemma bcur_binv : forall isint I es it z, bcur isint I es it z -> binv it.
Proof.
  intros isint I es it z (TR & num & _ & Hs).
  destruct (sim_statics _ _ _ _ _ _ Hs) as [_ Hb]. right. exact Hb.
Qed.

Lemma bcur_not_empty : forall isint I es it z, bcur isint I es it z -> bi_empty it = false.
Proof.
  intros isint I es it z (TR & num & _ & Hs).
  destruct (sim_statics _ _ _ _ _ _ Hs) as [(_ & S2 & _) _]. exact S2.
Qed.

Lemma bcur_valid : forall isint I es it z,
  bcur isint I es it z -> biter_valid it = match z with Some _ => true | None => false end.
Proof.
  intros isint I es it [[[pre e] post]|] (TR & num & C & Hs); cbn [sim] in Hs.
  - exact (at_valid I es TR num it pre (fst e) (snd e) post Hs).
  - exact (invalid_not_valid I es TR num it Hs).
Qed.
Arguments bcur_valid {isint I es it z}.

Lemma bcur_observe : forall isint I es it z,
  bcur isint I es it z -> biter_observe it = Ok (zip_obs z).
Proof.
  intros isint I es it z (TR & num & C & Hs).
  exact (sim_observe I es TR num it z Hs).
Qed.
Arguments bcur_observe {isint I es it z}.

Lemma bcur_key_value : forall isint I es it pre e post,
  bcur isint I es it (Some (pre, e, post)) ->
  es = pre ++ e :: post /\ biter_key it = fst e /\ biter_value it = Ok (snd e).
Proof.
  intros isint I es it pre [k v] post H.
  pose proof (bcur_observe H) as Ho. pose proof (bcur_valid H) as Hv.
  destruct H as (TR & num & C & Hs). cbn [sim fst snd] in Hs.
  split; [exact (at_es _ _ _ _ _ _ _ _ _ Hs)|].
  split; [exact (at_key _ _ _ _ _ _ _ _ _ Hs)|].
  unfold biter_observe in Ho. rewrite Hv in Ho. cbn [zip_obs] in Ho.
  destruct (biter_value it) as [v0|]; cbn [rbind] in Ho; [|discriminate].
  inversion Ho. reflexivity.
Qed.
Arguments bcur_key_value {isint I es it pre e post}.

Section Ops.
Variable cmp : bytes -> bytes -> comparison.
Variable isint : bool.
Variable I : N.
Variable es : list entry.

(* [bctx] rides along: what BlockSeekProofs shows of [sim] holds of [bcur] *)
Lemma bcur_lift : forall TR num (r : res biter) z', bctx isint I es TR num ->
  yields r (fun it' => sim I es TR num it' z') -> yields r (fun it' => bcur isint I es it' z').
Proof. intros TR num r z' C H. apply (yields_mono _ H). intros it' B. exists TR, num. auto. Qed.

(* First, Last, Next and Prev -- in either direction -- never compare keys *)
Lemma bcur_enter : forall (fwd : bool) it z, bcur isint I es it z ->
  yields (if fwd then biter_first isint it else biter_last isint it)
         (fun it' => bcur isint I es it' (zenter fwd es)).
Proof.
  intros fwd it z (TR & num & C & Hs). apply (bcur_lift TR num _ _ C). destruct fwd.
  - exact (first_sim isint I es TR num (bc_wf C) (bc_ge8 C) (bc_num C) (bc_rp0 C) it z Hs).
  - exact (last_sim isint I es TR num (bc_wf C) (bc_ge8 C) (bc_num C) (bc_restarts C) it z Hs).
Qed.

Lemma bcur_adv : forall (fwd : bool) it z, bcur isint I es it (Some z) ->
  yields (if fwd then biter_next isint it else biter_prev isint it)
         (fun it' => bcur isint I es it' (zadv fwd z)).
Proof.
  intros fwd it [[pre e] post] (TR & num & C & Hs). apply (bcur_lift TR num _ _ C). destruct fwd.
  - exact (next_sim isint I es TR num (bc_wf C) (bc_ge8 C) it pre e post Hs).
  - exact (prev_sim isint I es TR num (bc_wf C) (bc_ge8 C) (bc_TR C) (bc_rp0 C) (bc_restarts C)
             it pre e post Hs).
Qed.

Hypothesis Hsorted : sorted_by cmp es.
Hypothesis Hlt_trans : forall x y z, cmp x y = Lt -> cmp y z = Lt -> cmp x z = Lt.
Hypothesis Hlt_eq : forall x y z, cmp x y = Lt -> cmp y z = Eq -> cmp x z = Lt.

Lemma bcur_seek : forall target it z, bcur isint I es it z ->
  (isint = true -> 8 <= nlen target) ->
  yields (biter_seek cmp isint target it) (fun it' => bcur isint I es it' (ref_seek cmp es target)).
Proof.
  intros target it z (TR & num & C & Hs) Ht. apply (bcur_lift TR num _ _ C).
  exact (seek_sim cmp isint I es TR num (bc_wf C) (bc_ge8 C) (bc_num C) (bc_rp0 C)
           (bc_restarts C) (bc_empty C) Hsorted Hlt_trans Hlt_eq target it z Hs Ht).
Qed.

Lemma bcur_run : forall ops it z, bcur isint I es it z -> Forall (op_ok isint) ops ->
  exists it', biter_run cmp isint ops it = Ok (ref_run cmp es ops z, it') /\ bi_status it' = SOk.
Proof.
  intros ops it z (TR & num & C & Hs) Hops.
  exact (run_sim cmp isint I es TR num (bc_wf C) (bc_ge8 C) (bc_TR C) (bc_num C) (bc_rp0 C)
           (bc_restarts C) (bc_empty C) Hsorted Hlt_trans Hlt_eq ops it z Hs Hops).
Qed.

End Ops.

(* C16: on a built block with strictly sorted keys the iterator is a cursor over the entries *)
Theorem block_cursor_sim : forall cmp isint I es ops,
  wf_entries es -> keys_ge8 isint es ->
  nlen (block_build I es) < 4294967296 ->
  (* the keys are strictly sorted under cmp, a strict order compatible with Eq *)
  (forall pre k v mid k' v' post, es = pre ++ (k, v) :: mid ++ (k', v') :: post -> cmp k k' = Lt) ->
  (forall x y z, cmp x y = Lt -> cmp y z = Lt -> cmp x z = Lt) ->
  (forall x y z, cmp x y = Lt -> cmp y z = Eq -> cmp x z = Lt) ->
  Forall (op_ok isint) ops ->
  block_run cmp isint (block_build I es) ops = Ok (ref_run cmp es ops None, SOk).
Proof.
  intros cmp isint I es ops Hwf H8 Hsize Hsorted Htrans Hlteq Hops.
  destruct (block_build_cursor isint I es Hwf H8 Hsize) as (blk & it0 & Hinit & Hcreate & Hcur).
  unfold block_run. rewrite Hinit. cbn [rbind]. rewrite Hcreate. cbn [rbind].
  destruct (bcur_run cmp isint I es Hsorted Htrans Hlteq ops it0 None Hcur Hops) as [it' [-> St]].
  cbn [rbind]. unfold biter_status. rewrite St. reflexivity.
Qed.

Lemma op_ok_bytewise : forall ops, Forall (op_ok false) ops.
Proof. intros ops. apply Forall_forall. intros op _. destruct op; cbn; auto. intros H; discriminate. Qed.

Corollary block_cursor_sim_bytewise : forall I es ops,
  wf_entries es ->
  nlen (block_build I es) < 4294967296 ->
  (forall pre k v mid k' v' post, es = pre ++ (k, v) :: mid ++ (k', v') :: post -> bytes_compare k k' = Lt) ->
  block_run bytes_compare false (block_build I es) ops = Ok (ref_run bytes_compare es ops None, SOk).
Proof.
  intros I es ops Hwf Hsz Hsorted.
  apply block_cursor_sim; auto.
  - intros H; discriminate.
  - apply bytes_compare_lt_trans.
  - intros x y z H1 H2. apply bytes_compare_eq_iff in H2. subst. exact H1.
  - apply op_ok_bytewise.
Qed.

(* the table layer's internal-key comparator is IKey's *)
Lemma tbl_user_key_eq : forall k, tbl_user_key k = ikey_user k.
Proof.
  intros k. unfold tbl_user_key, ikey_user, take_n, nlen. f_equal. lia.
Qed.

Lemma tbl_tag_eq : forall k, tbl_tag k = ikey_tag k.
Proof.
  intros k. unfold tbl_tag, ikey_tag, drop_n, nlen.
  replace (N.to_nat (N.of_nat (length k) - 8)) with (length k - 8)%nat by lia. reflexivity.
Qed.

Lemma tbl_ikey_compare_eq : forall a b, tbl_ikey_compare a b = ikey_compare a b.
Proof. intros. unfold tbl_ikey_compare, ikey_compare. rewrite !tbl_user_key_eq, !tbl_tag_eq. reflexivity. Qed.

Lemma tbl_ikey_order : order tbl_ikey_compare.
Proof.
  exact (lex_order bytes_compare tbl_user_key _ bytes_compare_order (order_on tbl_tag _ (order_flip _ N_order))).
Qed.

Corollary block_cursor_sim_internal : forall I es ops,
  wf_entries es -> keys_ge8 true es ->
  nlen (block_build I es) < 4294967296 ->
  (forall pre k v mid k' v' post, es = pre ++ (k, v) :: mid ++ (k', v') :: post -> tbl_ikey_compare k k' = Lt) ->
  Forall (op_ok true) ops ->
  block_run tbl_ikey_compare true (block_build I es) ops = Ok (ref_run tbl_ikey_compare es ops None, SOk).
Proof.
  intros I es ops Hwf H8 Hsz Hsorted Hops.
  apply block_cursor_sim; auto.
  - exact (cmp_lt_trans tbl_ikey_order).
  - intros x y z H1 H2. rewrite <- (cmp_eq_r tbl_ikey_order y z x H2). exact H1.
Qed.
