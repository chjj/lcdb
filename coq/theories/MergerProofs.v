(* MergerProofs.v -- the merging iterator (Merger.v, replica of table/merger.c)
   refines a cursor over the sorted merge of its runs, for arbitrary scripts.

   Every reachable state is a function of a direction d and a set P closed in the order of d:
   children and merged cursor sit on their first P-element, and the first P-element of the merge
   is the first of the children's ([least_merge]).  The two directions are one argument over
   d : direction; the model's next / prev are unfolded in [m_step_kids] (valid state) and
   [m_step_invalid] only.

   Section Layer1 is generic in the element type and comparator; Section Entries
   instantiates it with entries ordered by the internal comparator. *)
From LCDB Require Import Base Cursor CursorProofs Merger Engine EngineSpec EngineRead EngineStepsBase.

Lemma mapi_from_map {B C D : Type} (f : nat -> C -> D) (g : B -> C) (h : B -> D) (l : list B) :
  forall k, (forall j r, nth_error l j = Some r -> f (k + j)%nat (g r) = h r) ->
  mapi_from k f (map g l) = map h l.
Proof.
  induction l as [|b l IH]; intros k H; cbn [map mapi_from].
  - reflexivity.
  - f_equal.
    + pose proof (H O b eq_refl) as H0. rewrite Nat.add_0_r in H0. exact H0.
    + apply IH. intros j r Hj. pose proof (H (S j) r Hj) as H1.
      rewrite Nat.add_succ_r in H1. exact H1.
Qed.

Lemma mapi_from_mapi_from {B C D : Type} (f1 : nat -> B -> C) (f2 : nat -> C -> D) l :
  forall k, mapi_from k f2 (mapi_from k f1 l) = mapi_from k (fun i c => f2 i (f1 i c)) l.
Proof.
  induction l as [|b l IH]; intros k; cbn [mapi_from]; [reflexivity|]. f_equal. apply IH.
Qed.

Lemma mapi_mapi {B C D : Type} (f1 : nat -> B -> C) (f2 : nat -> C -> D) l :
  mapi f2 (mapi f1 l) = mapi (fun i c => f2 i (f1 i c)) l.
Proof. unfold mapi. apply mapi_from_mapi_from. Qed.

Section Layer1.
Context {A : Type}.
Variable cmp : A -> A -> comparison.

Record cmp_order : Prop := {
  co_refl : forall a, cmp a a = Eq;
  co_antisym : forall a b, cmp a b = CompOpp (cmp b a);
  co_trans : forall a b c, cmp a b = Lt -> cmp b c = Lt -> cmp a c = Lt;
  co_eq : forall a b, cmp a b = Eq -> forall c, cmp a c = cmp b c
}.

Definition clt (a b : A) : bool := match cmp a b with Lt => true | _ => false end.

(* what a scan of the children for the first key in the order lt' returns *)
Inductive picked (lt' : A -> A -> bool) (cs : list (@child A)) : option (nat * A) -> Prop :=
| Picked i x c : nth_error cs i = Some c -> ch_get c = Some x ->
    (forall c' y, In c' cs -> ch_get c' = Some y -> lt' y x = false) -> picked lt' cs (Some (i, x))
| Picked_none : (forall c, In c cs -> ch_get c = None) -> picked lt' cs None.

(* find_smallest scans to the right: one more child at the end is one more step.
   The step, with the comparison of the C code read as a test of [clt]: *)
Definition fs_step (i : nat) (c : @child A) (best : option (nat * A)) : option (nat * A) :=
  match ch_get c with
  | None => best
  | Some k =>
      match best with
      | None => Some (i, k)
      | Some (_, bk) => if clt k bk then Some (i, k) else best
      end
  end.

Lemma fsf_cons k c r best :
  find_smallest_from cmp k (c :: r) best = find_smallest_from cmp (S k) r (fs_step k c best).
Proof.
  cbn [find_smallest_from]. unfold fs_step.
  destruct (ch_get c); [destruct best as [[bi bk]|]; [rewrite cmp_lt_if|]|]; reflexivity.
Qed.

Lemma fsf_snoc cs : forall k best c,
  find_smallest_from cmp k (cs ++ [c]) best =
  fs_step (k + length cs) c (find_smallest_from cmp k cs best).
Proof.
  induction cs as [|d r IH]; intros k best c; cbn [app length].
  - rewrite fsf_cons, Nat.add_0_r. reflexivity.
  - rewrite !fsf_cons, IH, Nat.add_succ_comm. reflexivity.
Qed.

(* find_largest scans from the right end: the index base only shifts the result *)
Lemma flf_shift cs : forall k,
  find_largest_from cmp (S k) cs =
  option_map (fun p => (S (fst p), snd p)) (find_largest_from cmp k cs).
Proof.
  induction cs as [|c r IH]; intros k; cbn [find_largest_from]; [reflexivity|]. rewrite (IH (S k)).
  destruct (find_largest_from cmp (S k) r) as [[bi bk]|]; cbn [option_map fst snd];
    destruct (ch_get c) as [kk|]; try reflexivity.
  destruct (cmp kk bk); reflexivity.
Qed.

Hypothesis CO : cmp_order.

(* MergerProofs.cmp_order is BaseProofs.order, and [clt] its [cmp_ltb] *)
Lemma CO_order : order cmp.
Proof. exact (Build_order (co_antisym CO) (co_trans CO) (fun a b c H => co_eq CO a b H c)). Qed.

Lemma clt_irrefl a : clt a a = false.
Proof. exact (cmp_ltb_irrefl CO_order a). Qed.

Lemma clt_trans a b c : clt a b = true -> clt b c = true -> clt a c = true.
Proof. exact (cmp_ltb_trans CO_order a b c). Qed.

Lemma fs_spec cs : picked clt cs (find_smallest_from cmp 0 cs None).
Proof.
  induction cs as [|c cs IH] using rev_ind; [apply Picked_none; intros c []|].
  rewrite fsf_snoc. cbn [Nat.add]. unfold fs_step.
  assert (Hold : forall i d, nth_error cs i = Some d -> nth_error (cs ++ [c]) i = Some d).
  { intros i d H. rewrite nth_error_app1; [exact H|]. apply nth_error_Some. congruence. }
  pose proof (nth_error_mid cs c []) as Hnew.
  destruct (ch_get c) as [kk|] eqn:Gc.
  - destruct IH as [i x d Hd Gd Hmin|Hnone].
    + destruct (clt kk x) eqn:Ck.
      * (* the new child is strictly smaller *)
        apply (Picked _ _ _ _ c Hnew Gc). intros c' y Hc' Gy.
        apply in_app_or in Hc'. destruct Hc' as [Hc'|[<-|[]]].
        -- apply (cmp_leb_trans CO_order kk x y); [apply (cmp_ltb_asym CO_order); exact Ck|exact (Hmin c' y Hc' Gy)].
        -- assert (y = kk) by congruence. subst y. apply clt_irrefl.
      * apply (Picked _ _ _ _ d (Hold i d Hd) Gd). intros c' y Hc' Gy.
        apply in_app_or in Hc'. destruct Hc' as [Hc'|[<-|[]]]; [exact (Hmin c' y Hc' Gy)|].
        assert (y = kk) by congruence. subst y. exact Ck.
    + apply (Picked _ _ _ _ c Hnew Gc). intros c' y Hc' Gy.
      apply in_app_or in Hc'. destruct Hc' as [Hc'|[<-|[]]].
      * rewrite (Hnone c' Hc') in Gy. discriminate.
      * assert (y = kk) by congruence. subst y. apply clt_irrefl.
  - destruct IH as [i x d Hd Gd Hmin|Hnone].
    + apply (Picked _ _ _ _ d (Hold i d Hd) Gd). intros c' y Hc' Gy.
      apply in_app_or in Hc'. destruct Hc' as [Hc'|[<-|[]]]; [exact (Hmin c' y Hc' Gy)|congruence].
    + apply Picked_none. intros c' Hc'. apply in_app_or in Hc'. destruct Hc' as [Hc'|[<-|[]]]; [exact (Hnone c' Hc')|exact Gc].
Qed.

Lemma fl_spec cs : picked (fun a b => clt b a) cs (find_largest_from cmp 0 cs).
Proof.
  induction cs as [|c r IH]; [apply Picked_none; intros c []|]. cbn [find_largest_from]. rewrite flf_shift.
  destruct IH as [i x d Hd Gd Hmax|Hnone]; cbn [option_map fst snd].
  - destruct (ch_get c) as [kk|] eqn:Gc.
    + rewrite (cmp_gt_if CO_order). destruct (cmp_ltb x kk) eqn:Ck.
      * (* the new child is strictly larger *)
        apply (Picked _ (c :: r) 0 _ c eq_refl Gc). intros c' y [<-|Hc'] Gy.
        -- assert (y = kk) by congruence. subst y. apply clt_irrefl.
        -- apply (cmp_leb_trans CO_order y x kk); [exact (Hmax c' y Hc' Gy)|apply (cmp_ltb_asym CO_order); exact Ck].
      * apply (Picked _ (c :: r) (S i) _ d Hd Gd). intros c' y [<-|Hc'] Gy; [|exact (Hmax c' y Hc' Gy)].
        assert (y = kk) by congruence. subst y. exact Ck.
    + apply (Picked _ (c :: r) (S i) _ d Hd Gd). intros c' y [<-|Hc'] Gy; [congruence|exact (Hmax c' y Hc' Gy)].
  - destruct (ch_get c) as [kk|] eqn:Gc.
    + apply (Picked _ (c :: r) 0 _ c eq_refl Gc). intros c' y [<-|Hc'] Gy.
      * assert (y = kk) by congruence. subst y. apply clt_irrefl.
      * rewrite (Hnone c' Hc') in Gy. discriminate.
    + apply Picked_none. intros c' [<-|Hc']; [exact Gc|exact (Hnone c' Hc')].
Qed.

(* The two scan directions.  Forwards the children and the cursor on the merge sit on their
   first element of an upward closed set, the merger shows the smallest of the children's keys,
   a step is next; backwards: last element of a downward closed set, largest, prev.  Read in
   the order [dlt d], the strict order of [dcmp d], both are "first element of a closed set
   ([up (dlt d) P]), first of the children's keys". *)
Definition dcmp (d : direction) : A -> A -> comparison :=
  match d with Forward => cmp | Reverse => fun a b => cmp b a end.
Lemma dcmp_order d : order (dcmp d).
Proof. destruct d; [exact CO_order|exact (order_flip _ CO_order)]. Qed.
Definition dlt (d : direction) : A -> A -> bool := cmp_ltb (cmp := dcmp d).
Definition dsk (d : direction) : (A -> bool) -> list A -> cursor :=
  match d with Forward => c_seek | Reverse => c_seek_last end.
Definition dstep (d : direction) : list A -> cursor -> cursor :=
  match d with Forward => c_next | Reverse => c_prev end.
Definition dscan (d : direction) : list (@child A) -> option (nat * A) :=
  match d with Forward => fun cs => find_smallest_from cmp 0 cs None | Reverse => find_largest_from cmp 0 end.

Lemma dlt_total d a b : cmp a b <> Eq -> dlt d a b = false -> dlt d b a = true.
Proof.
  intros Hne. apply (cmp_ltb_total (dcmp_order d)). destruct d; [exact Hne|].
  intros E. apply Hne, (cmp_eq_sym CO_order), E.
Qed.

Lemma dscan_spec d cs : picked (dlt d) cs (dscan d cs).
Proof. destruct d; [apply fs_spec|apply fl_spec]. Qed.

Lemma dsk_wf d P l : c_wf l (dsk d P l).
Proof. destruct d; [apply c_seek_wf|apply c_seek_last_wf]. Qed.

Lemma dsk_ext d P P' l : (forall x, In x l -> P x = P' x) -> dsk d P l = dsk d P' l.
Proof. destruct d; [apply c_seek_ext|apply c_seek_last_ext]. Qed.

Lemma dsk_least d P l o : SrtBy clt l -> (c_get l (dsk d P l) = o <-> least (dlt d) P l o).
Proof.
  destruct d; [apply (c_seek_least clt clt_irrefl clt_trans)|apply (c_seek_last_greatest clt clt_irrefl clt_trans)].
Qed.

Lemma dstep_sk d l c x : SrtBy clt l -> c_get l c = Some x -> dstep d l c = dsk d (dlt d x) l.
Proof.
  destruct d; [apply (c_next_seek clt clt_irrefl clt_trans)|apply (c_prev_seek clt clt_irrefl clt_trans)].
Qed.

Variable runs : list (list A).

Definition kids (f : list A -> cursor) : list (@child A) := map (fun r => (r, f r)) runs.

Lemma mapi_kids (f : nat -> @child A -> @child A) g h :
  (forall j r, nth_error runs j = Some r -> f j (r, g r) = (r, h r)) ->
  mapi f (kids g) = kids h.
Proof.
  intros H. unfold mapi, kids. apply mapi_from_map. intros j r Hj. exact (H j r Hj).
Qed.

Lemma kids_nth f i c :
  nth_error (kids f) i = Some c -> exists r, nth_error runs i = Some r /\ c = (r, f r).
Proof.
  unfold kids. rewrite nth_error_map. destruct (nth_error runs i) as [r|]; cbn [option_map]; [|discriminate].
  intros E. injection E as E. exists r. split; [reflexivity|symmetry; exact E].
Qed.

Lemma in_kids f r : In r runs -> In (r, f r) (kids f).
Proof. intros H. unfold kids. apply in_map_iff. exists r. split; [reflexivity|exact H]. Qed.

Lemma m_key_kids f i ri dir :
  nth_error runs i = Some ri -> m_key (mkM (kids f) (Some i) dir) = c_get ri (f ri).
Proof.
  intros H. unfold m_key. cbn [m_current m_children]. unfold kids.
  erewrite map_nth_error; [|exact H]. reflexivity.
Qed.

Variable L : list A.
Hypothesis runs_sorted : forall r, In r runs -> SrtBy clt r.
Hypothesis runs_distinct : forall i j ri rj a b,
  i <> j -> nth_error runs i = Some ri -> nth_error runs j = Some rj ->
  In a ri -> In b rj -> cmp a b <> Eq.
Hypothesis L_sorted : SrtBy clt L.
Hypothesis L_elems : forall x, In x L <-> In x (concat runs).

Lemma run_in_L j r e : nth_error runs j = Some r -> In e r -> In e L.
Proof.
  intros Hj He. apply L_elems, in_concat. exists r. split; [eapply nth_error_In; exact Hj|exact He].
Qed.

Lemma run_sorted j r : nth_error runs j = Some r -> SrtBy clt r.
Proof. intros Hj. apply runs_sorted. eapply nth_error_In; exact Hj. Qed.

(* The first P-element of the merge is the first of the runs' first P-elements: when every
   child sits on the first P-element of its run, what the scan picks is the first P-element of L. *)
Lemma least_merge d P o :
  picked (dlt d) (kids (dsk d P)) o -> least (dlt d) P L (option_map snd o).
Proof.
  intros Hp.
  assert (Hr : forall r e, In r runs -> In e r -> P e = true ->
                 exists y, c_get r (dsk d P r) = Some y /\ dlt d e y = false).
  { intros r e Hr He Pe. pose proof (proj1 (dsk_least d P r _ (runs_sorted r Hr)) eq_refl) as Hl.
    destruct (c_get r (dsk d P r)) as [y|]; cbn [least] in Hl.
    - exists y. split; [reflexivity|]. exact (proj2 (proj2 Hl) e He Pe).
    - rewrite (Hl e He) in Pe. discriminate. }
  destruct Hp as [i x c Hc Gx Hmin|Hp]; cbn [option_map snd least].
  - destruct (kids_nth _ i c Hc) as (ri & Hri & ->).
    destruct (proj1 (dsk_least d P ri _ (run_sorted i ri Hri)) Gx) as (Hin & Px & _).
    split; [exact (run_in_L i ri x Hri Hin)|]. split; [exact Px|].
    intros e He Pe. apply L_elems, in_concat in He. destruct He as (rj & Hrj & Hej).
    destruct (Hr rj e Hrj Hej Pe) as (y & Gy & Hy).
    exact (cmp_leb_trans (dcmp_order d) x y e (Hmin _ y (in_kids _ rj Hrj) Gy) Hy).
  - intros e He. apply L_elems, in_concat in He. destruct He as (rj & Hrj & Hej).
    destruct (P e) eqn:Pe; [|reflexivity]. destruct (Hr rj e Hrj Hej Pe) as (y & Gy & _).
    pose proof (Hp _ (in_kids (dsk d P) rj Hrj)) as N. unfold ch_get in N. cbn [fst snd] in N. congruence.
Qed.

(* Every state a script reaches is [st_of d P] for a direction d and a set P closed in the
   order of d: each child sits on the first P-element of its run, [current] is what the scan
   picks, and the cursor on the merge sits on the first P-element of L.  A step in direction d
   leads to the set "beyond the key just left", [dlt d x]. *)
Definition st_of (d : direction) (P : A -> bool) : @mstate A :=
  let cs := kids (dsk d P) in mkM cs (option_map fst (dscan d cs)) d.

Inductive MRel : @mstate A -> cursor -> Prop :=
| MRel_at d P : up (dlt d) P -> MRel (st_of d P) (dsk d P L).

Lemma st_get d P : m_key (st_of d P) = c_get L (dsk d P L).
Proof.
  pose proof (dscan_spec d (kids (dsk d P))) as Hp.
  rewrite (proj2 (dsk_least d P L _ L_sorted) (least_merge d P _ Hp)).
  unfold st_of, m_key. cbn [m_current m_children].
  destruct Hp as [i x c Hc Gx _|_]; cbn [option_map fst snd]; [rewrite Hc; exact Gx|reflexivity].
Qed.

(* a valid state: the current child shows what the cursor on the merge shows *)
Lemma st_valid d P x :
  m_key (st_of d P) = Some x ->
  exists i ri, st_of d P = mkM (kids (dsk d P)) (Some i) d /\ nth_error runs i = Some ri /\
    c_get ri (dsk d P ri) = Some x /\ c_get L (dsk d P L) = Some x.
Proof.
  intros K. pose proof K as GL. rewrite st_get in GL.
  unfold st_of, m_key in K |- *. cbn [m_current m_children] in K.
  destruct (option_map fst (dscan d (kids (dsk d P)))) as [i|]; [|discriminate].
  destruct (nth_error (kids (dsk d P)) i) as [c|] eqn:Hc; [|discriminate].
  destruct (kids_nth _ i c Hc) as (ri & Hri & ->). exists i, ri. auto.
Qed.

Lemma MRel_get st p : MRel st p -> m_key st = c_get L p.
Proof. intros [d P _]. apply st_get. Qed.

Lemma MRel_wf st p : MRel st p -> c_wf L p.
Proof. intros [d P _]. apply dsk_wf. Qed.

Lemma MRel_init : MRel (m_init runs) None.
Proof.
  pose (P := fun _ : A => false).
  assert (N : forall l : list A, c_seek P l = None).
  { intros l. apply c_seek_none. intros x _. reflexivity. }
  assert (E : m_init runs = st_of Forward P).
  { unfold m_init, st_of. cbn [dsk].
    replace (map (fun r : list A => (r, @None nat)) runs) with (kids (c_seek P))
      by (apply map_ext; intros r; rewrite N; reflexivity).
    pose proof (dscan_spec Forward (kids (c_seek P))) as Hp.
    destruct Hp as [i x c Hc Gx _|_]; [exfalso|reflexivity]. destruct (kids_nth _ i c Hc) as (r & _ & ->).
    unfold ch_get in Gx. cbn [fst snd] in Gx. rewrite N in Gx. discriminate. }
  rewrite E, <- (N L). apply (MRel_at Forward). intros a b _ H. exact H.
Qed.

(* first, last, seek: every child is put on the first element of one closed set *)
Lemma MRel_set d P (F : @child A -> @child A) st p :
  up (dlt d) P -> (forall c, F c = (fst c, dsk d P (fst c))) -> MRel st p ->
  MRel (let cs := map F (m_children st) in mkM cs (option_map fst (dscan d cs)) d) (dsk d P L).
Proof.
  intros HP HF [d0 P0 _]. cbn [st_of m_children]. unfold kids at 1 2. rewrite map_map.
  rewrite (map_ext _ (fun r => (r, dsk d P r)) (fun r => HF (r, _))). exact (MRel_at d P HP).
Qed.

Lemma MRel_first st p : MRel st p -> MRel (m_first cmp st) (c_first L).
Proof.
  rewrite c_first_seek. apply (MRel_set Forward (fun _ => true) ch_first); [intros a b _ _; reflexivity|].
  intros c. unfold ch_first. rewrite c_first_seek. reflexivity.
Qed.

Lemma MRel_last st p : MRel st p -> MRel (m_last cmp st) (c_last L).
Proof.
  rewrite c_last_seek. apply (MRel_set Reverse (fun _ => true) ch_last); [intros a b _ _; reflexivity|].
  intros c. unfold ch_last. rewrite c_last_seek. reflexivity.
Qed.

Lemma MRel_seek ge st p : up clt ge -> MRel st p -> MRel (m_seek cmp ge st) (c_seek ge L).
Proof. intros U. apply (MRel_set Forward ge (ch_seek ge) st p U). intros c. reflexivity. Qed.

Definition m_step (d : direction) : @mstate A -> @mstate A :=
  match d with Forward => m_next cmp | Reverse => m_prev cmp end.
Definition ch_step (d : direction) : @child A -> @child A :=
  match d with Forward => ch_next | Reverse => ch_prev end.
Definition opp (d : direction) : direction := match d with Forward => Reverse | Reverse => Forward end.

(* what a child other than the current one does when the merger turns to direction d at key x *)
Definition reseek (d : direction) (x : A) (c : @child A) : @child A :=
  let c' := ch_seek (ge_key cmp x) c in
  match d with
  | Forward => match ch_get c' with
               | Some ck => match cmp x ck with Eq => ch_next c' | _ => c' end
               | None => c'
               end
  | Reverse => match ch_get c' with Some _ => ch_prev c' | None => ch_last c' end
  end.

(* the children after a step in direction d from a state whose current child i shows x: when
   the merger turns the others are re-sought first *)
Definition moved (d : direction) (turn : bool) (i : nat) (x : A) (cs : list (@child A)) : list (@child A) :=
  mapi (fun j c => if (j =? i)%nat then ch_step d c else c)
    (if turn then mapi (fun j c => if (j =? i)%nat then c else reseek d x c) cs else cs).

Lemma m_step_kids d (turn : bool) f i ri x :
  nth_error runs i = Some ri -> c_get ri (f ri) = Some x ->
  m_step d (mkM (kids f) (Some i) (if turn then opp d else d)) =
  let cs := moved d turn i x (kids f) in mkM cs (option_map fst (dscan d cs)) d.
Proof.
  intros Hri Gx.
  destruct d, turn; cbn [m_step opp]; unfold m_next, m_prev; rewrite (m_key_kids f i ri _ Hri), Gx; reflexivity.
Qed.

(* Such a step arrives at [st_of d (dlt d x)]: the current child steps beyond x, the cursor on
   the merge does; what is left to each case is that the other children, having stayed or
   been re-sought, sit beyond x too. *)
Lemma arrive d (turn : bool) f i ri x p :
  nth_error runs i = Some ri -> c_get ri (f ri) = Some x -> c_get L p = Some x ->
  (forall j rj, j <> i -> nth_error runs j = Some rj ->
     (if turn then reseek d x (rj, f rj) else (rj, f rj)) = (rj, dsk d (dlt d x) rj)) ->
  MRel (m_step d (mkM (kids f) (Some i) (if turn then opp d else d))) (dstep d L p).
Proof.
  intros Hri Gx GL Ho.
  rewrite (dstep_sk d L p x L_sorted GL), (m_step_kids d turn f i ri x Hri Gx). cbv zeta.
  assert (Hc : ch_step d (ri, f ri) = (ri, dsk d (dlt d x) ri)).
  { rewrite <- (dstep_sk d ri (f ri) x (run_sorted i ri Hri) Gx). destruct d; reflexivity. }
  assert (E : moved d turn i x (kids f) = kids (dsk d (dlt d x))).
  { unfold moved. destruct turn; [rewrite mapi_mapi|]; apply mapi_kids; intros j rj Hj; cbv beta;
      (destruct (j =? i)%nat eqn:Eji;
       [apply Nat.eqb_eq in Eji; subst j; assert (rj = ri) by congruence; subst rj; exact Hc
       |apply Nat.eqb_neq in Eji; exact (Ho j rj Eji Hj)]). }
  rewrite E. exact (MRel_at d _ (fun a b Hab Ha => cmp_ltb_trans (dcmp_order d) x a b Ha Hab)).
Qed.

(* In the same direction the other children need not move: beyond the key x just left,
   P and "beyond x" single out the same elements of their runs. *)
Lemma MRel_stay d P x :
  up (dlt d) P -> m_key (st_of d P) = Some x -> MRel (m_step d (st_of d P)) (dstep d L (dsk d P L)).
Proof.
  intros HP K. destruct (st_valid d P x K) as (i & ri & -> & Hri & Gx & GL).
  destruct (proj1 (dsk_least d P L _ L_sorted) GL) as (_ & Px & Hmin).
  apply (arrive d false _ i ri x _ Hri Gx GL). intros j rj Eji Hj. f_equal. apply dsk_ext. intros e He.
  destruct (P e) eqn:Pe.
  - symmetry. apply dlt_total.
    + exact (runs_distinct j i rj ri e x Eji Hj Hri He (c_get_in ri _ x Gx)).
    + exact (Hmin e (run_in_L j rj e Hj He) Pe).
  - destruct (dlt d x e) eqn:E; [|reflexivity]. rewrite (HP x e E Px) in Pe. discriminate.
Qed.

Lemma ge_key_negb x e : negb (ge_key cmp x e) = clt e x.
Proof. unfold ge_key, clt. destruct (cmp e x); reflexivity. Qed.

Lemma ge_key_up x : up clt (ge_key cmp x).
Proof.
  intros a b Hab Ha. unfold ge_key in Ha |- *. destruct (cmp b x) eqn:E; try reflexivity.
  apply cmp_ltb_iff in Hab. rewrite (co_trans CO a b x Hab E) in Ha. discriminate.
Qed.

Lemma ge_key_clt_distinct x e : cmp x e <> Eq -> ge_key cmp x e = clt x e.
Proof.
  intros H. unfold ge_key, clt. rewrite (co_antisym CO e x).
  destruct (cmp x e); cbn [CompOpp]; [exfalso; apply H; reflexivity|reflexivity|reflexivity].
Qed.

(* A child re-sought at x sits beyond x.  Forwards this is claimed only for a run without a key
   equal to x: the [Eq => ch_next] branch of the re-seek is then dead, and nothing is said about
   runs that share keys.  Backwards it is [reseek_prev], and distinct keys do not matter. *)
Lemma reseek_beyond d x r c :
  SrtBy clt r -> (forall e, In e r -> cmp x e <> Eq) -> reseek d x (r, c) = (r, dsk d (dlt d x) r).
Proof.
  intros Hs Hx. unfold reseek, ch_seek, ch_get, ch_next, ch_prev, ch_last. cbn [fst snd].
  destruct d; cbn [dsk dlt].
  - assert (X : c_seek (ge_key cmp x) r = c_seek (fun e => clt x e) r).
    { apply c_seek_ext. intros e He. exact (ge_key_clt_distinct x e (Hx e He)). }
    destruct (c_get r (c_seek (ge_key cmp x) r)) as [ck|] eqn:Gck; [|f_equal; exact X].
    pose proof (Hx ck (c_get_in r _ ck Gck)) as Hne.
    destruct (cmp x ck); [exfalso; apply Hne; reflexivity| |]; f_equal; exact X.
  - generalize (reseek_prev clt r (ge_key cmp x) Hs (ge_key_up x)).
    destruct (c_get r (c_seek (ge_key cmp x) r)) as [y|]; intros RP; rewrite RP; f_equal;
      apply c_seek_last_ext; intros e _; apply ge_key_negb.
Qed.

Lemma MRel_turn d P x :
  m_key (st_of (opp d) P) = Some x -> MRel (m_step d (st_of (opp d) P)) (dstep d L (dsk (opp d) P L)).
Proof.
  intros K. destruct (st_valid (opp d) P x K) as (i & ri & -> & Hri & Gx & GL).
  apply (arrive d true _ i ri x _ Hri Gx GL). intros j rj Eji Hj.
  apply reseek_beyond; [exact (run_sorted j rj Hj)|]. intros e He.
  exact (runs_distinct i j ri rj x e (fun C => Eji (eq_sym C)) Hri Hj (c_get_in ri _ x Gx) He).
Qed.

(* an invalid iterator stays where it is (the C code asserts) *)
Lemma m_step_invalid d st : m_key st = None -> m_step d st = st.
Proof. intros H. destruct d; cbn [m_step]; unfold m_next, m_prev; rewrite H; destruct (m_current st); reflexivity. Qed.

Lemma MRel_move d st p : MRel st p -> MRel (m_step d st) (dstep d L p).
Proof.
  intros H. destruct (m_key st) as [x|] eqn:K.
  - destruct H as [d0 P HP]. destruct d, d0;
      [exact (MRel_stay Forward P x HP K)|exact (MRel_turn Forward P x K)
      |exact (MRel_turn Reverse P x K)|exact (MRel_stay Reverse P x HP K)].
  - rewrite (m_step_invalid d st K).
    pose proof (c_get_wf_none L p (MRel_wf st p H) (eq_trans (eq_sym (MRel_get st p H)) K)) as ->.
    destruct d; exact H.
Qed.

Variable T : Type.
Variable tge : T -> A -> bool.
Variable tcmp : A -> T -> comparison.
Hypothesis tge_mono : forall t a b, clt a b = true -> tge t a = true -> tge t b = true.

Theorem merger_bisim :
  exists R : @mstate A -> cursor -> Prop,
    R (m_init runs) None /\ bisim (merger_ops cmp tge tcmp) (cursor_ops tge tcmp L) R.
Proof.
  exists MRel. split; [exact MRel_init|].
  constructor; unfold merger_ops, cursor_ops;
    cbn [i_get i_first i_last i_seek i_next i_prev].
  - intros o t. reflexivity.
  - exact MRel_get.
  - exact MRel_first.
  - exact MRel_last.
  - intros t a b H. apply (MRel_seek (tge t) a b); [exact (tge_mono t)|exact H].
  - intros a b H _. exact (MRel_move Forward a b H).
  - intros a b H _. exact (MRel_move Reverse a b H).
Qed.

Corollary merger_simulates :
  simulates (merger_ops cmp tge tcmp) (m_init runs) (cursor_ops tge tcmp L) None.
Proof.
  destruct merger_bisim as (R & H & B). exact (bisim_scripts _ _ R B _ _ H).
Qed.

End Layer1.

Section Entries.
Variable ucmp : bytes -> bytes -> comparison.
Context {TO : total_order ucmp}.

Lemma icmp_cmp_order : cmp_order (icmp ucmp).
Proof.
  pose proof (icmp_order ucmp) as O.
  exact (Build_cmp_order _ (cmp_refl O) (cmp_opp O) (cmp_lt_trans O) (fun a b H c => cmp_eq_l O a b c H)).
Qed.

Definition runs_ok (runs : list (list entry)) : Prop :=
  (forall r, In r runs -> sorted_run ucmp r = true) /\
  (forall i j ri rj a b, i <> j -> nth_error runs i = Some ri -> nth_error runs j = Some rj ->
     In a ri -> In b rj -> icmp ucmp a b <> Eq).

(* no entry of one run has the internal key of an entry of the other *)
Definition Dj (r r' : list entry) : Prop := forall a b, In a r -> In b r' -> icmp ucmp a b <> Eq.

Lemma Dj_sym r r' : Dj r r' -> Dj r' r.
Proof.
  intros H a b Ha Hb E. apply (H b a Hb Ha). rewrite (cmp_opp (icmp_order ucmp)), E. reflexivity.
Qed.

Lemma runs_ok_FOP runs :
  runs_ok runs <->
  (forall r, In r runs -> sorted_run ucmp r = true) /\ ForallOrdPairs Dj runs.
Proof.
  unfold runs_ok. split; intros [Hs Hd]; (split; [exact Hs|]).
  - apply (FOP_nth Dj []). intros i j Hij Hj a b.
    apply (Hd i j); [apply Nat.lt_neq; exact Hij|apply nth_error_nth'|apply nth_error_nth'; exact Hj].
    exact (Nat.lt_trans _ _ _ Hij Hj).
  - intros i j ri rj a b Hij Hi Hj Ha Hb.
    pose proof (proj1 (FOP_nth Dj [] runs) Hd) as Hn.
    assert (Hil : (i < length runs)%nat) by (apply nth_error_Some; congruence).
    assert (Hjl : (j < length runs)%nat) by (apply nth_error_Some; congruence).
    apply (nth_error_nth _ _ []) in Hi. apply (nth_error_nth _ _ []) in Hj.
    destruct (Nat.lt_trichotomy i j) as [L|[E|L]]; [|congruence|].
    + pose proof (Hn i j L Hjl) as H. rewrite Hi, Hj in H. exact (H a b Ha Hb).
    + pose proof (Hn j i L Hil) as H. rewrite Hi, Hj in H. exact (Dj_sym _ _ H a b Ha Hb).
Qed.

Lemma runs_ok_nil : runs_ok [].
Proof. split; [intros r []|intros [|i] j ri rj a b _ H; discriminate H]. Qed.

Lemma runs_ok_cons r runs :
  sorted_run ucmp r = true ->
  Forall (fun r' => Forall (fun a => Forall (fun b => icmp ucmp a b <> Eq) r') r) runs ->
  runs_ok runs -> runs_ok (r :: runs).
Proof.
  intros Hr Hx Hok. apply runs_ok_FOP in Hok. destruct Hok as [Hs HF]. apply runs_ok_FOP. split.
  - intros r0 [<-|H0]; [exact Hr|exact (Hs r0 H0)].
  - constructor; [|exact HF]. eapply Forall_impl; [|exact Hx].
    intros r' F a b Ha Hb. rewrite Forall_forall in F. specialize (F a Ha).
    rewrite Forall_forall in F. exact (F b Hb).
Qed.

Lemma merged_sorted runs :
  runs_ok runs -> sorted_run ucmp (sort_entries ucmp (concat runs)) = true.
Proof.
  intros Hok. apply runs_ok_FOP in Hok. destruct Hok as [Hs HF].
  apply (@sorted_run_Srt ucmp TO). apply (@sort_entries_Srt ucmp TO).
  apply FOP_concat.
  - intros r Hr. pose proof (proj1 (@sorted_run_Srt ucmp TO r) (Hs r Hr)) as S.
    unfold Srt in S. apply SS_FOP in S.
    eapply FOP_impl; [|exact S]. intros x y _ _ H. left. exact H.
  - eapply FOP_impl; [|exact HF]. intros r r' _ _ H a b Ha Hb.
    unfold Cmp. destruct (ilt ucmp a b) eqn:E; [left; reflexivity|right].
    exact (cmp_ltb_total (icmp_order ucmp) a b (H a b Ha Hb) E).
Qed.

Theorem merger_is_cursor_bisim runs :
  runs_ok runs ->
  exists R, R (m_init runs) None /\
    bisim (internal_ops ucmp)
            (cursor_ops (itge ucmp) (itcmp ucmp) (sort_entries ucmp (concat runs))) R.
Proof.
  intros Hok. pose proof (merged_sorted runs Hok) as HL. destruct Hok as [Hs Hd].
  unfold internal_ops. apply merger_bisim.
  - exact icmp_cmp_order.
  - intros r Hr. exact (proj1 (@sorted_run_Srt ucmp TO r) (Hs r Hr)).
  - exact Hd.
  - exact (proj1 (@sorted_run_Srt ucmp TO _) HL).
  - intros x. apply sort_entries_In.
  - intros [k q]. exact (ge_target_mono ucmp TO k q).
Qed.

Theorem merger_is_cursor runs :
  runs_ok runs ->
  simulates (internal_ops ucmp) (m_init runs)
            (cursor_ops (itge ucmp) (itcmp ucmp) (sort_entries ucmp (concat runs))) None.
Proof.
  intros Hok. destruct (merger_is_cursor_bisim runs Hok) as (R & H & B). exact (bisim_scripts _ _ R B _ _ H).
Qed.

End Entries.

Print Assumptions merger_is_cursor.
