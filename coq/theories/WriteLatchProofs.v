(* WriteLatchProofs.v -- the write-path error latch (WriteLatch.v): one step by cases
   (wl_step_spec), a session in closed form (wl_run_closed), from which the shape of its
   acknowledgements (wl_run_shape) and what log recovery returns after it (latch_session,
   latch_no_acknowledged_loss) are read off; without the latch an acknowledged write is lost
   (nolatch_loses_acknowledged). *)
From Coq Require Import List NArith Bool PeanoNat.
From LCDB Require Import WriteLatch.
Import ListNotations.

Lemma recovered_app_whole l r : wl_recovered (map WlWhole l ++ r) = l ++ wl_recovered r.
Proof. induction l as [|x l IH]; simpl; congruence. Qed.

(* one more record at the end of the log adds at most itself to what recovery returns *)
Lemma recovered_snoc_In i l x :
  In i (wl_recovered (l ++ [x])) -> In i (wl_recovered l) \/ x = WlWhole i.
Proof.
  induction l as [|y l IH]; intros H.
  - destruct x; simpl in H; [destruct H as [H|[]]; subst; auto | destruct H].
  - destruct y; simpl in H |- *; [|destruct H]. destruct H as [H|H]; [auto|].
    destruct (IH H); auto.
Qed.

(* what a failing call leaves behind in the log file: its record, whole (the fsync failed) or
   torn (the append failed part-way), or nothing *)
Definition wl_tail (o : lwop) : list wl_rec :=
  match lw_app o with
  | WlAOk => [WlWhole (lw_id o)]
  | WlAPartial => [WlTorn (lw_id o)]
  | WlANone => []
  end.

(* a latched session refuses; a failing call latches and is reported; a clean call is applied and
   acknowledged *)
Lemma wl_step_spec s o :
  wl_step s o =
    if wl_bg s then (s, false)
    else if wl_op_faulty o
    then ({| wl_bg := true; wl_logf := wl_logf s ++ wl_tail o; wl_mem := wl_mem s |}, false)
    else ({| wl_bg := false; wl_logf := wl_logf s ++ [WlWhole (lw_id o)];
             wl_mem := wl_mem s ++ [lw_id o] |}, true).
Proof.
  unfold wl_step, wl_op_faulty, wl_tail. destruct (wl_bg s); [reflexivity|].
  destruct (lw_app o); [destruct (lw_sync o && negb (lw_sync_ok o))|..]; try reflexivity.
  rewrite app_nil_r. reflexivity.
Qed.

Lemma step_latched s o : wl_bg s = true -> wl_step s o = (s, false).
Proof. intro H. rewrite wl_step_spec, H. reflexivity. Qed.

Lemma step_fault_latches s o : wl_bg s = false -> wl_op_faulty o = true ->
  snd (wl_step s o) = false /\ wl_bg (fst (wl_step s o)) = true.
Proof. intros Hb Hf. rewrite wl_step_spec, Hb, Hf. split; reflexivity. Qed.

(* an acknowledgement means the call's I/O did not fail *)
Lemma step_ack_clean s o : snd (wl_step s o) = true -> wl_bg s = false /\ wl_op_faulty o = false.
Proof.
  rewrite wl_step_spec. destruct (wl_bg s); [discriminate|].
  destruct (wl_op_faulty o); [discriminate|]. split; reflexivity.
Qed.

Lemma run_cons stp s o r :
  wl_run stp s (o :: r) =
  (fst (wl_run stp (fst (stp s o)) r), snd (stp s o) :: snd (wl_run stp (fst (stp s o)) r)).
Proof.
  cbn [wl_run]. destruct (stp s o) as [s1 a]. cbn [fst snd].
  destruct (wl_run stp s1 r) as [s2 acks]. reflexivity.
Qed.

Lemma run_latched os : forall s, wl_bg s = true ->
  wl_run wl_step s os = (s, repeat false (length os)).
Proof.
  induction os as [|o r IH]; intros s Hb; [reflexivity|].
  rewrite run_cons, (step_latched s o Hb). cbn [fst snd]. rewrite (IH s Hb). reflexivity.
Qed.

Lemma run_length stp os : forall s, length (snd (wl_run stp s os)) = length os.
Proof.
  induction os as [|o r IH]; intros s; [reflexivity|]. rewrite run_cons. cbn [snd length]. rewrite IH. reflexivity.
Qed.

(* number of leading calls whose I/O is clean *)
Fixpoint wl_clean (os : list lwop) : nat :=
  match os with
  | o :: r => if wl_op_faulty o then O else S (wl_clean r)
  | [] => O
  end.

(* a session in closed form: the clean prefix is applied and acknowledged, the first failing call
   latches and leaves its tail in the log, everything behind it is refused *)
Lemma wl_run_closed os : forall s, wl_bg s = false ->
  wl_run wl_step s os =
   ({| wl_bg := negb (Nat.eqb (wl_clean os) (length os));
       wl_logf := wl_logf s ++ map WlWhole (map lw_id (firstn (wl_clean os) os)) ++
                  match nth_error os (wl_clean os) with Some o => wl_tail o | None => [] end;
       wl_mem := wl_mem s ++ map lw_id (firstn (wl_clean os) os) |},
    repeat true (wl_clean os) ++ repeat false (length os - wl_clean os)).
Proof.
  induction os as [|o r IH]; intros s Hb.
  - destruct s; cbn in *; subst. rewrite !app_nil_r. reflexivity.
  - rewrite run_cons, wl_step_spec, Hb. cbn [wl_clean]. destruct (wl_op_faulty o); cbn [fst snd].
    + rewrite run_latched by reflexivity. cbn. rewrite app_nil_r. reflexivity.
    + rewrite IH by reflexivity. cbn. rewrite <- !app_assoc. reflexivity.
Qed.

Lemma wl_clean_spec os :
  (wl_clean os <= length os)%nat /\
  forallb (fun o => negb (wl_op_faulty o)) (firstn (wl_clean os) os) = true /\
  ((wl_clean os < length os)%nat -> exists o, nth_error os (wl_clean os) = Some o /\ wl_op_faulty o = true).
Proof.
  induction os as [|o r (I1 & I2 & I3)]; cbn [wl_clean length].
  - repeat split; auto. intro H; inversion H.
  - destruct (wl_op_faulty o) eqn:Hf; cbn [firstn forallb nth_error].
    + repeat split; auto using Nat.le_0_l. intros _. exists o. auto.
    + rewrite Hf. repeat split; auto using le_n_S. intros H. apply I3, le_S_n, H.
Qed.

(* shape of the acknowledgements of a session: OK up to the first failing call, errors from it on *)
Lemma wl_run_shape os : forall s, wl_bg s = false ->
  exists n, snd (wl_run wl_step s os) = repeat true n ++ repeat false (length os - n) /\
            (n <= length os)%nat /\
            forallb (fun o => negb (wl_op_faulty o)) (firstn n os) = true /\
            ((n < length os)%nat -> exists o, nth_error os n = Some o /\ wl_op_faulty o = true) /\
            wl_bg (fst (wl_run wl_step s os)) = negb (Nat.eqb n (length os)).
Proof.
  intros s Hb. exists (wl_clean os). rewrite (wl_run_closed os s Hb).
  destruct (wl_clean_spec os) as (H1 & H2 & H3). auto.
Qed.

Lemma acked_ids_shape os : forall n,
  wl_acked_ids os (repeat true n ++ repeat false (length os - n)) = map lw_id (firstn n os).
Proof.
  induction os as [|o r IH]; intros [|n]; try reflexivity.
  - cbn [length Nat.sub repeat app wl_acked_ids]. clear. induction r; cbn; auto.
  - cbn [length Nat.sub repeat app wl_acked_ids firstn map]. rewrite IH. reflexivity.
Qed.

(* what recovery of the session's log returns, relative to what was acknowledged *)
Theorem latch_session os :
  let r := wl_run wl_step wl_init os in
  let acked := wl_acked_ids os (snd r) in
  wl_mem (fst r) = acked /\
  (wl_recovered (wl_logf (fst r)) = acked \/
   (wl_bg (fst r) = true /\ exists i, wl_recovered (wl_logf (fst r)) = acked ++ [i])).
Proof.
  cbv zeta. rewrite (wl_run_closed os wl_init eq_refl). cbn [fst snd wl_mem wl_logf wl_bg wl_init app].
  rewrite acked_ids_shape, recovered_app_whole.
  split; [reflexivity|].
  destruct (nth_error os (wl_clean os)) as [o|] eqn:E; [|left; apply app_nil_r].
  unfold wl_tail. destruct (lw_app o); cbn; try (left; apply app_nil_r).
  right. split; [|exists (lw_id o); reflexivity].
  apply negb_true_iff, Nat.eqb_neq. intros Hn. rewrite Hn in E.
  rewrite (proj2 (nth_error_None os (length os)) (le_n _)) in E. discriminate.
Qed.

(* one call adds to what recovery returns at most its own record (for a whole session
   wl_run_closed says which: the tail of the first failing call) *)
Lemma step_logf_ids s o : forall i, In i (wl_recovered (wl_logf (fst (wl_step s o)))) ->
  In i (wl_recovered (wl_logf s)) \/ (i = lw_id o /\ wl_bg s = false).
Proof.
  intros i. rewrite wl_step_spec. destruct (wl_bg s); [auto|].
  destruct (wl_op_faulty o); cbn [fst wl_logf];
    [unfold wl_tail; destruct (lw_app o); [| |rewrite app_nil_r; auto]|];
    intro H; destruct (recovered_snoc_In _ _ _ H) as [H1|H1]; auto; inversion H1; auto.
Qed.

(* before the fix: a torn record in the middle of the log, acknowledged writes behind it are lost *)
Theorem nolatch_loses_acknowledged :
  exists os, let r := wl_run wl_step_nolatch wl_init os in
             exists i, In i (wl_acked_ids os (snd r)) /\ ~ In i (wl_recovered (wl_logf (fst r))).
Proof.
  exists [ {| lw_id := 1; lw_sync := false; lw_app := WlAPartial; lw_sync_ok := true |};
           {| lw_id := 2; lw_sync := true; lw_app := WlAOk; lw_sync_ok := true |} ].
  cbv zeta. exists 2%N. vm_compute. split; [left; reflexivity | intros []].
Qed.

(* the user-visible statement: whatever the environment does, every acknowledged write of the
   session is returned by log recovery, in order, and recovery returns at most one record more *)
Theorem latch_no_acknowledged_loss os :
  let r := wl_run wl_step wl_init os in
  exists extra, wl_recovered (wl_logf (fst r)) = wl_acked_ids os (snd r) ++ extra /\ (length extra <= 1)%nat.
Proof.
  cbv zeta. destruct (latch_session os) as [_ [H | [_ [i H]]]].
  - exists []. rewrite app_nil_r. split; [exact H | apply Nat.le_0_l].
  - exists [i]. split; [exact H | apply le_n].
Qed.
