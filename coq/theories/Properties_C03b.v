(* Properties_C03b.v -- C03 / C02 rule R7: "every log record is pushed to the OS
   before the write returns".  Model of the buffered writable file ldb_wfile_t
   (src/util/env_unix_impl.h) and of the log writer driving it
   (src/log_writer.c): WFile.v; proofs: WFileProofs.v.  Statements only.

   Standing assumption of the model (WFile.v): every system call succeeds and
   write(2) writes everything it is given (ldb_write loops over short writes and
   EINTR in C); error paths are not modelled.  The correspondence between the
   model's predicted write(2)/fsync/close sequence and the real one is checked at
   run time on I/O traces by checks/extra_wfile.py. *)
From LCDB Require Import Base LogFormat WFile WFileProofs.
Local Open Scope N_scope.

(* After any sequence of append / flush / sync / close on a fresh file: the bytes
   passed to write(2), in order, followed by the buffer contents, are exactly the
   concatenation of everything appended -- nothing lost, reordered or duplicated. *)
Theorem C03_wfile_bytes : forall manifest ops,
  wf_written (fst (wf_run (wf_init manifest) ops)) ++
  wf_buf (fst (wf_run (wf_init manifest) ops)) = appended ops.
Proof. exact wfile_bytes. Qed.
Print Assumptions C03_wfile_bytes.

(* the same from any state *)
Theorem C03_wfile_bytes_from : forall ops w,
  wf_written (fst (wf_run w ops)) ++ wf_buf (fst (wf_run w ops)) =
    wf_written w ++ wf_buf w ++ appended ops.
Proof. exact wf_run_written. Qed.
Print Assumptions C03_wfile_bytes_from.

Theorem C03_wfile_calls_recorded : forall ops w,
  wf_out (fst (wf_run w ops)) = wf_out w ++ snd (wf_run w ops).
Proof. exact wf_run_out. Qed.
Print Assumptions C03_wfile_calls_recorded.

(* the left fold executed by the model driver (wfile_calls) is this run *)
Theorem C03_wfile_exec_is_run : forall manifest ops,
  wf_exec (wf_init manifest) ops = fst (wf_run (wf_init manifest) ops) /\
  wf_out (wf_exec (wf_init manifest) ops) = snd (wf_run (wf_init manifest) ops).
Proof. exact wf_exec_is_run. Qed.
Print Assumptions C03_wfile_exec_is_run.

(* flush, sync and close leave the buffer empty ... *)
Theorem C03_wfile_flush_empties : forall w,
  wf_buf (fst (wf_flush w)) = [] /\ wf_buf (fst (wf_sync w)) = [] /\
  wf_buf (fst (wf_close w)) = [].
Proof. exact wfile_flush_empties. Qed.
Print Assumptions C03_wfile_flush_empties.

(* ... so after a history ending with one of them write(2) has received every byte
   appended so far *)
Theorem C03_wfile_flushed_all_written : forall manifest ops op,
  is_flushing op ->
  wf_buf (fst (wf_run (wf_init manifest) (ops ++ [op]))) = [] /\
  wf_written (fst (wf_run (wf_init manifest) (ops ++ [op]))) = appended ops.
Proof. exact wfile_flushed_all_written. Qed.
Print Assumptions C03_wfile_flushed_all_written.

(* the 64 KiB buffer never overflows *)
Theorem C03_wfile_buf_bound : forall ops w,
  nlen (wf_buf w) <= WBUF -> nlen (wf_buf (fst (wf_run w ops))) <= WBUF.
Proof. exact wfile_buf_bound. Qed.
Print Assumptions C03_wfile_buf_bound.

(* fd_write (the static ldb_write(fd, buf, len) of env_unix_impl.h): no byte lost; every write(2) carries between 1 and 2^30 bytes (so a
   length of 0 -- flush of an empty buffer -- issues no call) *)
Theorem C03_fd_write_bytes : forall d, written_of (fd_write d) = d.
Proof. exact fd_write_bytes. Qed.
Print Assumptions C03_fd_write_bytes.

Theorem C03_fd_write_chunks : forall d,
  Forall (fun e => exists c, e = WsWrite c /\ 0 < nlen c <= WMAX) (fd_write d).
Proof. exact fd_write_chunks_bound. Qed.
Print Assumptions C03_fd_write_chunks.

(* The file operations performed by ldb_writer_add_record carry exactly the bytes
   of the log format model and compute the same block offset. *)
Theorem C03_add_record_ops_bytes : forall off data,
  appended (fst (add_record_ops off data)) = fst (add_record off data) /\
  snd (add_record_ops off data) = snd (add_record off data).
Proof. exact add_record_ops_bytes. Qed.
Print Assumptions C03_add_record_ops_bytes.

(* R7.  When ldb_writer_add_record returns (buffer empty on entry, as it is after
   ldb_wfile_init and after every earlier add_record): the buffer is empty, and
   write(2) has received every byte of the record's encoding:
   written = previously written ++ fst (add_record off data). *)
Theorem C03_record_reaches_os_before_return : forall w off data,
  wf_buf w = [] ->
  let '(r, off') := wfile_add_record w off data in
  wf_buf (fst r) = [] /\
  off' = snd (add_record off data) /\
  written_of (snd r) = fst (add_record off data) /\
  wf_written (fst r) = wf_written w ++ fst (add_record off data).
Proof. exact record_reaches_os. Qed.
Print Assumptions C03_record_reaches_os_before_return.

(* without the precondition: what was buffered before goes first *)
Theorem C03_record_reaches_os_any_state : forall w off data,
  let '(r, off') := wfile_add_record w off data in
  wf_buf (fst r) = [] /\
  off' = snd (add_record off data) /\
  written_of (snd r) = wf_buf w ++ fst (add_record off data) /\
  wf_out (fst r) = wf_out w ++ snd r /\
  wf_written (fst r) = wf_written w ++ wf_buf w ++ fst (add_record off data).
Proof. exact record_reaches_os_gen. Qed.
Print Assumptions C03_record_reaches_os_any_state.

(* a whole log written record by record to a fresh file: write(2) has received
   exactly write_log rs (the input of the reader theorems of Properties_C03.v) *)
Theorem C03_log_reaches_os : forall manifest rs,
  wf_buf (fst (wfile_add_records (wf_init manifest) 0 rs)) = [] /\
  wf_written (fst (wfile_add_records (wf_init manifest) 0 rs)) = write_log rs.
Proof. exact log_reaches_os. Qed.
Print Assumptions C03_log_reaches_os.

(* exact system calls: one write(2) per fragment (zero trailer of the previous
   block ++ 7-byte header ++ payload), nothing else *)
Theorem C03_record_one_write_per_fragment : forall w off data,
  wf_buf w = [] ->
  snd (fst (wfile_add_record w off data)) = map WsWrite (record_chunks off data) /\
  concat (record_chunks off data) = fst (add_record off data).
Proof. exact record_one_write_per_fragment. Qed.
Print Assumptions C03_record_one_write_per_fragment.

(* add_record followed by ldb_wfile_sync (MANIFEST records; log records of sync
   writes): the fsync comes after the record's last write(2) *)
Theorem C03_record_sync_calls : forall w off data,
  wf_buf w = [] ->
  snd (fst (wfile_add_record_sync w off data)) =
    map WsWrite (record_chunks off data) ++
    (if wf_manifest w then [WsSyncDir] else []) ++ [WsFsync] /\
  wf_buf (fst (fst (wfile_add_record_sync w off data))) = [].
Proof. exact record_sync_calls. Qed.
Print Assumptions C03_record_sync_calls.
