(* FsInv.v -- what the rules say of an event they accept, as propositions (accepts,
   chk_all_spec); the structural invariant [Inv_struct] of the record-level file model
   (names, objects, typing, the list of logs) and its preservation by every step that the
   protocol rules accept (struct_step, clause by clause over the step_* lemmas of FsLemmas). *)
From LCDB Require Import BaseProofs FsModel FsLemmas.
Local Open Scope N_scope.

Definition created_at (d : disk) (i : nat) (f : fname) (o : nat) : Prop :=
  nth_error (d_ops d) i = Some (DCreate f o).

Definition prev_ok (e : medit) : Prop := me_prev e = None \/ me_prev e = Some 0.

Definition typed (f : fname) (x : fobj) : Prop :=
  match f with
  | FLog _ => True    (* which batches a log holds: FsAck.it_obj *)
  | FTable _ => o_recs x = [] \/ exists ents, o_recs x = [PTable ents]
  | FManifest _ => exists eds, edits_of (o_recs x) = Some eds /\ Forall prev_ok eds
  | FTmp _ => o_recs x = [] \/ exists m, o_recs x = [PCurrent m]
  | FCurrent => True
  end.

(* The disk is well formed and the protocol state describes it: p_created has every name
   created, every object has the type of the name it was created under, and p_logs lists the
   created logs, by increasing number (what batches it lists for each: FsAck.Inv_trace). *)
Record Inv_struct (p : pstate) : Prop := {
  is_ops : ops_wf (d_ops (p_disk p)) (length (d_objs (p_disk p)));
  is_dsync : (d_dsync (p_disk p) <= length (d_ops (p_disk p)))%nat;
  is_created : forall f, In f (created_names (d_ops (p_disk p))) -> In f (p_created p);
  (* third conjunct of is_typed: the creation of an fsynced file is below the directory mark -- in the crash
     model an fsync of any file persists the directory operations issued before it (ESync
     sets d_dsync to the number of operations); C02 turns on this *)
  is_typed : forall i f o x, created_at (p_disk p) i f o -> nth_error (d_objs (p_disk p)) o = Some x ->
      typed f x /\ (o_synced x <= length (o_recs x))%nat /\ ((0 < o_synced x)%nat -> (i < d_dsync (p_disk p))%nat);
  is_logs_names : map fst (p_logs p) = flat_map log_num (created_names (d_ops (p_disk p)));
  (* the head 0 keeps log numbers positive: recovery replays the log numbered prev_log_number = 0 whatever
     log_number says (FsProofs.logs_read) *)
  is_logs_sorted : StronglySorted N.lt (0 :: map fst (p_logs p)) }.

(* What the proofs use of what the eight rules say of an event that they accept in p, as propositions
   (not read by any of them, and left out: R4's non-empty [exposed], R7's equality of call and acknowledgement ids). *)
Definition accepts (p : pstate) (e : fev) : Prop :=
  let d := p_disk p in
  match e with
  | ECreate f =>
      f <> FCurrent /\ ~ In f (p_created p) /\
      match f with FLog n => newest_log (p_logs p) < n /\ current_manifest d <> None | _ => True end
  | EAppend f pl =>
      exists x, obj_at d f = Some x /\
      match f, pl with
      | FLog n, PBatch _ ops => n = newest_log (p_logs p) /\ exists id sy, p_call p = Some (id, ops, sy, None)
      | FTable _, PTable _ | FTmp _, PCurrent _ => o_recs x = []
      | FManifest _, PEdit ed =>
          prev_ok ed /\ (forall f, In f (me_new ed) -> fs_table_ok d (snd f) = true) /\
          forall l, me_log ed = Some l -> p_cov p <= l /\ l <= newest_log (p_logs p) /\
            forall n bs b, In (n, bs) (p_logs p) -> p_cov p <= n -> n < l -> In b bs ->
              batch_covered (flat_map (fun f => table_ents d (snd f)) (me_new ed)) b = true
      | _, _ => False
      end
  | ERename a b =>
      exists t m x, a = FTmp t /\ b = FCurrent /\ obj_at d (FTmp t) = Some (mkObj [PCurrent m] 1) /\
        obj_at d (FManifest m) = Some x /\
        forall ms, In ms (exposed x) -> manifest_ok ms = true /\
          (forall f, In f (mv_files ms) -> fs_table_ok d (snd f) = true) /\
          (forall l, In l (p_logs p) -> ns_lookup d (FLog (fst l)) = None -> log_dead ms (fst l) = true)
  | EUnlink f =>
      f <> FCurrent /\ ns_lookup d f <> None /\
      match f with
      | FLog n => no_pending_rename d = true /\ exists m0 x0, current_manifest d = Some m0 /\
          obj_at d (FManifest m0) = Some x0 /\ forall ms, In ms (exposed x0) -> log_dead ms n = true
      | FTable t => exists m0 x0, current_manifest d = Some m0 /\ obj_at d (FManifest m0) = Some x0 /\
          forall ms f, In ms (exposed x0) -> In f (mv_files ms) -> snd f <> t
      | FManifest m' => exists m0, current_manifest d = Some m0 /\ m0 <> m'
      | _ => True
      end
  | ECall _ _ _ => p_call p = None
  | EAck _ ok =>
      exists id' ops sy app, p_call p = Some (id', ops, sy, app) /\
        ok = (match app with Some _ => true | None => false end) /\
        (sy = true -> forall n s, app = Some (n, s) ->
           exists x, obj_at d (FLog n) = Some x /\ o_synced x = length (o_recs x))
  | _ => True
  end.

Lemma current_and_manifest : forall d (P : N -> fobj -> bool),
  match current_manifest d with
  | Some m => match obj_at d (FManifest m) with Some x => P m x | None => false end
  | None => false
  end = true ->
  exists m0 x0, current_manifest d = Some m0 /\ obj_at d (FManifest m0) = Some x0 /\ P m0 x0 = true.
Proof.
  intros d P H. destruct (current_manifest d) as [m0|]; [|discriminate].
  destruct (obj_at d (FManifest m0)) as [x0|] eqn:B; [|discriminate]. exists m0, x0. auto.
Qed.

Lemma chk_all_spec : forall p e, chk_all p e = true -> accepts p e.
Proof.
  unfold chk_all. intros p e [[[[[[[H0 H1]%andb_prop H2]%andb_prop H3]%andb_prop H4]%andb_prop H5]%andb_prop H6]%andb_prop H7]%andb_prop.
  destruct e as [f|f pl|f| |a b|f|id b sy|id ok]; cbn [accepts]; try exact Logic.I.
  - clear H1 H2 H3 H5 H7. cbn [chk_R0] in H0. apply negb_true_iff, fname_eqb_neq in H0.
    cbn [chk_R6] in H6. apply andb_true_iff in H6. destruct H6 as [Hfresh Hlog]. apply negb_true_iff in Hfresh.
    split; [exact H0|split].
    + intro Hin. apply (existsb_eqb_In _ fname_eqb_eq) in Hin. congruence.
    + destruct f; try exact Logic.I. split; [apply N.ltb_lt; exact Hlog|].
      cbn [chk_R4] in H4. destruct (current_manifest (p_disk p)); [discriminate|discriminate H4].
  - clear H1 H3 H4 H6. cbn [chk_R0] in H0. destruct (obj_at (p_disk p) f) as [x|]; [|discriminate H0]. exists x. split; [reflexivity|].
    destruct f as [n|n|n| |n], pl as [s ops|ed|ents|cm]; try discriminate H0.
    + (* R7 *) cbn [chk_R7] in H7. destruct (p_call p) as [[[[id b] sy] [app|]]|]; try discriminate H7.
      apply andb_true_iff in H7. destruct H7 as [H7 H8]. apply N.eqb_eq in H8.
      apply (list_eqb_eq _ wop_eqb_eq) in H7. subst b. eauto.
    + destruct (o_recs x); [reflexivity|discriminate H0].
    + (* R0, R2, R5 *) split; [|split].
      * unfold prev_ok. destruct (me_prev ed) as [v|]; [|left; reflexivity].
        apply N.eqb_eq in H0; subst v; right; reflexivity.
      * cbn [chk_R2] in H2. rewrite forallb_forall in H2. exact H2.
      * intros l El. cbn [chk_R5] in H5. rewrite El in H5. apply andb_true_iff in H5. destruct H5 as [H5 Hc].
        apply andb_true_iff in H5. destruct H5 as [Ha Hb]. apply N.leb_le in Ha, Hb.
        split; [exact Ha|split; [exact Hb|]].
        intros n' bs b Hin Hn1 Hn2 Hbin. rewrite forallb_forall in Hc. specialize (Hc _ Hin). cbn [fst snd] in Hc.
        apply N.leb_le in Hn1. apply N.ltb_lt in Hn2. rewrite Hn1, Hn2 in Hc. cbn [andb] in Hc.
        rewrite forallb_forall in Hc. exact (Hc _ Hbin).
    + destruct (o_recs x); [reflexivity|discriminate H0].
  - (* R0, R4 *) clear H1 H2 H3 H5 H6 H7. cbn [chk_R0] in H0. destruct a as [| | | |t]; try discriminate H0. destruct b; try discriminate H0.
    cbn [chk_R4] in H4.
    destruct (obj_at (p_disk p) (FTmp t)) as [[recs sy]|] eqn:Etmp; [|discriminate H4].
    destruct recs as [|r1 rs]; [discriminate H4|]. destruct r1; try discriminate H4.
    destruct rs; [|discriminate H4]. destruct sy as [|[|sy]]; try discriminate H4.
    destruct (obj_at (p_disk p) (FManifest m)) as [x|] eqn:Eman; [|discriminate H4].
    apply andb_true_iff in H4. destruct H4 as [_ H]. rewrite forallb_forall in H.
    exists t, m, x. split; [reflexivity|split; [reflexivity|split; [exact Etmp|split; [exact Eman|]]]].
    intros ms Hms. specialize (H _ Hms). apply andb_true_iff in H. destruct H as [H H3'].
    apply andb_true_iff in H. destruct H as [R1 R2]. rewrite forallb_forall in R2, H3'.
    split; [exact R1|split; [exact R2|]].
    intros l Hl Hn. specialize (H3' _ Hl). rewrite Hn in H3'. exact H3'.
  - (* R0, R3, R4 *) clear H1 H2 H5 H6 H7. cbn [chk_R0] in H0. apply andb_true_iff in H0. destruct H0 as [Hf Hb].
    apply negb_true_iff, fname_eqb_neq in Hf. split; [exact Hf|split].
    + destruct (ns_lookup (p_disk p) f); [discriminate|discriminate Hb].
    + destruct f as [n|t|m'| |t]; try exact Logic.I.
      * cbn [chk_R3] in H3. apply andb_true_iff in H3. destruct H3 as [Hn H]. split; [exact Hn|].
        destruct (current_and_manifest _ _ H) as [m0 [x0 [A [B C]]]]. exists m0, x0. split; [exact A|split; [exact B|]].
        rewrite forallb_forall in C. exact C.
      * cbn [chk_R3] in H3. destruct (current_and_manifest _ _ H3) as [m0 [x0 [A [B C]]]].
        exists m0, x0. split; [exact A|split; [exact B|]]. rewrite forallb_forall in C.
        intros ms f Hms Hf' Heq. specialize (C _ Hms). apply negb_true_iff in C.
        assert (existsb (fun f0 : nat * N => snd f0 =? t) (mv_files ms) = true); [|congruence].
        apply existsb_exists; exists f; split; [exact Hf'|apply N.eqb_eq; exact Heq].
      * cbn [chk_R4] in H4. destruct (current_manifest (p_disk p)) as [m0|]; [|discriminate H4].
        exists m0; split; [reflexivity|]. apply negb_true_iff, N.eqb_neq in H4. exact H4.
  - cbn [chk_R7] in H7. destruct (p_call p); [discriminate H7|reflexivity].
  - (* R7, R1 *) clear H0 H2 H3 H4 H5 H6. cbn [chk_R7 chk_R1] in H7, H1. destruct (p_call p) as [[[[id' ops] sy] app]|]; [|discriminate H7].
    apply andb_true_iff in H7. destruct H7 as [_ H7]. apply Bool.eqb_prop in H7.
    exists id', ops, sy, app. split; [reflexivity|split; [exact H7|]].
    intros -> n s ->. subst ok.
    destruct (obj_at (p_disk p) (FLog n)) as [x|]; [|discriminate H1]. apply Nat.eqb_eq in H1. eauto.
Qed.

Lemma newest_log_ge : forall (l : list (N * list brec)) a, a <= fold_left (fun a x => N.max a (fst x)) l a.
Proof.
  intro l; induction l as [|x r IH]; intro a; cbn [fold_left]; [lia|].
  specialize (IH (N.max a (fst x))); lia.
Qed.

Lemma newest_log_in : forall (l : list (N * list brec)) a n, In n (map fst l) ->
  n <= fold_left (fun a x => N.max a (fst x)) l a.
Proof.
  intro l; induction l as [|x r IH]; intros a n H; [contradiction|].
  cbn [fold_left]. destruct H as [<-|H].
  - pose proof (newest_log_ge r (N.max a (fst x))); lia.
  - apply IH; exact H.
Qed.

Lemma newest_log_snoc : forall (l : list (N * list brec)) x, newest_log (l ++ [x]) = N.max (newest_log l) (fst x).
Proof. intros; unfold newest_log; rewrite fold_left_app; reflexivity. Qed.

Lemma newest_log_keys : forall (l l' : list (N * list brec)), map fst l = map fst l' -> newest_log l = newest_log l'.
Proof.
  intros l l' H. unfold newest_log.
  assert (G : forall (l : list (N * list brec)) a, fold_left (fun a x => N.max a (fst x)) l a = fold_left N.max (map fst l) a).
  { clear. intro l; induction l as [|x r IH]; intro a; cbn [fold_left map]; [reflexivity|apply IH]. }
  rewrite !G, H. reflexivity.
Qed.

Lemma sorted0_snoc : forall (l : list (N * list brec)) n, StronglySorted N.lt (0 :: map fst l) -> newest_log l < n ->
  StronglySorted N.lt (0 :: map fst l ++ [n]).
Proof.
  intros l n H Hn. apply (SS_snoc _ (0 :: map fst l) n H). intros y [<-|Hy].
  - pose proof (newest_log_ge l 0). unfold newest_log in Hn. lia.
  - pose proof (newest_log_in l 0 y Hy). unfold newest_log in Hn. lia.
Qed.

Lemma add_batch_fst : forall n b l, map fst (add_batch n b l) = map fst l.
Proof.
  intros n b l; induction l as [|[m bs] r IH]; cbn [add_batch map]; [reflexivity|].
  destruct (m =? n); cbn [map fst]; [reflexivity|f_equal; exact IH].
Qed.

Lemma pstep_logs_keys : forall p e, map fst (p_logs (pstep p e)) = map fst (p_logs p) ++ flat_map log_num (new_name e).
Proof.
  intros p e; rewrite pstep_logs. destruct e as [f|f pl| | | | | |]; cbn [new_name flat_map]; rewrite ?app_nil_r; try reflexivity.
  - destruct f; cbn [log_num app]; rewrite ?app_nil_r; try reflexivity. apply map_app.
  - destruct f; try reflexivity. destruct pl; try reflexivity. apply add_batch_fst.
Qed.

Lemma created_unique : forall d n i1 i2 f1 f2 o, ops_wf (d_ops d) n ->
  created_at d i1 f1 o -> created_at d i2 f2 o -> f1 = f2.
Proof.
  intros d n i1 i2 f1 f2 o W H1 H2. pose proof (seq_NoDup n 0) as ND. rewrite <- (ow_ids _ _ W) in ND.
  assert (i1 = i2) by (apply (NoDup_flat_map_nth _ _ ND i1 i2 _ _ o H1 H2); left; reflexivity).
  subst i2. unfold created_at in *. congruence.
Qed.

Lemma created_same_name : forall d n i1 i2 f o1 o2, ops_wf (d_ops d) n ->
  created_at d i1 f o1 -> created_at d i2 f o2 -> o1 = o2.
Proof.
  intros d n i1 i2 f o1 o2 W H1 H2. assert (i1 = i2) by (eapply create_unique_pos; eauto using ow_nodup).
  subst i2. unfold created_at in *. congruence.
Qed.

Lemma created_at_lt : forall d n i f o, ops_wf (d_ops d) n -> created_at d i f o -> (o < n)%nat.
Proof.
  intros d n i f o W H. assert (Hin : In o (create_ids (d_ops d))).
  { apply in_create_ids; exists f; eapply nth_error_In; eauto. }
  rewrite (ow_ids _ _ W) in Hin. apply in_seq in Hin. lia.
Qed.

Lemma created_obj : forall d i f o, ops_wf (d_ops d) (length (d_objs d)) -> created_at d i f o ->
  exists x, nth_error (d_objs d) o = Some x.
Proof.
  intros d i f o W H. pose proof (created_at_lt _ _ _ _ _ W H) as Hlt.
  destruct (nth_error (d_objs d) o) as [x|] eqn:Ex; [eauto|apply nth_error_None in Ex; lia].
Qed.

Lemma created_name_neq_cur : forall d n i f o, ops_wf (d_ops d) n -> created_at d i f o -> f <> FCurrent.
Proof.
  intros d n i f o W H ->. eapply ow_nocur; eauto. apply in_created_names; exists o; eapply nth_error_In; eauto.
Qed.

Lemma created_at_snoc_old : forall d d' op i f o, d_ops d' = d_ops d ++ [op] ->
  created_at d i f o -> created_at d' i f o.
Proof. intros d d' op i f o E H; unfold created_at in *; rewrite E; rewrite nth_error_app1; [exact H|apply nth_error_Some; congruence]. Qed.

Lemma created_at_snoc_inv : forall d d' op i f o, d_ops d' = d_ops d ++ [op] ->
  created_at d' i f o -> created_at d i f o \/ (i = length (d_ops d) /\ op = DCreate f o).
Proof. intros d d' op i f o E H; unfold created_at in *; rewrite E in H. apply nth_snoc_inv; exact H. Qed.

Lemma step_created_mono : forall d e i f o, created_at d i f o -> created_at (fs_step d e) i f o.
Proof.
  intros d e i f o H. destruct (step_dir d e) as [l [E _]]. unfold created_at in *. rewrite E.
  rewrite nth_error_app1; [exact H|]. apply nth_error_Some; congruence.
Qed.

Lemma in_log_nums : forall names n, In n (flat_map log_num names) <-> In (FLog n) names.
Proof.
  intros names n; rewrite in_flat_map; split.
  - intros [f [Hin Hn]]. destruct f; cbn in Hn; try contradiction. destruct Hn as [->|[]]; exact Hin.
  - intro H; exists (FLog n); split; [exact H|left; reflexivity].
Qed.

Lemma typed_new : forall f, typed f (mkObj [] 0).
Proof.
  intros f; destruct f; cbn [typed o_recs]; auto.
  exists []; split; [reflexivity|constructor].
Qed.

Section Struct.
Variable p : pstate.

Lemma unlink_bound : forall f, chk_all p (EUnlink f) = true ->
  f <> FCurrent /\ exists o, ns_lookup (p_disk p) f = Some o.
Proof.
  intros f H. destruct (chk_all_spec _ _ H) as [Hf [Hb _]]. split; [exact Hf|].
  destruct (ns_lookup (p_disk p) f) as [o|]; [eauto|congruence].
Qed.

(* R0 keeps an appended-to file typed *)
Lemma typed_append : forall f pl x, chk_all p (EAppend f pl) = true -> obj_at (p_disk p) f = Some x ->
  typed f x -> typed f (obj_append pl x).
Proof.
  intros f pl x H Ex T. destruct (chk_all_spec _ _ H) as [x' [Ex' R]]. rewrite Ex in Ex'. injection Ex' as <-.
  unfold obj_append. destruct f, pl; try contradiction; cbn [typed o_recs] in T |- *.
  - exact Logic.I.
  - right. rewrite R. exists ents; reflexivity.
  - destruct T as [eds [He Hp]]. exists (eds ++ [e]). split; [apply edits_of_snoc; exact He|].
    apply Forall_app; split; [exact Hp|]. constructor; [apply R|constructor].
  - right. rewrite R. exists m; reflexivity.
Qed.

Hypothesis I : Inv_struct p.
Let W : ops_wf (d_ops (p_disk p)) (length (d_objs (p_disk p))) := is_ops p I.

Lemma dsync_mono : forall e, (d_dsync (p_disk p) <= d_dsync (fs_step (p_disk p) e))%nat.
Proof. intro e. pose proof (is_dsync _ I). destruct (step_dir (p_disk p) e) as [l [_ [->| ->]]]; lia. Qed.

Lemma in_logs_created : forall n,
  (In n (map fst (p_logs p)) <-> exists i o, created_at (p_disk p) i (FLog n) o).
Proof.
  intros n. rewrite (is_logs_names _ I), in_log_nums, in_created_names. split.
  - intros [o H]. apply In_nth_error in H. destruct H as [i H]. exists i, o; exact H.
  - intros [i [o H]]. exists o. eapply nth_error_In; exact H.
Qed.

Lemma in_logs_of_created : forall i n o, created_at (p_disk p) i (FLog n) o ->
  In n (map fst (p_logs p)).
Proof. intros i n o Hc. apply in_logs_created. eauto. Qed.

Lemma lookup_created : forall f o, ns_lookup (p_disk p) f = Some o ->
  exists i g, created_at (p_disk p) i g o /\ (f <> FCurrent -> g = f).
Proof.
  intros f o H. rewrite ns_lookup_nsk in H.
  destruct (fname_eq_dec f FCurrent) as [->|Hf].
  - destruct (nsk_cur_created _ _ W _ _ H) as [i [t Hc]]. exists i, (FTmp t). split; [exact Hc|congruence].
  - destruct (nsk_created _ _ W _ _ _ H Hf) as [i [_ Hc]]. exists i, f. auto.
Qed.

Lemma obj_at_created : forall f x, f <> FCurrent -> obj_at (p_disk p) f = Some x ->
  exists o i, ns_lookup (p_disk p) f = Some o /\ nth_error (d_objs (p_disk p)) o = Some x /\
    created_at (p_disk p) i f o.
Proof.
  intros f x Hf H. destruct (obj_at_some _ _ _ H) as [o [Hl Hx]].
  destruct (lookup_created _ _ Hl) as [i [g [Hc Hg]]]. rewrite (Hg Hf) in Hc.
  exists o, i. auto.
Qed.

Lemma create_fresh : forall f, chk_all p (ECreate f) = true ->
  f <> FCurrent /\ ~ In f (created_names (d_ops (p_disk p))) /\
  (forall n, f = FLog n -> newest_log (p_logs p) < n).
Proof.
  intros f H. destruct (chk_all_spec _ _ H) as [H0 [Hnew Hlog]]. split; [exact H0|split].
  - intro Hin. apply Hnew, (is_created _ I), Hin.
  - intros n ->. apply Hlog.
Qed.

Lemma append_bound : forall f pl, chk_all p (EAppend f pl) = true ->
  f <> FCurrent /\ exists o i, ns_lookup (p_disk p) f = Some o /\ created_at (p_disk p) i f o.
Proof.
  intros f pl H. destruct (chk_all_spec _ _ H) as [x [Ex R]].
  assert (Hf : f <> FCurrent) by (intros ->; destruct pl; exact R). split; [exact Hf|].
  destruct (obj_at_created _ _ Hf Ex) as [o [i [Hl [_ Hc]]]]. exists o, i. auto.
Qed.

(* the name an append goes to is the name its object was created under *)
Lemma append_name : forall g pl i f o, chk_all p (EAppend g pl) = true ->
  ns_lookup (p_disk p) g = Some o -> created_at (p_disk p) i f o -> g = f.
Proof.
  intros g pl i f o Hchk Hl Hc. destruct (append_bound _ _ Hchk) as [Hg _].
  destruct (lookup_created _ _ Hl) as [i0 [g0 [Hc0 Hg0]]]. rewrite (Hg0 Hg) in Hc0.
  exact (created_unique _ _ _ _ _ _ _ W Hc0 Hc).
Qed.

(* a create in the directory after the event: it was there before, and so was its object; or it is the
   event's own, and its object is new *)
Lemma created_step_inv : forall e i f o, created_at (fs_step (p_disk p) e) i f o ->
  (created_at (p_disk p) i f o /\ nth_error (d_objs (p_disk p)) o <> None) \/
  (e = ECreate f /\ nth_error (d_objs (p_disk p)) o = None).
Proof.
  intros e i f o Hc. destruct (step_op _ _ _ _ Hc) as [Hc'|[_ [Ee ->]]].
  - left. split; [exact Hc'|]. destruct (created_obj _ _ _ _ W Hc') as [x Hx]. congruence.
  - right. split; [exact Ee|]. apply nth_error_None. lia.
Qed.

Lemma struct_step : forall e, chk_all p e = true -> Inv_struct (pstep p e).
Proof.
  intros e Hchk. pose proof (is_dsync _ I) as Hds.
  destruct (step_dir (p_disk p) e) as [l [El Hds']].
  destruct (step_creates (p_disk p) e) as [Ecn [Eci Elen]].
  pose proof (dsync_mono e) as Hds2.
  constructor; rewrite ?pstep_disk.
  - constructor.
    + rewrite Eci, Elen, (ow_ids _ _ W). destruct (new_name_cases e) as [->|[f [_ ->]]]; cbn [map length app].
      * rewrite app_nil_r, Nat.add_0_r. reflexivity.
      * rewrite Nat.add_1_r, seq_S. reflexivity.
    + rewrite Ecn. destruct (new_name_cases e) as [->|[f [Ee ->]]]; [rewrite app_nil_r; apply (ow_nodup _ _ W)|].
      rewrite Ee in Hchk. apply NoDup_snoc; [apply (ow_nodup _ _ W)|apply (create_fresh _ Hchk)].
    + rewrite Ecn. intro Hin. apply in_app_or in Hin. destruct Hin as [Hin|Hin]; [exact (ow_nocur _ _ W Hin)|].
      rewrite (new_name_in _ _ Hin) in Hchk. exact (proj1 (chk_all_spec _ _ Hchk) eq_refl).
    + intros a b Hin. apply In_nth_error in Hin. destruct Hin as [u Hu].
      destruct (step_op _ _ _ _ Hu) as [Hu'|[_ Ee]]; [eapply (ow_ren _ _ W), nth_error_In; exact Hu'|].
      rewrite Ee in Hchk. destruct (chk_all_spec _ _ Hchk) as [t [m [x [-> [-> _]]]]]. eauto.
    + intro Hin. apply In_nth_error in Hin. destruct Hin as [u Hu].
      destruct (step_op _ _ _ _ Hu) as [Hu'|[_ Ee]]; [eapply (ow_unl _ _ W), nth_error_In; exact Hu'|].
      rewrite Ee in Hchk. exact (proj1 (chk_all_spec _ _ Hchk) eq_refl).
  - rewrite El, app_length. destruct Hds' as [->| ->]; lia.
  - intros g Hg. rewrite Ecn in Hg. rewrite pstep_created. apply in_app_or in Hg. destruct Hg as [Hg|Hg].
    + apply (is_created _ I) in Hg. destruct e; try exact Hg. right; exact Hg.
    + rewrite (new_name_in _ _ Hg). left; reflexivity.
  - intros i f o x' Hc Hx'.
    destruct (step_obj_inv _ _ _ _ Hx') as [[x [Hx S]]|[Hn ->]]; destruct (created_step_inv _ _ _ _ Hc) as [[Hc' Ho]|[Ee Ho]]; try congruence.
    + destruct (is_typed _ I _ _ _ _ Hc' Hx) as [T [S1 S2]].
      destruct S as [_|g Ee Hl|g pl Ee Hl].
      * split; [exact T|split; [exact S1|]]. intro H0; specialize (S2 H0); lia.
      * unfold obj_sync; cbn [o_recs o_synced]. split; [destruct f; exact T|split; [lia|intros _]].
        rewrite Ee, (step_sync_mark _ _ _ Hl). apply nth_error_Some. unfold created_at in Hc'; congruence.
      * rewrite Ee in Hchk. pose proof (append_name _ _ _ _ _ Hchk Hl Hc') as Eg. subst g.
        split; [apply (typed_append _ _ _ Hchk); [unfold obj_at; rewrite Hl; exact Hx|exact T]|].
        unfold obj_append; cbn [o_recs o_synced]. rewrite app_length; cbn [length].
        split; [lia|]. intro H0; specialize (S2 H0); lia.
    + split; [apply typed_new|]. cbn [o_synced o_recs length]. split; lia.
  - rewrite pstep_logs_keys, Ecn, flat_map_app, (is_logs_names _ I). reflexivity.
  - rewrite pstep_logs_keys. destruct (new_name_cases e) as [->|[f [Ee ->]]]; cbn [flat_map]; rewrite app_nil_r;
      [exact (is_logs_sorted _ I)|].
    destruct f; cbn [log_num]; rewrite ?app_nil_r; try exact (is_logs_sorted _ I).
    rewrite Ee in Hchk. apply sorted0_snoc; [exact (is_logs_sorted _ I)|apply (create_fresh _ Hchk); reflexivity].
Qed.

End Struct.
