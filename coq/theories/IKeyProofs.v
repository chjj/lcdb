(* IKeyProofs.v -- proofs about IKey.v: internal-key encode/parse round trip,
   the internal-key order is a strict total order, the three forms of a lookup key
   (lkey_*_eq), and the separator / successor contracts of the bytewise and
   internal-key comparators. *)
From LCDB Require Import Base Varint BaseProofs VarintProofs IKey.
Local Open Scope N_scope.

Lemma ikey_user_app : forall u x, ikey_user (u ++ le64 x) = u.
Proof.
  intros u x. unfold ikey_user. rewrite app_length, le64_length.
  replace (length u + 8 - 8)%nat with (length u) by lia.
  apply firstn_app_length.
Qed.

Lemma ikey_tail_app : forall u (t : bytes),
  length t = 8%nat -> skipn (length (u ++ t) - 8) (u ++ t) = t.
Proof.
  intros u t Ht. rewrite app_length, Ht.
  replace (length u + 8 - 8)%nat with (length u) by lia. apply skipn_app_length.
Qed.

Lemma ikey_tag_app : forall u x,
  x < 18446744073709551616 -> ikey_tag (u ++ le64 x) = x.
Proof.
  intros u x Hx. unfold ikey_tag. rewrite ikey_tail_app by apply le64_length.
  rewrite <- (app_nil_r (le64 x)). rewrite de64_le64 by exact Hx. reflexivity.
Qed.

Lemma pack_seqtype_small : forall s t,
  s < 72057594037927936 -> pack_seqtype s t = s * 256 + t.
Proof.
  intros s t Hs. unfold pack_seqtype. rewrite N.mod_small; [reflexivity|].
  change 18446744073709551616 with (72057594037927936 * 256).
  apply N.mul_lt_mono_pos_r; [reflexivity|exact Hs].
Qed.

(* the tag of an encoded key is the two-digit number (sequence, type) in base 256 *)
Lemma ikey_tag_pack : forall u s t,
  s < 72057594037927936 -> t < 256 -> ikey_tag (u ++ le64 (pack_seqtype s t)) = s * 256 + t.
Proof.
  intros u s t Hs Ht. rewrite pack_seqtype_small by exact Hs. apply ikey_tag_app.
  change 18446744073709551616 with (256 * 72057594037927936).
  rewrite N.add_comm, N.mul_comm. apply digit_lt; assumption.
Qed.

Theorem ikey_parse_encode : forall k s t,
  s < 2 ^ 56 -> t <= 1 -> ikey_parse (ikey_encode k s t) = Some (k, s, t).
Proof.
  intros k s t Hs Ht. assert (Ht' : t < 256) by lia. unfold ikey_parse, ikey_encode.
  rewrite nlen_app, nlen_le64, ikey_tag_pack, ikey_user_app by assumption. cbv zeta.
  destruct (tag_fields 256 s t Ht') as [-> ->].
  replace (nlen k + 8 <? 8) with false by (symmetry; apply N.ltb_ge; lia).
  replace (1 <? t) with false by (symmetry; apply N.ltb_ge; exact Ht).
  reflexivity.
Qed.

Theorem ikey_parse_short : forall k, nlen k < 8 -> ikey_parse k = None.
Proof.
  intros k H. unfold ikey_parse.
  replace (nlen k <? 8) with true by (symmetry; apply N.ltb_lt; lia). reflexivity.
Qed.

(* ldb_ikc_compare over a user order is the lexicographic product of the user keys in that
   order and the tags in descending order; ikey_compare, ManifestReplay.ikc_compare and
   Memtable.ikc_compare unfold to it *)
Lemma ikc_order (ucmp : bytes -> bytes -> comparison) : order ucmp ->
  order (lex ucmp ikey_user (fun a b => N.compare (ikey_tag b) (ikey_tag a))).
Proof. intros Hu. exact (lex_order ucmp ikey_user _ Hu (order_on ikey_tag _ (order_flip _ N_order))). Qed.

Lemma ikey_compare_order : order ikey_compare.
Proof. exact (ikc_order _ bytes_compare_order). Qed.

Theorem ikey_compare_refl : forall a, ikey_compare a a = Eq.
Proof. exact (cmp_refl ikey_compare_order). Qed.

Theorem ikey_compare_antisym : forall a b,
  ikey_compare a b = CompOpp (ikey_compare b a).
Proof. exact (cmp_opp ikey_compare_order). Qed.

Theorem ikey_compare_lt_gt : forall a b,
  ikey_compare a b = Lt <-> ikey_compare b a = Gt.
Proof. intros a b. symmetry. apply (cmp_gt_lt ikey_compare_order). Qed.

Theorem ikey_compare_lt_trans : forall a b c,
  ikey_compare a b = Lt -> ikey_compare b c = Lt -> ikey_compare a c = Lt.
Proof. exact (cmp_lt_trans ikey_compare_order). Qed.

(* Eq means equal, on keys that have the 8-byte tag and well-formed bytes *)
Definition wf_ikey (k : bytes) : bool := (8 <=? nlen k) && wf_bytes k.

Lemma ikey_split : forall k,
  wf_ikey k = true -> k = ikey_user k ++ le64 (ikey_tag k).
Proof.
  intros k H. apply andb_true_iff in H. destruct H as [L W].
  apply N.leb_le in L. unfold nlen in L. unfold ikey_user, ikey_tag.
  rewrite <- (firstn_skipn (length k - 8) k) in W. apply wf_bytes_app in W. destruct W as [_ W].
  assert (Ht : length (skipn (length k - 8) k) = 8%nat) by (rewrite skipn_length; lia).
  destruct (de64_some (skipn (length k - 8) k)) as [v Hv]; [unfold nlen; rewrite Ht; reflexivity|].
  rewrite Hv, (le64_de64 _ v Ht W Hv). symmetry. apply firstn_skipn.
Qed.

Theorem ikey_compare_eq : forall a b,
  wf_ikey a = true -> wf_ikey b = true -> ikey_compare a b = Eq -> a = b.
Proof.
  intros a b Ha Hb H. unfold ikey_compare in H.
  destruct (bytes_compare (ikey_user a) (ikey_user b)) eqn:Hu; try discriminate H.
  apply bytes_compare_eq_iff in Hu. apply N.compare_eq_iff in H.
  rewrite (ikey_split a Ha), (ikey_split b Hb), Hu, H. reflexivity.
Qed.

Theorem ikey_compare_eq_iff : forall a b,
  wf_ikey a = true -> wf_ikey b = true -> (ikey_compare a b = Eq <-> a = b).
Proof.
  intros a b Ha Hb. split.
  - apply ikey_compare_eq; assumption.
  - intros ->. apply ikey_compare_refl.
Qed.

Theorem ikey_compare_total : forall a b,
  wf_ikey a = true -> wf_ikey b = true ->
  ikey_compare a b = Lt \/ a = b \/ ikey_compare b a = Lt.
Proof.
  intros a b Ha Hb. destruct (ikey_compare a b) eqn:H.
  - right. left. apply ikey_compare_eq; assumption.
  - left. reflexivity.
  - right. right. apply ikey_compare_lt_gt. exact H.
Qed.

Theorem ikey_compare_strict_total_order :
  (forall a, ikey_compare a a <> Lt) /\
  (forall a b c, ikey_compare a b = Lt -> ikey_compare b c = Lt -> ikey_compare a c = Lt) /\
  (forall a b, ikey_compare a b = Lt -> ikey_compare b a <> Lt) /\
  (forall a b, wf_ikey a = true -> wf_ikey b = true ->
               ikey_compare a b = Lt \/ a = b \/ ikey_compare b a = Lt).
Proof.
  repeat split.
  - intros a. rewrite ikey_compare_refl. discriminate.
  - apply ikey_compare_lt_trans.
  - intros a b H. apply ikey_compare_lt_gt in H. rewrite H. discriminate.
  - apply ikey_compare_total.
Qed.

(* order of encoded keys: user key ascending, then sequence descending, then type descending *)
Theorem ikey_compare_encode : forall u1 s1 t1 u2 s2 t2,
  s1 < 2 ^ 56 -> s2 < 2 ^ 56 -> t1 <= 1 -> t2 <= 1 ->
  ikey_compare (ikey_encode u1 s1 t1) (ikey_encode u2 s2 t2) =
  match bytes_compare u1 u2 with
  | Eq => match N.compare s2 s1 with Eq => N.compare t2 t1 | c => c end
  | c => c
  end.
Proof.
  intros u1 s1 t1 u2 s2 t2 H1 H2 T1 T2.
  unfold ikey_compare, ikey_encode. rewrite !ikey_user_app, !ikey_tag_pack by (assumption || lia).
  destruct (bytes_compare u1 u2); try reflexivity. apply digits_compare; lia.
Qed.

Theorem lkey_internal_key_eq : forall u s,
  lkey_internal_key u s = ikey_encode u s VALTYPE_SEEK.
Proof.
  intros u s. unfold lkey_internal_key, lkey_build, lkey_kstart, ikey_encode. apply skipn_app_length.
Qed.

Theorem lkey_user_key_eq : forall u s, lkey_user_key u s = u.
Proof.
  intros u s. unfold lkey_user_key. rewrite lkey_internal_key_eq.
  unfold ikey_encode. apply ikey_user_app.
Qed.

Theorem lkey_memtable_key_eq : forall u s,
  nlen u + 8 < 4294967296 ->
  lkey_memtable_key u s = slice_write (ikey_encode u s VALTYPE_SEEK).
Proof.
  intros u s H. unfold lkey_memtable_key, lkey_build, slice_write, ikey_encode.
  rewrite nlen_app, nlen_le64, N.mod_small by exact H. reflexivity.
Qed.

Lemma shortest_separator_same : forall a, shortest_separator a a = a.
Proof.
  induction a as [|x a IH]; cbn [shortest_separator]; [reflexivity|].
  rewrite N.eqb_refl, IH. reflexivity.
Qed.

Theorem shortest_separator_contract : forall a b,
  bytes_compare a b = Lt ->
  bytes_leb a (shortest_separator a b) = true /\
  bytes_ltb (shortest_separator a b) b = true.
Proof.
  induction a as [|x a IH]; intros [|y b] H; cbn [bytes_compare] in H; try discriminate H.
  - cbn [shortest_separator]. split; reflexivity.
  - cbn [shortest_separator].
    destruct (N.compare x y) eqn:Hxy.
    + apply N.compare_eq_iff in Hxy. subst y. rewrite N.eqb_refl.
      destruct (IH b H) as [H1 H2].
      unfold bytes_leb, bytes_ltb in *. cbn [bytes_compare]. rewrite N.compare_refl.
      split; assumption.
    + change (x < y) in Hxy.
      replace (x =? y) with false by (symmetry; apply N.eqb_neq; lia).
      destruct ((x <? 255) && (x + 1 <? y)) eqn:Hc.
      * apply andb_true_iff in Hc. destruct Hc as [_ Hc]. apply N.ltb_lt in Hc.
        unfold bytes_leb, bytes_ltb. cbn [bytes_compare].
        replace (x ?= x + 1) with Lt by (symmetry; apply N.compare_lt_iff; lia).
        replace (x + 1 ?= y) with Lt by (symmetry; apply N.compare_lt_iff; lia).
        split; reflexivity.
      * split; [apply bytes_leb_refl|].
        unfold bytes_ltb. cbn [bytes_compare].
        replace (x ?= y) with Lt by (symmetry; apply N.compare_lt_iff; lia). reflexivity.
    + discriminate H.
Qed.

Theorem short_successor_contract : forall a, bytes_leb a (short_successor a) = true.
Proof.
  induction a as [|x a IH]; cbn [short_successor]; [reflexivity|].
  destruct (x =? 255).
  - unfold bytes_leb in *. cbn [bytes_compare]. rewrite N.compare_refl. exact IH.
  - unfold bytes_leb. cbn [bytes_compare].
    replace (x ?= x + 1) with Lt by (symmetry; apply N.compare_lt_iff; lia). reflexivity.
Qed.

Theorem shortest_separator_length : forall a b,
  (length (shortest_separator a b) <= length a)%nat.
Proof.
  induction a as [|x a IH]; intros [|y b]; cbn [shortest_separator length]; try lia.
  destruct (x =? y).
  - cbn [length]. specialize (IH b). lia.
  - destruct ((x <? 255) && (x + 1 <? y)); cbn [length]; lia.
Qed.

Theorem short_successor_length : forall a, (length (short_successor a) <= length a)%nat.
Proof.
  induction a as [|x a IH]; cbn [short_successor length]; [lia|].
  destruct (x =? 255); cbn [length]; lia.
Qed.

(* well-formed bytes stay well-formed (the incremented byte was < 255) *)
Theorem shortest_separator_wf : forall a b,
  wf_bytes a = true -> wf_bytes (shortest_separator a b) = true.
Proof.
  induction a as [|x a IH]; intros [|y b] H; cbn [shortest_separator]; try exact H.
  apply wf_bytes_cons in H. destruct H as [Hx Ha].
  destruct (x =? y).
  - apply wf_bytes_cons. split; [exact Hx|apply IH; exact Ha].
  - destruct ((x <? 255) && (x + 1 <? y)) eqn:Hc.
    + apply andb_true_iff in Hc. destruct Hc as [Hc _]. apply N.ltb_lt in Hc.
      apply wf_bytes_cons. split; [lia|reflexivity].
    + apply wf_bytes_cons. split; assumption.
Qed.

Theorem short_successor_wf : forall a,
  wf_bytes a = true -> wf_bytes (short_successor a) = true.
Proof.
  induction a as [|x a IH]; intros H; cbn [short_successor]; [reflexivity|].
  apply wf_bytes_cons in H. destruct H as [Hx Ha].
  destruct (x =? 255) eqn:Hc.
  - apply wf_bytes_cons. split; [exact Hx|apply IH; exact Ha].
  - apply N.eqb_neq in Hc. apply wf_bytes_cons. split; [lia|reflexivity].
Qed.

Lemma ikey_user_seek : forall u, ikey_user (u ++ seek_tag) = u.
Proof. intros u. unfold seek_tag. apply ikey_user_app. Qed.

(* Both shorteners keep the candidate user key [tmp] only if it is shorter
   than the user key of [a] and above it; it then gets the largest tag. *)
Definition ikc_pick (a tmp : bytes) : bytes :=
  if (nlen tmp <? nlen (ikey_user a)) && bytes_ltb (ikey_user a) tmp
  then tmp ++ seek_tag else a.

Lemma ikc_pick_cases : forall a tmp,
  ikc_pick a tmp = a \/
  (ikc_pick a tmp = tmp ++ seek_tag /\
   nlen tmp < nlen (ikey_user a) /\ bytes_compare (ikey_user a) tmp = Lt).
Proof.
  intros a tmp. unfold ikc_pick.
  destruct ((nlen tmp <? nlen (ikey_user a)) && bytes_ltb (ikey_user a) tmp) eqn:Hc;
    [right|left; reflexivity].
  apply andb_true_iff in Hc. destruct Hc as [Hlen Hlt]. apply N.ltb_lt in Hlen.
  unfold bytes_ltb in Hlt.
  destruct (bytes_compare (ikey_user a) tmp); try discriminate Hlt. auto.
Qed.

Lemma ikc_pick_ge : forall a tmp, ikey_compare a (ikc_pick a tmp) <> Gt.
Proof.
  intros a tmp. destruct (ikc_pick_cases a tmp) as [E|(E & _ & Hlt)]; rewrite E.
  - rewrite ikey_compare_refl. discriminate.
  - unfold ikey_compare. rewrite ikey_user_seek, Hlt. discriminate.
Qed.

Lemma ikc_pick_length : forall a tmp,
  (8 <= length a)%nat -> (8 <= length (ikc_pick a tmp) <= length a)%nat.
Proof.
  intros a tmp Ha. destruct (ikc_pick_cases a tmp) as [E|(E & Hlen & _)]; rewrite E; [lia|].
  unfold nlen, ikey_user in Hlen. rewrite firstn_length in Hlen.
  rewrite app_length. unfold seek_tag. rewrite le64_length. lia.
Qed.

(* The separator, when it is not the start key, is a user key below that of the limit
   (and above that of the start: ikc_pick_cases), with the largest tag. *)
Lemma ikc_shortest_separator_cases : forall a b,
  ikey_compare a b = Lt ->
  ikc_shortest_separator a b = a \/
  exists tmp, ikc_shortest_separator a b = tmp ++ seek_tag /\ bytes_compare tmp (ikey_user b) = Lt.
Proof.
  intros a b H.
  change (ikc_shortest_separator a b)
    with (ikc_pick a (shortest_separator (ikey_user a) (ikey_user b))).
  set (tmp := shortest_separator (ikey_user a) (ikey_user b)).
  destruct (ikc_pick_cases a tmp) as [E|(E & Hlen & _)]; [left; exact E|right].
  exists tmp. split; [exact E|].
  assert (Hu : bytes_compare (ikey_user a) (ikey_user b) = Lt).
  { unfold ikey_compare in H.
    destruct (bytes_compare (ikey_user a) (ikey_user b)) eqn:Hu; try discriminate H; [|reflexivity].
    (* equal user keys: the separator is the start key itself, hence not shorter *)
    apply bytes_compare_eq_iff in Hu. subst tmp. rewrite Hu, shortest_separator_same in Hlen. lia. }
  destruct (shortest_separator_contract _ _ Hu) as [_ Hsb]. fold tmp in Hsb.
  unfold bytes_ltb in Hsb. destruct (bytes_compare tmp (ikey_user b)); try discriminate Hsb. reflexivity.
Qed.

Theorem ikc_shortest_separator_contract : forall a b,
  ikey_compare a b = Lt ->
  ikey_compare a (ikc_shortest_separator a b) <> Gt /\
  ikey_compare (ikc_shortest_separator a b) b = Lt.
Proof.
  intros a b H. split; [apply (ikc_pick_ge a (shortest_separator (ikey_user a) (ikey_user b)))|].
  destruct (ikc_shortest_separator_cases a b H) as [->|(tmp & -> & Hb)]; [exact H|].
  unfold ikey_compare. rewrite ikey_user_seek, Hb. reflexivity.
Qed.

Theorem ikc_short_successor_contract : forall a,
  ikey_compare a (ikc_short_successor a) <> Gt.
Proof. intros a. apply (ikc_pick_ge a (short_successor (ikey_user a))). Qed.

Theorem ikc_shortest_separator_length : forall a b,
  (8 <= length a)%nat ->
  (8 <= length (ikc_shortest_separator a b) <= length a)%nat.
Proof. intros a b. apply (ikc_pick_length a (shortest_separator (ikey_user a) (ikey_user b))). Qed.

Theorem ikc_short_successor_length : forall a,
  (8 <= length a)%nat ->
  (8 <= length (ikc_short_successor a) <= length a)%nat.
Proof. intros a. apply (ikc_pick_length a (short_successor (ikey_user a))). Qed.

Print Assumptions ikey_compare_strict_total_order.
Print Assumptions ikc_shortest_separator_contract.
