(* LogFormatProofs.v -- proofs about the log writer / reader model of
   LogFormat.v: writer state is the file length mod BLOCK, write/read round
   trip, reading any byte-prefix of a written log, structural no-invention for
   arbitrary files, the zero-header silent-drop witness, and fuel adequacy of
   the three fuelled fixpoints. *)
From LCDB Require Import LogFormat BaseProofs Crc32cProofs.
Local Open Scope N_scope.

#[local] Arguments N.mul : simpl never.

Lemma BLOCK_eq : BLOCK = 32768.
Proof. reflexivity. Qed.
Lemma HEADER_eq : HEADER = 7.
Proof. reflexivity. Qed.

(* lia with the two constants revealed *)
Ltac blia := rewrite ?BLOCK_eq, ?HEADER_eq in *; lia.

Lemma parse_block_S : forall f c e buf,
  parse_block (S f) c e buf =
    if nlen buf <? HEADER then (if e then [PEof] else [])
    else match buf with
      | c0 :: c1 :: c2 :: c3 :: a :: b :: ty :: body =>
          let len := a + 256 * b in
          if nlen buf <? HEADER + len then
            (if e then [PEof] else [PBad (Some (nlen buf))])
          else if (ty =? T_ZERO) && (len =? 0) then
            PBad None :: (if e then [PEof] else [])
          else
            let payload := take_n len body in
            let expect := crc_unmask (c0 + 256 * c1 + 65536 * c2 + 16777216 * c3) in
            let actual := crc_value (ty :: payload) in
            if c && negb (actual =? expect) then
              PBad (Some (nlen buf)) :: (if e then [PEof] else [])
            else
              PRec ty payload :: parse_block f c e (drop_n len body)
      | _ => []
      end.
Proof. reflexivity. Qed.

Lemma parse_block_0 : forall c e buf, parse_block 0 c e buf = [].
Proof. reflexivity. Qed.

Local Opaque parse_block.

(* fuel-free view *)
Definition parse (c e : bool) (buf : bytes) : list pev :=
  parse_block (S (length buf)) c e buf.

(* The three shapes a buffer can have, and below what the reader does on each, whatever the
   fuel: [parse_block_short], [parse_block_torn], [parse_block_record].  Every other proof about
   [parse_block] goes by these. *)
Inductive shape : bytes -> Prop :=
| Sh_short : forall buf, nlen buf < HEADER -> shape buf
| Sh_torn : forall c0 c1 c2 c3 a b ty body,
    nlen body < a + 256 * b -> shape (c0 :: c1 :: c2 :: c3 :: a :: b :: ty :: body)
| Sh_record : forall c0 c1 c2 c3 a b ty p tail,
    a + 256 * b = nlen p -> shape (c0 :: c1 :: c2 :: c3 :: a :: b :: ty :: p ++ tail).

Lemma shape_total : forall buf, shape buf.
Proof.
  intros buf. destruct buf as [|c0 [|c1 [|c2 [|c3 [|a [|b [|ty body]]]]]]];
    try (apply Sh_short; reflexivity).
  destruct (N.lt_ge_cases (nlen body) (a + 256 * b)) as [H|H]; [apply Sh_torn, H|].
  rewrite <- (take_drop _ (a + 256 * b) body). apply Sh_record. rewrite nlen_take. lia.
Qed.

Lemma parse_block_short : forall f c e buf,
  nlen buf < HEADER -> parse_block (S f) c e buf = if e then [PEof] else [].
Proof.
  intros f c e buf H. rewrite parse_block_S.
  destruct (N.ltb_spec (nlen buf) HEADER); [reflexivity|lia].
Qed.

Lemma parse_block_torn : forall f c e c0 c1 c2 c3 a b ty body,
  nlen body < a + 256 * b ->
  parse_block (S f) c e (c0 :: c1 :: c2 :: c3 :: a :: b :: ty :: body) =
    if e then [PEof] else [PBad (Some (HEADER + nlen body))].
Proof.
  intros f c e c0 c1 c2 c3 a b ty body H. rewrite parse_block_S. cbv zeta.
  replace (nlen (c0 :: _)) with (HEADER + nlen body) by (rewrite !nlen_cons; blia).
  destruct (N.ltb_spec (HEADER + nlen body) HEADER); [lia|].
  destruct (N.ltb_spec (HEADER + nlen body) (HEADER + (a + 256 * b))); [reflexivity|lia].
Qed.

(* the two length bytes of a header decode the length exactly *)
Lemma len16 : forall n, n mod 256 + 256 * (n / 256) = n.
Proof. intros n. rewrite N.add_comm. symmetry. apply N.div_mod'. Qed.

(* The reader on a complete physical record, whatever its bytes: dropped silently (zero
   header), rejected (checksum), or accepted.  The round trip is the third outcome on what the
   writer lays out; the alteration theorems of CrcBurst.v are the second. *)
Lemma parse_block_record : forall f c e c0 c1 c2 c3 a b ty p tail,
  a + 256 * b = nlen p ->
  parse_block (S f) c e (c0 :: c1 :: c2 :: c3 :: a :: b :: ty :: p ++ tail) =
    if (ty =? T_ZERO) && (nlen p =? 0) then PBad None :: (if e then [PEof] else [])
    else if c && negb (crc_value (ty :: p) =? crc_unmask (c0 + 256 * c1 + 65536 * c2 + 16777216 * c3))
    then PBad (Some (nlen (c0 :: c1 :: c2 :: c3 :: a :: b :: ty :: p ++ tail))) :: (if e then [PEof] else [])
    else PRec ty p :: parse_block f c e tail.
Proof.
  intros f c e c0 c1 c2 c3 a b ty p tail Hl. rewrite parse_block_S. cbv zeta.
  rewrite Hl, take_n_nlen_app, drop_n_nlen_app.
  set (buf := c0 :: _). assert (Hb : HEADER + nlen p <= nlen buf).
  { unfold buf. rewrite !nlen_cons, nlen_app. blia. }
  destruct (N.ltb_spec (nlen buf) HEADER); [lia|].
  destruct (N.ltb_spec (nlen buf) (HEADER + nlen p)); [lia|reflexivity].
Qed.

(* Fuel adequacy: any fuel exceeding the buffer length gives the same answer,
   i.e. the [O] branch of [parse_block] is never reached from [phys_events]. *)
Lemma parse_block_fuel_indep : forall f1 f2 c e buf,
  (length buf < f1)%nat -> (length buf < f2)%nat ->
  parse_block f1 c e buf = parse_block f2 c e buf.
Proof.
  induction f1 as [|f1 IH]; intros f2 c e buf H1 H2; [lia|].
  destruct f2 as [|f2]; [lia|].
  destruct (shape_total buf) as [buf H|c0 c1 c2 c3 a b ty body H|c0 c1 c2 c3 a b ty p tail H].
  - rewrite !parse_block_short by exact H. reflexivity.
  - rewrite !parse_block_torn by exact H. reflexivity.
  - rewrite !parse_block_record by exact H.
    destruct (_ && _); [reflexivity|]. destruct (_ && _); [reflexivity|].
    f_equal. apply IH; cbn [length] in *; rewrite app_length in *; lia.
Qed.

Lemma parse_block_fuel_ok : forall f c e buf,
  (length buf < f)%nat ->
  parse_block f c e buf = parse_block (S (length buf)) c e buf.
Proof. intros. apply parse_block_fuel_indep; lia. Qed.

Lemma parse_short : forall c e buf,
  nlen buf < HEADER -> parse c e buf = if e then [PEof] else [].
Proof. intros c e buf. apply parse_block_short. Qed.

Lemma parse_eof_short : forall c buf, nlen buf < HEADER -> parse c true buf = [PEof].
Proof. intros. rewrite parse_short by assumption. reflexivity. Qed.

Lemma split_blocks_S : forall f file,
  split_blocks (S f) file =
    if nlen (take_n BLOCK file) <? BLOCK then [(take_n BLOCK file, true)]
    else (take_n BLOCK file, false) :: split_blocks f (drop_n BLOCK file).
Proof. reflexivity. Qed.

Lemma split_blocks_0 : forall file, split_blocks 0 file = [].
Proof. reflexivity. Qed.

Local Opaque split_blocks.

(* Fuel adequacy is stated with a product: the division of [phys_events] is met once, here. *)
Lemma split_fuel : forall file : bytes, nlen file < BLOCK * N.of_nat (S (N.to_nat (nlen file / BLOCK))).
Proof.
  intros file. rewrite Nat2N.inj_succ, N2Nat.id. apply N.mul_succ_div_gt. discriminate.
Qed.

Lemma split_blocks_fuel_indep : forall f1 f2 file,
  nlen file < BLOCK * N.of_nat f1 -> nlen file < BLOCK * N.of_nat f2 ->
  split_blocks f1 file = split_blocks f2 file.
Proof.
  induction f1 as [|f1 IH]; intros f2 file H1 H2; [blia|].
  destruct f2 as [|f2]; [blia|].
  rewrite !split_blocks_S.
  destruct (nlen (take_n BLOCK file) <? BLOCK) eqn:E; [reflexivity|].
  f_equal. rewrite nlen_take in E. apply N.ltb_ge in E.
  apply IH; rewrite nlen_drop; blia.
Qed.

(* Fuel adequacy: the fuel used by [phys_events] is enough, more changes nothing. *)
Lemma split_blocks_fuel_ok : forall f file,
  nlen file / BLOCK < N.of_nat f ->
  split_blocks f file = split_blocks (S (N.to_nat (nlen file / BLOCK))) file.
Proof.
  intros f file H. apply split_blocks_fuel_indep; [|apply split_fuel].
  apply N.lt_le_trans with (1 := split_fuel file), N.mul_le_mono_l. lia.
Qed.

Lemma phys_events_unfold : forall c file,
  phys_events c file =
    if nlen file <? BLOCK then parse c true file
    else parse c false (take_n BLOCK file) ++ phys_events c (drop_n BLOCK file).
Proof.
  intros c file. unfold phys_events at 1. rewrite split_blocks_S.
  rewrite nlen_take.
  destruct (nlen file <? BLOCK) eqn:E.
  - apply N.ltb_lt in E.
    replace (N.min BLOCK (nlen file) <? BLOCK) with true by (symmetry; apply N.ltb_lt; lia).
    cbn [flat_map fst snd]. rewrite app_nil_r.
    rewrite take_all by lia. reflexivity.
  - apply N.ltb_ge in E.
    replace (N.min BLOCK (nlen file) <? BLOCK) with false by (symmetry; apply N.ltb_ge; lia).
    cbn [flat_map fst snd]. f_equal.
    unfold phys_events. f_equal.
    apply split_blocks_fuel_indep; [|apply split_fuel].
    pose proof (split_fuel file) as F. rewrite Nat2N.inj_succ in F. rewrite nlen_drop. blia.
Qed.

(* Physical events of the rest of a file when the reader's current block
   started [off] bytes before [file]. *)
Definition pe_at (c : bool) (off : N) (file : bytes) : list pev :=
  let k := BLOCK - off in
  if nlen file <? k then parse c true file
  else parse c false (take_n k file) ++ phys_events c (drop_n k file).

Lemma pe_at_short : forall c off file,
  nlen file < BLOCK - off -> pe_at c off file = parse c true file.
Proof. intros c off file H. unfold pe_at. apply N.ltb_lt in H. rewrite H. reflexivity. Qed.

Lemma pe_at_long : forall c off file,
  BLOCK - off <= nlen file ->
  pe_at c off file =
  parse c false (take_n (BLOCK - off) file) ++ phys_events c (drop_n (BLOCK - off) file).
Proof. intros c off file H. unfold pe_at. apply N.ltb_ge in H. rewrite H. reflexivity. Qed.

Lemma pe_at_0 : forall c file, pe_at c 0 file = phys_events c file.
Proof.
  intros. unfold pe_at. rewrite N.sub_0_r. symmetry. apply phys_events_unfold.
Qed.

(* Every offset from BLOCK upwards means "at a block boundary": [BLOCK - off] truncates to 0. *)
Lemma pe_at_end : forall c off file, BLOCK <= off -> pe_at c off file = phys_events c file.
Proof.
  intros c off file H. apply N.sub_0_le in H. rewrite pe_at_long, H by (rewrite H; apply N.le_0_l).
  rewrite take_0, drop_0, parse_short by (rewrite nlen_nil; blia). reflexivity.
Qed.

Lemma pe_at_BLOCK : forall c file, pe_at c BLOCK file = phys_events c file.
Proof. intros. apply pe_at_end, N.le_refl. Qed.

Lemma pe_at_nil : forall c off, pe_at c off [] = [PEof].
Proof.
  intros c off. destruct (N.lt_ge_cases off BLOCK) as [H|H].
  - rewrite pe_at_short by (rewrite nlen_nil; lia). apply parse_eof_short. rewrite nlen_nil. blia.
  - rewrite pe_at_end, phys_events_unfold by exact H. apply parse_eof_short. rewrite nlen_nil. blia.
Qed.

Definition is_wtype (ty : N) : Prop := ty = T_FULL \/ ty = T_FIRST \/ ty = T_MIDDLE \/ ty = T_LAST.

Lemma is_wtype_bounds : forall ty, is_wtype ty -> ty < 256 /\ ty <> 0.
Proof. unfold is_wtype, T_FULL, T_FIRST, T_MIDDLE, T_LAST. intros. lia. Qed.

Lemma nlen_phys_record : forall ty p, nlen (phys_record ty p) = HEADER + nlen p.
Proof.
  intros. unfold phys_record, le32. rewrite !nlen_app, !nlen_cons, nlen_nil. blia.
Qed.

Lemma parse_phys_prefix : forall c ty p k,
  k < nlen (phys_record ty p) ->
  parse c true (take_n k (phys_record ty p)) = [PEof].
Proof.
  intros c ty p k Hk. rewrite nlen_phys_record in Hk.
  destruct (N.lt_ge_cases k HEADER) as [Hlt|Hge].
  - apply parse_eof_short. rewrite nlen_take. lia.
  - unfold phys_record, le32. rewrite app_assoc, take_app_ge by exact Hge.
    unfold parse. cbn [app]. rewrite parse_block_torn; [reflexivity|]. rewrite len16, nlen_take. change (nlen _) with HEADER at 1. lia.
Qed.

Lemma pe_at_phys_prefix : forall c off ty p k,
  off + HEADER + nlen p <= BLOCK -> k < nlen (phys_record ty p) ->
  pe_at c off (take_n k (phys_record ty p)) = [PEof].
Proof.
  intros c off ty p k Hfit Hk. rewrite pe_at_short; [apply parse_phys_prefix, Hk|].
  rewrite nlen_take. rewrite nlen_phys_record in *. lia.
Qed.

Lemma logical_eof : forall evs i s, logical (PEof :: evs) i s = [].
Proof. reflexivity. Qed.

(* The writer's fragment types, as the reader sees them: [b] says that the
   fragment begins a record, in which case nothing is pending. *)
Lemma logical_frag_end : forall b p evs s,
  (b = true -> s = []) ->
  logical (PRec (frag_type b true) p :: evs) (negb b) s = Rec (s ++ p) :: logical evs false [].
Proof. intros [|] p evs s Hb; [rewrite (Hb eq_refl)|]; reflexivity. Qed.

Lemma logical_frag_more : forall b p evs s,
  (b = true -> s = []) ->
  logical (PRec (frag_type b false) p :: evs) (negb b) s = logical evs true (s ++ p).
Proof. intros [|] p evs s Hb; [rewrite (Hb eq_refl)|]; reflexivity. Qed.

Lemma frag_type_wtype : forall b e, is_wtype (frag_type b e).
Proof. intros [|] [|]; unfold is_wtype; cbn [frag_type]; tauto. Qed.

(* The [let]s of [add_record_step] under names: block offset after the optional
   trailer, the trailer itself, room left for payload, length of the fragment. *)
Definition off1_of (off : N) : N := if BLOCK - off <? HEADER then 0 else off.
Definition pad_of (off : N) : bytes :=
  if BLOCK - off <? HEADER then repeat 0 (N.to_nat (BLOCK - off)) else [].
Definition avail_of (off : N) : N := BLOCK - off1_of off - HEADER.
Definition flen_of (off : N) (data : bytes) : N :=
  if nlen data <? avail_of off then nlen data else avail_of off.

Lemma add_record_step_eq : forall off b data,
  add_record_step off b data =
    (pad_of off ++ phys_record (frag_type b (nlen data =? flen_of off data))
                               (take_n (flen_of off data) data),
     off1_of off + HEADER + flen_of off data,
     if nlen data =? flen_of off data then None
     else Some (drop_n (flen_of off data) data)).
Proof. reflexivity. Qed.

Lemma off1_of_BLOCK : off1_of BLOCK = 0.
Proof. reflexivity. Qed.
Lemma pad_of_BLOCK : pad_of BLOCK = [].
Proof. reflexivity. Qed.
Lemma off1_of_0 : off1_of 0 = 0.
Proof. reflexivity. Qed.
Lemma pad_of_0 : pad_of 0 = [].
Proof. reflexivity. Qed.
(* a header always fits after the (possibly reset) block offset *)
Lemma off1_of_fits : forall off, off1_of off + HEADER + avail_of off = BLOCK.
Proof.
  intros off. unfold avail_of, off1_of. destruct (N.ltb_spec (BLOCK - off) HEADER); blia.
Qed.

Lemma nlen_pad_of_lt : forall off, nlen (pad_of off) < HEADER.
Proof.
  intros off. unfold pad_of. destruct (N.ltb_spec (BLOCK - off) HEADER) as [E|E].
  - rewrite nlen_repeat. lia.
  - rewrite nlen_nil. rewrite HEADER_eq. lia.
Qed.

Lemma nlen_take_flen : forall off data, nlen (take_n (flen_of off data) data) <= BLOCK.
Proof.
  intros off data. rewrite nlen_take. unfold flen_of, avail_of.
  destruct (N.ltb_spec (nlen data) (BLOCK - off1_of off - HEADER)); lia.
Qed.

(* One physical record as the writer lays it out at block offset [off], and
   the block offset after it. *)
Definition chunk (off ty : N) (p : bytes) : bytes := pad_of off ++ phys_record ty p.
Definition next (off : N) (p : bytes) : N := off1_of off + HEADER + nlen p.

Lemma next_le : forall off p, nlen p <= avail_of off -> next off p <= BLOCK.
Proof. intros off p H. unfold next. pose proof (off1_of_fits off). lia. Qed.

Lemma next_full : forall off data,
  avail_of off < nlen data -> next off (take_n (avail_of off) data) = BLOCK.
Proof.
  intros off data H. unfold next. rewrite nlen_take. pose proof (off1_of_fits off). lia.
Qed.

(* The two things one iteration of the writer's loop can do: the data fits and
   this fragment ends the record, or the fragment fills the block. *)
Lemma add_record_step_cases : forall off b data,
  nlen data <= avail_of off /\
    add_record_step off b data = (chunk off (frag_type b true) data, next off data, None) \/
  avail_of off < nlen data /\
    add_record_step off b data =
      (chunk off (frag_type b false) (take_n (avail_of off) data), BLOCK,
       Some (drop_n (avail_of off) data)).
Proof.
  intros off b data. rewrite add_record_step_eq. unfold flen_of.
  destruct (N.ltb_spec (nlen data) (avail_of off)) as [L|L].
  - left. rewrite N.eqb_refl, take_all by reflexivity. split; [lia|reflexivity].
  - destruct (N.eqb_spec (nlen data) (avail_of off)) as [E|E].
    + left. rewrite <- E, take_all by reflexivity. split; [lia|reflexivity].
    + right. rewrite off1_of_fits. split; [lia|reflexivity].
Qed.

(* What ldb_writer_add_record does with [data] at block offset [off] ([b]: the
   next fragment begins the record).  The proofs about the bytes written are
   inductions over this relation; the loop and its fuel are unfolded in
   [loop_writes] and [add_record_loop_BLOCK], and in
   [WFileProofs.add_record_loop_ops_chunked]. *)
Inductive writes : N -> bool -> bytes -> bytes -> N -> Prop :=
| W_end : forall off b data,
    nlen data <= avail_of off ->
    writes off b data (chunk off (frag_type b true) data) (next off data)
| W_more : forall off b data out off',
    avail_of off < nlen data ->
    writes BLOCK false (drop_n (avail_of off) data) out off' ->
    writes off b data (chunk off (frag_type b false) (take_n (avail_of off) data) ++ out) off'.

(* 32761 = BLOCK - HEADER, the payload of a full block: [fuel] iterations after the first are enough *)
Lemma loop_writes : forall fuel off b data,
  nlen data <= avail_of off + 32761 * N.of_nat fuel ->
  writes off b data (fst (add_record_loop fuel off b data)) (snd (add_record_loop fuel off b data)).
Proof.
  induction fuel as [|f IH]; intros off b data G; cbn [add_record_loop];
    destruct (add_record_step_cases off b data) as [[H ->]|[H ->]]; try (apply W_end, H).
  - lia.
  - specialize (IH BLOCK false (drop_n (avail_of off) data)).
    destruct (add_record_loop f BLOCK false _). apply W_more; [exact H|]. apply IH.
    rewrite nlen_drop. change (avail_of BLOCK) with 32761. lia.
Qed.

(* block offsets BLOCK and 0 are the same state: both start a new block *)
Lemma add_record_loop_BLOCK : forall fuel b data,
  add_record_loop fuel BLOCK b data = add_record_loop fuel 0 b data.
Proof. intros [|f] b data; reflexivity. Qed.

Local Opaque add_record_loop.

Lemma add_record_writes : forall off r,
  writes off true r (fst (add_record off r)) (snd (add_record off r)).
Proof. intros. apply loop_writes. unfold add_record_fuel. lia. Qed.

(* The relation is a function of (off, b, data): the [O] branch of
   [add_record_loop] with pending data is never taken. *)
Lemma writes_fun : forall off b data o1 f1,
  writes off b data o1 f1 -> forall o2 f2, writes off b data o2 f2 -> (o1, f1) = (o2, f2).
Proof.
  induction 1 as [off b data H|off b data out off' H _ IH]; intros o2 f2 W;
    inversion W as [|? ? ? out2 ? H2 W2]; subst; try lia; [reflexivity|].
  injection (IH _ _ W2) as -> ->. reflexivity.
Qed.

Lemma add_record_fuel_ok : forall fuel off data,
  off <= BLOCK -> (add_record_fuel data <= fuel)%nat ->
  add_record_loop fuel off true data = add_record off data.
Proof.
  intros fuel off data _ Hf.
  rewrite (surjective_pairing (add_record_loop _ _ _ _)), (surjective_pairing (add_record off data)).
  eapply writes_fun; [apply loop_writes|apply add_record_writes].
  unfold add_record_fuel in *. lia.
Qed.

Lemma write_records_nil : forall off, write_records off [] = [].
Proof. reflexivity. Qed.

Lemma write_records_cons : forall off r rs,
  write_records off (r :: rs) =
    fst (add_record off r) ++ write_records (snd (add_record off r)) rs.
Proof. intros. cbn [write_records]. destruct (add_record off r); reflexivity. Qed.

Local Opaque write_records.

(* block offset after writing [rs] starting at block offset [off] *)
Fixpoint final_off (off : N) (rs : list bytes) : N :=
  match rs with
  | [] => off
  | r :: rs' => final_off (snd (add_record off r)) rs'
  end.

Lemma write_records_app : forall rs1 rs2 off,
  write_records off (rs1 ++ rs2) =
    write_records off rs1 ++ write_records (final_off off rs1) rs2.
Proof.
  induction rs1 as [|r rs1 IH]; intros rs2 off; cbn [app final_off].
  - rewrite write_records_nil. reflexivity.
  - rewrite !write_records_cons, IH, app_assoc. reflexivity.
Qed.

(* The writer's invariant: emitting [out] from block offset [off] leaves a
   block offset [off'] that is at most BLOCK and equals the number of bytes
   written, modulo BLOCK. *)
Definition tracks (off : N) (out : bytes) (off' : N) : Prop :=
  off' <= BLOCK /\                                  (* the offset stays inside the block *)
  (off + nlen out) mod BLOCK = off' mod BLOCK.      (* and counts the bytes written *)

Lemma tracks_nil : forall off, off <= BLOCK -> tracks off [] off.
Proof. intros off H. split; [exact H|]. rewrite nlen_nil, N.add_0_r. reflexivity. Qed.

Lemma tracks_app : forall a o1 b o2 c,
  tracks a o1 b -> tracks b o2 c -> tracks a (o1 ++ o2) c.
Proof.
  intros a o1 b o2 c [_ H1] [Hc H2]. split; [exact Hc|].
  rewrite nlen_app, N.add_assoc, <- N.add_mod_idemp_l, H1, N.add_mod_idemp_l by discriminate.
  exact H2.
Qed.

Lemma tracks_chunk : forall off ty p,
  off <= BLOCK -> next off p <= BLOCK -> tracks off (chunk off ty p) (next off p).
Proof.
  intros off ty p H Hn. split; [exact Hn|]. unfold chunk, next, pad_of, off1_of.
  rewrite nlen_app, nlen_phys_record.
  destruct (N.ltb_spec (BLOCK - off) HEADER) as [E|E].
  - rewrite nlen_repeat.
    replace (off + (N.of_nat (N.to_nat (BLOCK - off)) + (HEADER + nlen p)))
      with (0 + HEADER + nlen p + 1 * BLOCK) by lia.
    apply N.mod_add. discriminate.
  - rewrite nlen_nil. f_equal. lia.
Qed.

Lemma writes_tracks : forall off b data out off',
  writes off b data out off' -> off <= BLOCK -> tracks off out off'.
Proof.
  induction 1 as [off b data H|off b data out off' H _ IH]; intros Hoff.
  - apply tracks_chunk, next_le; assumption.
  - eapply tracks_app; [|apply IH, N.le_refl].
    rewrite <- (next_full off data H). apply tracks_chunk; [exact Hoff|].
    rewrite next_full by exact H. apply N.le_refl.
Qed.

Lemma add_record_off_le : forall off r, off <= BLOCK -> snd (add_record off r) <= BLOCK.
Proof. intros off r H. apply (writes_tracks _ _ _ _ _ (add_record_writes off r) H). Qed.

Lemma tracks_records : forall rs off,
  off <= BLOCK -> tracks off (write_records off rs) (final_off off rs).
Proof.
  induction rs as [|r rs IH]; intros off H; cbn [final_off].
  - rewrite write_records_nil. apply tracks_nil, H.
  - rewrite write_records_cons.
    eapply tracks_app; [exact (writes_tracks _ _ _ _ _ (add_record_writes off r) H)|].
    apply IH, add_record_off_le, H.
Qed.

Lemma write_records_mod : forall off rs,
  off <= BLOCK -> write_records off rs = write_records (off mod BLOCK) rs.
Proof.
  intros off rs H. destruct (N.eq_dec off BLOCK) as [->|Hne].
  - rewrite N.mod_same by discriminate.
    destruct rs as [|r rs]; [reflexivity|]. rewrite !write_records_cons.
    unfold add_record. rewrite add_record_loop_BLOCK. reflexivity.
  - rewrite N.mod_small by lia. reflexivity.
Qed.

(* The writer's only state is the file length modulo BLOCK. *)
Theorem write_log_from_app : forall len0 rs1 rs2,
  write_log_from len0 (rs1 ++ rs2) =
    write_log_from len0 rs1 ++
    write_log_from (len0 + nlen (write_log_from len0 rs1)) rs2.
Proof.
  intros len0 rs1 rs2. unfold write_log_from.
  assert (Hlt : len0 mod BLOCK <= BLOCK).
  { pose proof (N.mod_lt len0 BLOCK). rewrite BLOCK_eq in *. lia. }
  destruct (tracks_records rs1 _ Hlt) as [Hle Hlen].
  rewrite write_records_app. f_equal.
  rewrite write_records_mod, <- Hlen, N.add_mod_idemp_l by (exact Hle || discriminate).
  reflexivity.
Qed.

Theorem write_log_app : forall rs1 rs2,
  write_log (rs1 ++ rs2) = write_log rs1 ++ write_log_from (nlen (write_log rs1)) rs2.
Proof. intros. unfold write_log. rewrite write_log_from_app. reflexivity. Qed.

(* A written header parses back to its record: no range condition on the
   payload length, since a + 256 * b decodes nlen p exactly. *)
Lemma parse_written : forall c e ty p buf,
  ty < 256 -> ty <> 0 -> wf_bytes p = true ->
  parse c e (phys_record ty p ++ buf) = PRec ty p :: parse c e buf.
Proof.
  intros c e ty p buf Hty Hty0 Hp.
  assert (Hcrc : crc_value (ty :: p) < 4294967296).
  { apply crc_value_bound, wf_bytes_cons. split; assumption. }
  unfold phys_record. rewrite crc_value_cons_gen. unfold le32, parse. cbn [app].
  rewrite parse_block_record by apply len16.
  apply N.eqb_neq in Hty0. unfold T_ZERO.
  rewrite Hty0, (stored_crc_unmask _ _ _ _ _ Hcrc eq_refl), N.eqb_refl, andb_false_r. cbn [andb].
  f_equal. apply parse_block_fuel_indep; cbn [length]; rewrite ?app_length; lia.
Qed.

Lemma pe_at_phys : forall c off ty p rest,
  is_wtype ty -> wf_bytes p = true -> off + HEADER + nlen p <= BLOCK ->
  pe_at c off (phys_record ty p ++ rest) = PRec ty p :: pe_at c (off + HEADER + nlen p) rest.
Proof.
  intros c off ty p rest Hty Hp Hfit. apply is_wtype_bounds in Hty. destruct Hty as [Hty Hty0].
  pose proof (nlen_phys_record ty p) as Hl.
  destruct (N.lt_ge_cases (nlen rest) (BLOCK - (off + HEADER + nlen p))) as [Hr|Hr].
  - rewrite !pe_at_short by (rewrite ?nlen_app, ?Hl; lia). apply parse_written; assumption.
  - rewrite !pe_at_long by (rewrite ?nlen_app, ?Hl; lia).
    rewrite take_app_ge, drop_app_ge, parse_written, Hl by (assumption || lia).
    replace (BLOCK - off - (HEADER + nlen p)) with (BLOCK - (off + HEADER + nlen p)) by lia.
    reflexivity.
Qed.

(* the trailer, if there is one (fewer than 7 zero bytes up to the block boundary), is skipped *)
Lemma pe_at_padof : forall c off Y,
  pe_at c off (pad_of off ++ Y) = pe_at c (off1_of off) Y.
Proof.
  intros c off Y. unfold pad_of, off1_of.
  destruct (N.ltb_spec (BLOCK - off) HEADER) as [E|E]; [|reflexivity].
  assert (Hk : nlen (repeat 0 (N.to_nat (BLOCK - off))) = BLOCK - off) by (rewrite nlen_repeat; lia).
  rewrite pe_at_0, pe_at_long by (rewrite nlen_app, Hk; lia).
  rewrite <- Hk at 1 3. rewrite take_n_nlen_app, drop_n_nlen_app.
  rewrite parse_short by (rewrite Hk; exact E). reflexivity.
Qed.

(* The physical layer on one laid-out record followed by [X], the whole cut
   after [k] bytes: the record, or end of file inside it (trailer included). *)
Lemma pe_at_chunk : forall c off ty p X k,
  is_wtype ty -> wf_bytes p = true -> next off p <= BLOCK ->
  pe_at c off (take_n k (chunk off ty p ++ X)) =
    if k <? nlen (chunk off ty p) then [PEof]
    else PRec ty p :: pe_at c (next off p) (take_n (k - nlen (chunk off ty p)) X).
Proof.
  intros c off ty p X k Hty Hwf Hfit. unfold chunk, next in *.
  destruct (N.ltb_spec k (nlen (pad_of off ++ phys_record ty p))) as [L|L].
  - rewrite take_app_lt by exact L. rewrite nlen_app in L.
    destruct (N.lt_ge_cases k (nlen (pad_of off))) as [Hlt|Hge].
    + rewrite take_app_lt by exact Hlt.
      unfold pad_of in *. destruct (N.ltb_spec (BLOCK - off) HEADER) as [E|E]; [|rewrite nlen_nil in Hlt; lia].
      rewrite nlen_repeat in Hlt.
      rewrite pe_at_short, parse_eof_short; [reflexivity| |]; rewrite nlen_take; lia.
    + rewrite take_app_ge, pe_at_padof by exact Hge.
      apply pe_at_phys_prefix; [exact Hfit|lia].
  - rewrite take_app_ge, <- app_assoc, pe_at_padof by exact L.
    apply pe_at_phys; assumption.
Qed.

(* What the first [k] bytes of out ++ X read as, when [out] (ending at block
   offset [off']) holds the rest of the record [r]: nothing while [out] is
   incomplete, then [r] and whatever the rest gives. *)
Definition after_record (c : bool) (w : bytes * N) (r X : bytes) (k : N) : list lev :=
  if k <? nlen (fst w) then []
  else Rec r :: logical (pe_at c (snd w) (take_n (k - nlen (fst w)) X)) false [].

Lemma ltb_sub_add : forall k a b, a <= k -> (k - a <? b) = (k <? a + b).
Proof. intros. apply eq_true_iff_eq. rewrite !N.ltb_lt. lia. Qed.

(* [s]: what the reader has assembled of the record so far. *)
Lemma writes_read_prefix : forall c off b data out off',
  writes off b data out off' -> forall s X k,
  wf_bytes data = true -> (b = true -> s = []) ->
  logical (pe_at c off (take_n k (out ++ X))) (negb b) s =
    after_record c (out, off') (s ++ data) X k.
Proof.
  intros c. induction 1 as [off b data H|off b data out off' H _ IH]; intros s X k Hwf Hb;
    unfold after_record; cbn [fst snd].
  - rewrite pe_at_chunk by (apply frag_type_wtype || assumption || apply next_le, H).
    destruct (k <? _); [reflexivity|apply logical_frag_end, Hb].
  - rewrite <- app_assoc, pe_at_chunk, nlen_app;
      [|apply frag_type_wtype|apply wf_bytes_take, Hwf|apply next_le; rewrite nlen_take; lia].
    set (hd := chunk _ _ _).
    destruct (N.ltb_spec k (nlen hd)) as [L|L].
    + replace (k <? _) with true by (symmetry; apply N.ltb_lt; lia). reflexivity.
    + rewrite logical_frag_more, next_full, (IH _ X)
        by (exact Hb || exact H || discriminate || apply wf_bytes_drop, Hwf).
      unfold after_record. cbn [fst snd].
      rewrite <- app_assoc, take_drop, N.sub_add_distr, <- ltb_sub_add by exact L.
      reflexivity.
Qed.

Lemma add_record_read_prefix : forall c off r X k,
  wf_bytes r = true ->
  logical (pe_at c off (take_n k (fst (add_record off r) ++ X))) false [] =
    after_record c (add_record off r) r X k.
Proof.
  intros c off r X k Hwf. rewrite (surjective_pairing (add_record off r)) at 2.
  exact (writes_read_prefix c off true r _ _ (add_record_writes off r) [] X k Hwf (fun _ => eq_refl)).
Qed.

(* Reading the first [k] bytes of what was written from block offset [off]. *)
Lemma read_cut_gen : forall c rs off k,
  Forall (fun r => wf_bytes r = true) rs ->
  exists j,
    logical (pe_at c off (take_n k (write_records off rs))) false [] = map Rec (firstn j rs) /\
    nlen (write_records off (firstn j rs)) <= k /\
    ((j < length rs)%nat -> k < nlen (write_records off (firstn (S j) rs))).
Proof.
  intros c. induction rs as [|r rs IH]; intros off k Hwf.
  - exists 0%nat. cbn [firstn map length].
    rewrite write_records_nil, take_all, pe_at_nil by apply N.le_0_l.
    repeat split; [apply N.le_0_l|]. intros L. inversion L.
  - inversion Hwf as [|? ? Hr Hrs]; subst.
    rewrite write_records_cons, add_record_read_prefix by assumption. unfold after_record.
    set (out := fst (add_record off r)) in *.
    set (off' := snd (add_record off r)) in *.
    destruct (N.ltb_spec k (nlen out)) as [Hlt|Hge].
    + exists 0%nat. cbn [firstn map].
      rewrite write_records_cons, !write_records_nil, app_nil_r.
      repeat split; [apply N.le_0_l|intros _; exact Hlt].
    + destruct (IH off' (k - nlen out) Hrs) as (j & Hk1 & Hk2 & Hk3).
      exists (S j).
      rewrite !firstn_cons, !write_records_cons, !nlen_app. cbn [map length].
      fold out off'. rewrite Hk1. repeat split; [lia|].
      intros Hlen. apply Nat.succ_lt_mono in Hlen. specialize (Hk3 Hlen). lia.
Qed.

(* The cut position of the cited forms is a [nat]: [firstn n] is [take_n (N.of_nat n)]. *)
Lemma read_cut_nat : forall c rs n,
  Forall (fun r => wf_bytes r = true) rs ->
  exists k,
    logical (pe_at c 0 (firstn n (write_records 0 rs))) false [] = map Rec (firstn k rs) /\
    (length (write_records 0 (firstn k rs)) <= n)%nat /\
    ((k < length rs)%nat -> (n < length (write_records 0 (firstn (S k) rs)))%nat).
Proof.
  intros c rs n Hwf. destruct (read_cut_gen c rs 0 (N.of_nat n) Hwf) as (k & E & H1 & H2).
  unfold take_n, nlen in *. rewrite Nat2N.id in E. exists k. repeat split; [exact E|lia|lia].
Qed.

(* The four codec facts are premises of [read_cut] once the Section is closed
   ([Proof using] puts them there); its proof uses none of them.
   [LogFormatClosed.read_cut] is the statement without them. *)
Section WithCodecFacts.

Hypothesis crc_unmask_mask : forall c, c < 4294967296 -> crc_unmask (crc_mask c) = c.
Hypothesis crc_extend_bound : forall init data,
  init < 4294967296 -> wf_bytes data = true -> crc_extend init data < 4294967296.
Hypothesis crc_value_cons : forall ty payload,
  ty < 256 -> crc_extend (crc_value [ty]) payload = crc_value (ty :: payload).
Hypothesis de32_le32 : forall x rest,
  x < 4294967296 -> de32 (le32 x ++ rest) = Some x.

Theorem read_cut : forall rs n,
  Forall (fun r => wf_bytes r = true) rs -> (n <= length (write_log rs))%nat ->
  exists k,
    read_log (firstn n (write_log rs)) = map Rec (firstn k rs) /\
    (length (write_log (firstn k rs)) <= n)%nat /\
    (k < length rs -> n < length (write_log (firstn (S k) rs)))%nat.
Proof using crc_unmask_mask crc_extend_bound crc_value_cons de32_le32.
  intros rs n Hwf _. unfold read_log, read_log_events. rewrite <- pe_at_0.
  exact (read_cut_nat true rs n Hwf).
Qed.

End WithCodecFacts.

Definition payloads_of (evs : list pev) : list bytes :=
  flat_map (fun e => match e with PRec _ p => [p] | _ => [] end) evs.

(* payloads of the physical records of [f] accepted (CRC verified) by the reader *)
Definition verified_payloads (f : bytes) : list bytes :=
  payloads_of (phys_events true f).

Lemma In_payloads_of : forall evs ty p, In (PRec ty p) evs -> In p (payloads_of evs).
Proof.
  intros evs ty p H. unfold payloads_of. apply in_flat_map.
  exists (PRec ty p). split; [assumption|]. left. reflexivity.
Qed.

Lemma In_Rec_skip_drop : forall r (b : bool) n l,
  In (Rec r) ((if b then [Drop n] else []) ++ l) -> In (Rec r) l.
Proof. intros r [|] n l H; [destruct H as [H|H]; [discriminate|exact H]|exact H]. Qed.

Definition concat_of (P : bytes -> Prop) (s : bytes) : Prop :=
  exists fs, s = concat fs /\ Forall P fs.

Lemma concat_of_nil : forall P, concat_of P [].
Proof. intros P. exists []. split; [reflexivity|constructor]. Qed.

Lemma concat_of_snoc : forall P s p, concat_of P s -> P p -> concat_of P (s ++ p).
Proof.
  intros P s p (fs & -> & Hfs) Hp. exists (fs ++ [p]). split.
  - symmetry. apply concat_snoc.
  - apply Forall_app. split; [exact Hfs|]. constructor; [exact Hp|constructor].
Qed.

(* Every branch of [logical] emits drop reports, possibly one record built
   from the scratch buffer and the current payload, and goes on with a scratch
   buffer that is again a concatenation of payloads seen so far. *)
Lemma logical_no_invention : forall (P : bytes -> Prop) evs i scratch r,
  (forall ty p, In (PRec ty p) evs -> P p) ->
  concat_of P scratch ->
  In (Rec r) (logical evs i scratch) ->
  concat_of P r.
Proof.
  intros P. induction evs as [|ev evs IH]; intros i scratch r HP Hs Hin;
    cbn [logical] in Hin; [destruct Hin|].
  assert (K : forall i' s', concat_of P s' -> In (Rec r) (logical evs i' s') -> concat_of P r).
  { intros i' s' Hs'. apply IH; [|exact Hs']. intros ty p H. apply (HP ty p). right. exact H. }
  pose proof (concat_of_nil P) as Hnil.
  destruct ev as [ty p|rep|]; [| |destruct Hin].
  - assert (Pp : P p) by (apply (HP ty p); left; reflexivity).
    pose proof (concat_of_snoc P [] p Hnil Pp) as Hone. cbn [app] in Hone.
    pose proof (concat_of_snoc P scratch p Hs Pp) as Happ.
    destruct (ty =? T_FULL).
    { apply In_Rec_skip_drop in Hin.
      destruct Hin as [Hin|Hin]; [injection Hin as <-; exact Hone|exact (K _ _ Hnil Hin)]. }
    destruct (ty =? T_FIRST).
    { apply In_Rec_skip_drop in Hin. exact (K _ _ Hone Hin). }
    destruct (ty =? T_MIDDLE).
    { destruct i; [exact (K _ _ Happ Hin)|].
      destruct Hin as [Hin|Hin]; [discriminate|exact (K _ _ Hs Hin)]. }
    destruct (ty =? T_LAST).
    { destruct i.
      - destruct Hin as [Hin|Hin]; [injection Hin as <-; exact Happ|exact (K _ _ Hnil Hin)].
      - destruct Hin as [Hin|Hin]; [discriminate|exact (K _ _ Hs Hin)]. }
    destruct (ty =? 5); [destruct Hin|].
    destruct (ty =? 6).
    { apply In_Rec_skip_drop in Hin. exact (K _ _ Hnil Hin). }
    destruct Hin as [Hin|Hin]; [discriminate|exact (K _ _ Hnil Hin)].
  - apply in_app_or in Hin. destruct Hin as [Hin|Hin].
    { destruct rep; cbn [In] in Hin; [destruct Hin as [Hin|[]]; discriminate|destruct Hin]. }
    apply In_Rec_skip_drop in Hin. destruct i; [exact (K _ _ Hnil Hin)|exact (K _ _ Hs Hin)].
Qed.

(* Every record returned by the reader, on ANY byte string, is a concatenation
   of payloads of physical records that the physical layer accepted. *)
Theorem read_log_no_invention_structural : forall f r,
  In (Rec r) (read_log f) ->
  exists frags, r = concat frags /\ Forall (fun p => In p (verified_payloads f)) frags.
Proof.
  intros f r H. unfold read_log, read_log_events in H.
  eapply logical_no_invention; [|apply concat_of_nil|exact H].
  intros ty p Hin. unfold verified_payloads. eapply In_payloads_of. eassumption.
Qed.

(* A single-bit flip that loses every record without any report. *)
Definition zh_rs : list bytes := [ [] ; [104;101;108;108;111] ; [119;111;114;108;100] ].
Definition zh_f : bytes := write_log zh_rs.
Definition zh_f' : bytes := firstn 6 zh_f ++ [0] ++ skipn 7 zh_f.

Lemma zero_header_reads_nothing : read_log zh_f' = [].
Proof. vm_compute. reflexivity. Qed.

Theorem zero_header_silent_refuted :
  exists rs f',
    Forall (fun r => wf_bytes r = true) rs /\
    length f' = length (write_log rs) /\
    (f' = firstn 6 (write_log rs) ++ [0] ++ skipn 7 (write_log rs) /\
     nth 6 (write_log rs) 0 = 1) /\
    records_of (read_log f') <> rs /\
    drops_of (read_log f') = [].
Proof.
  exists zh_rs, zh_f'. split; [|split; [|split; [split|split]]].
  - repeat constructor.
  - vm_compute. reflexivity.
  - reflexivity.
  - vm_compute. reflexivity.
  - rewrite zero_header_reads_nothing. discriminate.
  - rewrite zero_header_reads_nothing. reflexivity.
Qed.

(* What "verified" means: every physical record accepted by the reader
   (checksum on) is a contiguous header ++ payload substring of the file whose
   stored (masked) CRC matches type ++ payload. *)

Definition is_verified_substring (f : bytes) (ty : N) (p : bytes) : Prop :=
  exists pre c0 c1 c2 c3 a b post,
    f = pre ++ [c0; c1; c2; c3; a; b; ty] ++ p ++ post /\
    a + 256 * b = nlen p /\
    crc_value (ty :: p) = crc_unmask (c0 + 256 * c1 + 65536 * c2 + 16777216 * c3).

Lemma verified_substring_ext : forall pre blk post ty p,
  is_verified_substring blk ty p -> is_verified_substring (pre ++ blk ++ post) ty p.
Proof.
  intros pre blk post ty p (pre' & c0 & c1 & c2 & c3 & a & b & post' & -> & Hl & Hc).
  exists (pre ++ pre'), c0, c1, c2, c3, a, b, (post' ++ post).
  split; [|split; assumption]. rewrite <- !app_assoc. reflexivity.
Qed.

Ltac no_prec H :=
  cbn [In] in H; repeat (destruct H as [H|H]; try discriminate); try contradiction.

Lemma parse_block_verified : forall fuel e buf ty p,
  In (PRec ty p) (parse_block fuel true e buf) -> is_verified_substring buf ty p.
Proof.
  induction fuel as [|f IH]; intros e buf ty p H; [rewrite parse_block_0 in H; destruct H|].
  destruct (shape_total buf) as [buf Hs|c0 c1 c2 c3 a b ty0 body Hs|c0 c1 c2 c3 a b ty0 q tail Hs].
  - rewrite parse_block_short in H by exact Hs. destruct e; no_prec H.
  - rewrite parse_block_torn in H by exact Hs. destruct e; no_prec H.
  - rewrite parse_block_record in H by exact Hs.
    destruct (_ && _); [destruct e; no_prec H|].
    destruct (negb (_ =? _)) eqn:E3; [destruct e; no_prec H|].
    destruct H as [H|H].
    + injection H as -> <-. exists [], c0, c1, c2, c3, a, b, tail.
      split; [reflexivity|]. split; [exact Hs|]. apply negb_false_iff, N.eqb_eq in E3. exact E3.
    + apply IH in H. rewrite <- (app_nil_r tail).
      exact (verified_substring_ext ([c0; c1; c2; c3; a; b; ty0] ++ q) _ [] _ _ H).
Qed.

Lemma split_blocks_sub : forall fuel file blk e,
  In (blk, e) (split_blocks fuel file) -> exists pre post, file = pre ++ blk ++ post.
Proof.
  induction fuel as [|f IH]; intros file blk e H.
  - rewrite split_blocks_0 in H. destruct H.
  - rewrite split_blocks_S in H.
    pose proof (take_drop _ BLOCK file) as Htd.
    remember (take_n BLOCK file) as t eqn:Et.
    remember (drop_n BLOCK file) as d eqn:Ed. clear Et Ed.
    destruct (nlen t <? BLOCK).
    + destruct H as [H|[]]. inversion H; subst.
      exists [], d. reflexivity.
    + destruct H as [H|H].
      * inversion H; subst. exists [], d. reflexivity.
      * destruct (IH _ _ _ H) as (pre & post & E).
        exists (t ++ pre), post.
        rewrite <- app_assoc, <- E. symmetry. assumption.
Qed.

Theorem phys_events_verified : forall f ty p,
  In (PRec ty p) (phys_events true f) -> is_verified_substring f ty p.
Proof.
  intros f ty p H. unfold phys_events in H. apply in_flat_map in H.
  destruct H as ([blk e] & Hblk & Hin). cbn [fst snd] in Hin.
  apply split_blocks_sub in Hblk. destruct Hblk as (pre & post & ->).
  apply verified_substring_ext. exact (parse_block_verified _ _ _ _ _ Hin).
Qed.

Theorem verified_payloads_spec : forall f p,
  In p (verified_payloads f) -> exists ty, is_verified_substring f ty p.
Proof.
  intros f p H. unfold verified_payloads, payloads_of in H.
  apply in_flat_map in H. destruct H as (ev & Hev & Hin).
  destruct ev as [ty q| |]; cbn [In] in Hin; try contradiction.
  destruct Hin as [->|[]]. exists ty. apply phys_events_verified. assumption.
Qed.

