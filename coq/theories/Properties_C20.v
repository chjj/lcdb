(* Properties_C20.v -- theorems for property C20 (lifecycle operations are exclusive,
   complete and non-destructive).  Models: Lifecycle.v (lock table, destroy, backup,
   comparator check) over Engine.v and Filename.v; proofs: LifecycleProofs.v.

   What is a theorem about the model and what is tied to the code only by the
   differential runs (checks/c20.py) is said at each statement. *)
From LCDB Require Import Base BaseProofs Engine EngineSpec EngineRead EngineSteps EngineTop.
From LCDB Require Import Filename FilenameProofs Edit Lifecycle LifecycleProofs.
Require Import Lia.
Local Open Scope N_scope.

(* For every sequence of opens, failed opens and closes of any directories (one process):
   (a) at most one handle is open per directory;
   (b) the lock of a directory is held exactly while a handle is open on it;
   (c) a second open of an open directory fails in ldb_lock_file and changes nothing
       (whether or not the rest of that open would have succeeded);
   (d) a directory that is not open can be opened;
   (e) after ldb_close the directory is not open, other directories are unaffected, and it
       can be opened again;
   (f) an open that fails after taking the lock leaves the state as it was: the directory
       can be opened again. *)
Theorem C20_exclusive : forall ops s, s = lk_run lk_init ops ->
  (forall d, (count_open d s <= 1)%nat) /\
  (forall d, In d (locks s) <-> In d (open_dirs s)) /\
  (forall d ok, In d (open_dirs s) -> lc_open_gen ok s d = (s, RLocked)) /\
  (forall d, ~ In d (open_dirs s) ->
     snd (lc_open s d) = ROpened (next_handle s) /\ In d (open_dirs (fst (lc_open s d)))) /\
  (forall d, In d (open_dirs s) ->
     snd (lc_close s d) = RClosed /\ ~ In d (open_dirs (fst (lc_close s d))) /\
     (forall d', d' <> d -> (In d' (open_dirs (fst (lc_close s d))) <-> In d' (open_dirs s))) /\
     exists h, snd (lc_open (fst (lc_close s d)) d) = ROpened h) /\
  (forall d, ~ In d (open_dirs s) ->
     lc_failed_open s d = (s, RFailed) /\
     exists h, snd (lc_open (fst (lc_failed_open s d)) d) = ROpened h).
Proof.
  intros ops s ->. pose proof (lk_run_LInv ops lk_init lk_init_LInv) as HI.
  set (s := lk_run lk_init ops) in *.
  split. { intros d. apply count_nodup. exact (li_dirs_nodup s HI). }
  split. { exact (li_held s HI). }
  split. { intros d ok Hin. apply second_open_fails; assumption. }
  split. { intros d Hn. apply open_succeeds; assumption. }
  split.
  - intros d Hin. destruct (close_releases s d HI Hin) as (H1 & H2 & H3).
    split; [exact H1|]. split; [exact H2|]. split; [exact H3|].
    pose proof (close_LInv s d HI) as HI'.
    destruct (open_succeeds (fst (lc_close s d)) d HI' H2) as [Ho _]. eexists. exact Ho.
  - intros d Hn. pose proof (failed_open_releases s d HI Hn) as Hf. split; [exact Hf|].
    rewrite Hf. cbn [fst]. destruct (open_succeeds s d HI Hn) as [Ho _]. eexists. exact Ho.
Qed.
Print Assumptions C20_exclusive.

(* the invariant behind it, for every reachable state *)
Theorem C20_lock_invariant : forall ops, LInv (lk_run lk_init ops).
Proof. intros ops. apply lk_run_LInv. apply lk_init_LInv. Qed.
Print Assumptions C20_lock_invariant.

(* Several processes, in-process table + operating-system record lock.
   If ldb_lock_file consults its table BEFORE opening the LOCK file (the code since fix
   96e3fcf), no directory is ever open through two handles, in whatever order any
   processes open and close. *)
Theorem C20_exclusive_processes_checked : forall ops d,
  (p_count_open d (mp_run true mp_init ops) <= 1)%nat.
Proof.
  intros ops d. assert (HI : PInv mp_init) by (repeat split; constructor).
  pose proof (prun_checked_PInv ops mp_init HI) as (H1 & H2 & H3).
  unfold p_count_open. rewrite H2. apply p_count_nodup. exact H3.
Qed.
Print Assumptions C20_exclusive_processes_checked.

(* lcdb's ORIGINAL order (open the LOCK file, find the directory in the table, close the
   descriptor) with POSIX record locks, which are dropped when the process closes any
   descriptor of the file: process 1 opens d, its second open of d fails as it should --
   and releases the record lock; process 2 then opens d while process 1 still has it open.
   Found on the implementation by checks/c20.py (`lock2`: F_GETLK probe from a forked child
   before and after the failed second open, kind lock-dropped-by-failed-open) and repaired
   in /repo by fix 96e3fcf, after which the code is the [check_first = true] variant of
   C20_exclusive_processes_checked. *)
Definition lock_drop_witness : list mp_op := [POpen 1 [100]; POpen 1 [100]; POpen 2 [100]].

Theorem C20_exclusive_processes_refuted :
  snd (mp_step false (mp_run false mp_init [POpen 1 [100]]) (POpen 1 [100])) = false /\
  p_count_open [100] (mp_run false mp_init lock_drop_witness) = 2%nat /\
  p_handles (mp_run false mp_init lock_drop_witness) = [(2, [100]); (1, [100])].
Proof. vm_compute. repeat split. Qed.
Print Assumptions C20_exclusive_processes_refuted.

(* ldb_destroy removes exactly the names ldb_parse_filename accepts *)
Theorem C20_destroy : forall n l,
  In n (destroy_remaining l) <-> In n l /\ parse_filename n = None.
Proof. exact destroy_remaining_In. Qed.
Print Assumptions C20_destroy.

(* every name the database itself creates is removed *)
Theorem C20_destroy_own_files_removed : forall kind num l,
  num < 2 ^ 64 -> ~ In (make_name kind num) (destroy_remaining l).
Proof.
  intros kind num l Hn Hin. apply destroy_remaining_In in Hin. destruct Hin as [_ Hp].
  rewrite (parse_filename_make kind num Hn) in Hp. discriminate.
Qed.
Print Assumptions C20_destroy_own_files_removed.

(* the order of the surviving names is kept and a second destroy removes nothing more *)
Theorem C20_destroy_idempotent : forall l, destroy_remaining (destroy_remaining l) = destroy_remaining l.
Proof. exact destroy_remaining_idem. Qed.
Print Assumptions C20_destroy_idempotent.

(* the directory itself disappears exactly when it held nothing foreign: every name was
   the database's own and the "lost" subdirectory, if any, could be removed (it held no
   CURRENT and only own names) *)
Theorem C20_destroy_directory_gone : forall top lost,
  destroy_tree top lost = None <->
  (forall n, In n top -> owned n = true) /\
  (match lost with
   | None => True
   | Some sub => ~ In s_CURRENT sub /\ forall n, In n sub -> owned n = true
   end).
Proof.
  intros top lost. unfold destroy_tree. rewrite <- (destroy_remaining_nil top).
  destruct (destroy_remaining top) as [|n t] eqn:E.
  - destruct lost as [sub|].
    + unfold destroy_lost. change (existsb (bytes_eqb s_CURRENT) sub) with (dir_in s_CURRENT sub).
      destruct (dir_in s_CURRENT sub) eqn:C.
      * apply dir_in_In in C. split; [discriminate|]. intros [_ [Hn _]]. contradiction.
      * apply dir_in_false in C.
        rewrite <- (destroy_remaining_nil sub). destruct (destroy_remaining sub); split; try tauto; try discriminate.
        intros [_ [_ H]]. discriminate.
    + tauto.
  - split; [destruct (match lost with None => None | Some sub => destroy_lost sub end); discriminate|].
    intros [H _]. discriminate.
Qed.
Print Assumptions C20_destroy_directory_gone.

(* a "lost" subdirectory holding a CURRENT is a database of its own: not touched *)
Theorem C20_destroy_keeps_nested_database : forall sub, In s_CURRENT sub -> destroy_lost sub = Some sub.
Proof.
  intros sub Hin. unfold destroy_lost. apply dir_in_In in Hin. unfold dir_in in Hin. rewrite Hin. reflexivity.
Qed.
Print Assumptions C20_destroy_keeps_nested_database.

(* foreign names next to a database are kept; computed on the Filename.v model of
   ldb_parse_filename (names as ASCII codes) *)
Definition ascii_README : bytes := [82;69;65;68;77;69].
Definition ascii_000001_txt : bytes := [48;48;48;48;48;49;46;116;120;116].
Definition ascii_MANIFEST : bytes := [77;65;78;73;70;69;83;84].
Definition ascii_MANIFEST_dash : bytes := [77;65;78;73;70;69;83;84;45].
Definition ascii_MANIFEST_x : bytes := [77;65;78;73;70;69;83;84;45;48;48;48;48;48;52;120].
Definition ascii_CURRENT_bak : bytes := [67;85;82;82;69;78;84;46;98;97;107].
Definition ascii_1_log_old : bytes := [49;46;108;111;103;46;111;108;100].
Definition ascii_current_lower : bytes := [99;117;114;114;101;110;116].
Definition ascii_dot_log : bytes := [46;108;111;103].
Definition ascii_LOG_old2 : bytes := [76;79;71;46;111;108;100;50].
Definition ascii_12_LDB_upper : bytes := [49;50;46;76;68;66].
Definition ascii_huge_log : bytes :=     (* 18446744073709551616.log: the number overflows uint64 *)
  [49;56;52;52;54;55;52;52;48;55;51;55;48;57;53;53;49;54;49;54;46;108;111;103].
Definition ascii_minus1_log : bytes := [45;49;46;108;111;103].
Definition ascii_lost : bytes := s_lost.

Definition foreign_names : list bytes :=
  [ascii_README; ascii_000001_txt; ascii_MANIFEST; ascii_MANIFEST_dash; ascii_MANIFEST_x; ascii_CURRENT_bak;
   ascii_1_log_old; ascii_current_lower; ascii_dot_log; ascii_LOG_old2; ascii_12_LDB_upper; ascii_huge_log;
   ascii_minus1_log; ascii_lost].

Definition own_names : list bytes :=
  [current_name; lock_name; info_name; oldinfo_name; desc_name 4; log_name 12; table_name 12; sstable_name 12;
   temp_name 7; [49;46;108;111;103] (* 1.log *); [48;46;115;115;116] (* 0.sst *);
   [49;56;52;52;54;55;52;52;48;55;51;55;48;57;53;53;49;54;49;53;46;108;100;98] (* 18446744073709551615.ldb *)].

Theorem C20_destroy_examples :
  destroy_remaining (own_names ++ foreign_names) = foreign_names /\
  destroy_remaining (foreign_names ++ own_names) = foreign_names /\
  destroy_remaining own_names = [] /\
  destroy_tree own_names None = None /\
  destroy_tree own_names (Some own_names) = Some ([], Some own_names) /\       (* lost/CURRENT exists *)
  destroy_tree own_names (Some [log_name 3; table_name 5]) = None /\
  destroy_tree (ascii_README :: own_names) (Some [log_name 3; ascii_README])
    = Some ([ascii_README], Some [ascii_README]).
Proof. vm_compute. repeat split. Qed.
Print Assumptions C20_destroy_examples.

(* The backup of state s is a recovery of the same files: it shows, at the source's latest
   sequence, exactly what the source shows.  (Inv2 holds in every reachable state:
   EngineTop.reachable_Inv2; it covers data in the memtable only, an immutable memtable
   pending, and any level layout.) *)
Theorem C20_backup_contents : forall ucmp, total_order ucmp -> forall s bounds nums nf b,
  Inv2 ucmp s -> do_reopen ucmp s bounds nums nf = Some b ->
  forall k, view ucmp b k (last_seq s) = view ucmp s k (last_seq s).
Proof. intros ucmp TO s bounds nums nf b HI H k. exact (backup_contents ucmp TO s bounds nums nf b HI H k). Qed.
Print Assumptions C20_backup_contents.

(* ... at every sequence that is still readable in the source, too *)
Theorem C20_backup_contents_at : forall ucmp, total_order ucmp -> forall s bounds nums nf b,
  Inv2 ucmp s -> backup_state ucmp s bounds nums nf = Some b ->
  forall k q, readable s q -> view ucmp b k q = view ucmp s k q.
Proof. intros ucmp TO s bounds nums nf b HI H. exact (backup_views ucmp TO s bounds nums nf b HI H). Qed.
Print Assumptions C20_backup_contents_at.

(* the backup is an openable, well-formed database with the source's sequence number and
   no snapshots; ldb_get on it returns what ldb_get returns on the source, and an
   iterator over it yields the source's live entries *)
Theorem C20_backup_is_database : forall ucmp, total_order ucmp -> forall s bounds nums nf b,
  Inv2 ucmp s -> backup_state ucmp s bounds nums nf = Some b ->
  Inv2 ucmp b /\ last_seq b = last_seq s /\ snaps b = [] /\
  (forall k, visible (get ucmp b k (last_seq b)) = visible (get ucmp s k (last_seq s))) /\
  (forall k v, (exists k', ucmp k' k = Eq /\ In (k', v) (live_view ucmp b (last_seq b))) <->
               (exists k', ucmp k' k = Eq /\ In (k', v) (live_view ucmp s (last_seq s)))).
Proof.
  intros ucmp TO s bounds nums nf b HI H.
  destruct (backup_last_seq ucmp s bounds nums nf b H) as (H1 & H2 & _).
  split. { exact (backup_Inv2 ucmp TO s bounds nums nf b HI H). }
  split; [exact H1|]. split; [exact H2|].
  split. { exact (backup_get ucmp TO s bounds nums nf b HI H). }
  exact (backup_scan ucmp TO s bounds nums nf b HI H).
Qed.
Print Assumptions C20_backup_is_database.

(* a backup can be taken in every state *)
Theorem C20_backup_exists : forall ucmp s, exists nf b, backup_state ucmp s [] [] nf = Some b.
Proof. intros ucmp s. destruct (backup_exists ucmp s) as (b & Hb). eexists. exists b. exact Hb. Qed.
Print Assumptions C20_backup_exists.

(* Taking a backup is not a step of the source: the source component of the resulting
   pair is the same value.  (By construction of the model; on the implementation this is
   what the tie checks: the history continues on the source and every later read is
   compared with the model that took no step.) *)
Theorem C20_source_unchanged : forall ucmp s bounds nums nf w,
  take_backup ucmp s bounds nums nf = Some w ->
  w_src w = s /\ backup_state ucmp s bounds nums nf = Some (w_bak w).
Proof.
  intros ucmp s bounds nums nf w H. unfold take_backup in H.
  destruct (backup_state ucmp s bounds nums nf) as [b|]; [|discriminate]. injection H as <-. auto.
Qed.
Print Assumptions C20_source_unchanged.

Lemma src_ops_WSrc ops : src_ops (map WSrc ops) = ops.
Proof. induction ops as [|o r IH]; cbn; [reflexivity|rewrite IH; reflexivity]. Qed.
Lemma bak_ops_WSrc ops : bak_ops (map WSrc ops) = [].
Proof. induction ops as [|o r IH]; cbn; [reflexivity|exact IH]. Qed.

(* The backup state is a value: whatever the source does afterwards does not change it. *)
Theorem C20_backup_independent : forall ucmp s bounds nums nf b ops s',
  backup_state ucmp s bounds nums nf = Some b ->
  run ucmp s ops = Some s' ->
  wrun ucmp (mkW s b) (map WSrc ops) = Some (mkW s' b).
Proof.
  intros ucmp s bounds nums nf b ops s' _ H. apply (wrun_split ucmp). cbn [w_src w_bak].
  rewrite src_ops_WSrc, bak_ops_WSrc. split; [exact H|reflexivity].
Qed.
Print Assumptions C20_backup_independent.

(* in general: operations on the source and on the backup, interleaved in any way, act on
   their own database only *)
Theorem C20_source_and_backup_independent : forall ucmp ops w w',
  wrun ucmp w ops = Some w' <->
  run ucmp (w_src w) (src_ops ops) = Some (w_src w') /\ run ucmp (w_bak w) (bak_ops ops) = Some (w_bak w').
Proof. intros ucmp. exact (wrun_split ucmp). Qed.
Print Assumptions C20_source_and_backup_independent.

Lemma run_app ucmp a : forall s0 s b s', run ucmp s0 a = Some s -> run ucmp s b = Some s' -> run ucmp s0 (a ++ b) = Some s'.
Proof.
  induction a as [|o r IH]; intros s0 s b s' H0 H1; cbn [run app] in *.
  - injection H0 as ->. exact H1.
  - destruct (step ucmp s0 o) as [s1|]; [|discriminate]. eapply IH; eauto.
Qed.

(* together: while the source goes on (writes, flushes, compactions, reopens), the backup
   keeps showing the source's contents of the moment it was taken, and the source shows
   its own history as if no backup had happened *)
Theorem C20_backup_frozen : forall ucmp, total_order ucmp -> forall ops0 s bounds nums nf w ops w',
  run ucmp init_state ops0 = Some s ->
  take_backup ucmp s bounds nums nf = Some w ->
  wrun ucmp w (map WSrc ops) = Some w' ->
  (forall k, view ucmp (w_bak w') k (last_seq s) = view ucmp s k (last_seq s)) /\
  run ucmp init_state (ops0 ++ ops) = Some (w_src w').
Proof.
  intros ucmp TO ops0 s bounds nums nf w ops w' H0 Hb Hw.
  destruct (C20_source_unchanged ucmp s bounds nums nf w Hb) as [Hs Hbk].
  apply (wrun_split ucmp) in Hw. destruct Hw as [Hsrc Hbak].
  rewrite src_ops_WSrc in Hsrc. rewrite bak_ops_WSrc in Hbak. cbn [run] in Hbak. injection Hbak as Hbak.
  split.
  - intros k. rewrite <- Hbak.
    apply (backup_contents ucmp TO s bounds nums nf (w_bak w) (reachable_Inv2 ucmp TO ops0 s H0) Hbk).
  - rewrite Hs in Hsrc. eapply run_app; eauto.
Qed.
Print Assumptions C20_backup_frozen.

(* An open with a comparator name other than the one recorded in the MANIFEST returns
   LDB_INVALID; with the recorded one it passes the check.  The image component of the
   result is the argument: the model function cannot modify the directory BY CONSTRUCTION,
   so "without modifying it" is not a theorem about the code; it is established for the
   implementation only by the differential run (`wrongcmp`: directory listing with sizes
   and checksums before and after the refused open). *)
Theorem C20_wrong_comparator_refused : forall (Img : Type) (img : Img) edits requested e c,
  In e edits -> e_comparator e = Some c -> c <> requested ->
  open_with_comparator img edits requested = (OpenInvalid, img) /\ status_code OpenInvalid = 30004.
Proof.
  intros Img img edits requested e c Hin Hc Hne. split; [|reflexivity]. unfold open_with_comparator.
  destruct (edits_check edits requested) eqn:E; [|reflexivity].
  exfalso. apply Hne. exact (proj1 (edits_check_true edits requested) E e c Hin Hc).
Qed.
Print Assumptions C20_wrong_comparator_refused.

Theorem C20_right_comparator_accepted : forall (Img : Type) (img : Img) edits requested,
  (forall e c, In e edits -> e_comparator e = Some c -> c = requested) ->
  open_with_comparator img edits requested = (OpenOk, img).
Proof.
  intros Img img edits requested H. unfold open_with_comparator.
  rewrite (proj2 (edits_check_true edits requested) H). reflexivity.
Qed.
Print Assumptions C20_right_comparator_accepted.

Theorem C20_comparator_names_differ :
  open_check name_bytewise name_reverse = false /\ open_check name_reverse name_bytewise = false /\
  open_check name_bytewise name_bytewise = true /\ open_check name_reverse name_reverse = true.
Proof. vm_compute. repeat split. Qed.
Print Assumptions C20_comparator_names_differ.
