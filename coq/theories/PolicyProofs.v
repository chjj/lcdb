(* PolicyProofs.v -- lcdb's own compaction input selection (Policy.v: exact replicas of
   ldb_versions_compact_range, ldb_versions_pick_compaction, ldb_versions_setup_other_inputs,
   add_boundary_inputs, ldb_version_get_overlapping_inputs) always produces inputs that
   satisfy the INPUT-SIDE guards of the model's compaction step (Engine.compaction_guard),
   on every state satisfying the invariant.  Hence (EngineSteps files) every compaction lcdb
   can select preserves the invariant and all views. *)
From LCDB Require Import EngineSpec EngineStepsBase EngineStepsInv EngineStepsEdit EngineSteps
                         Policy PolicyBase PolicyOverlap PolicyBoundary.
From Coq Require Import Sorting.Sorted.
Local Open Scope N_scope.

Section PP.
Variable ucmp : bytes -> bytes -> comparison.
Context {TO : total_order ucmp}.

Notation SInv := (EngineStepsInv.SInv ucmp).
Notation FOK := (EngineStepsInv.FOK ucmp).
Notation FB := (EngineStepsInv.FB ucmp).
Notation Sep := (PolicyBoundary.Sep ucmp).
Notation Sel := (PolicyBoundary.Sel ucmp).

(* inputs[1]: the files of level L+1 that stay behind are apart from everything that moves;
   those before the overlapping run end before the user range of inputs[0], those after the
   boundary closure start above it *)
Theorem parent_inputs_ok fs1 in0 :
  Forall FOK fs1 -> StronglySorted FB fs1 -> Forall FOK in0 ->
  Sel fs1 (parent_inputs ucmp fs1 in0) (level_entries in0 ++ level_entries (parent_inputs ucmp fs1 in0)).
Proof.
  intros HF1 HS1 H0. destruct in0 as [|x r] eqn:E0; [apply Sel_nil|]. rewrite <- E0 in *. unfold parent_inputs.
  destruct (get_range_spec ucmp in0 H0) as (a & b & E & _); [rewrite E0; discriminate|]. rewrite E.
  pose proof (get_range_bounds ucmp in0 a b H0 E) as HB.
  rewrite (overlapping_inputs_false ucmp fs1 _ _ HF1).
  destruct (ovl_seg ucmp (Some (ek a)) (Some (ek b)) fs1 HF1 HS1) as (pre & post & Es & Hpre & Hpost).
  apply (boundary_sorted ucmp fs1 HF1 HS1 pre _ post); [exact Es| |]; intros g Hg.
  - apply (before_Before ucmp _ _ g _ (Hpre g Hg) HB).
  - apply (after_Above ucmp _ _ g _ (Hpost g Hg) HB).
Qed.

(* inputs[0]: the boundary closure of the seed X leaves only files behind that are apart
   from it *)
Definition Good (fs X : list file) : Prop :=
  Sel fs (boundary_inputs ucmp fs X) (level_entries (boundary_inputs ucmp fs X)).

Lemma good_lvl0 fs0 ub ue : Forall FOK fs0 -> Good fs0 (overlapping_inputs ucmp true fs0 ub ue).
Proof.
  intros HF. destruct (overlapping_inputs_lvl0 ucmp fs0 ub ue HF) as (ub' & ue' & _ & _ & E & Hw).
  unfold Good. rewrite E, (boundary_lvl0 ucmp fs0 ub' ue' HF Hw). apply (lvl0_Sel ucmp); assumption.
Qed.

Lemma setup_shape s L in0 expand :
  let fsL := level_files (levels s) L in
  exists i0, setup_other_inputs ucmp s L in0 expand = (i0, parent_inputs ucmp (level_files (levels s) (S L)) i0) /\
    (i0 = boundary_inputs ucmp fsL in0 \/
     exists a b, i0 = boundary_inputs ucmp fsL (overlapping_inputs ucmp (L =? 0)%nat fsL (Some a) (Some b))).
Proof.
  cbv zeta. unfold setup_other_inputs. cbv zeta.
  destruct (get_range ucmp _) as [[all_start all_limit]|]; [|eauto].
  destruct (negb _); [|eauto].
  destruct (_ && expand); [|eauto].
  destruct (_ =? _)%nat; eauto 6.
Qed.

Section WithState.
Variable s : state.
Hypothesis HI : SInv s.
Variable L : nat.

Let fsL := level_files (levels s) L.
Let fsL1 := level_files (levels s) (S L).

Lemma lvl_FOK i : Forall FOK (level_files (levels s) i).
Proof. apply Forall_forall. intros f Hf. eapply (si_fok ucmp s HI); eauto. Qed.

Lemma lvl_sorted i : (1 <= i)%nat -> StronglySorted FB (level_files (levels s) i).
Proof. apply (si_lsort ucmp s HI). Qed.

Lemma lvl_inj i f g :
  In f (level_files (levels s) i) -> In g (level_files (levels s) i) -> fnum f = fnum g -> f = g.
Proof. exact (NoDup_map_inj fnum _ f g (proj1 (si_nd ucmp s HI) i)). Qed.

(* a run of consecutive files of the level: the shape of a seed of inputs[0] on levels >= 1.
   What get_overlapping_inputs returns is good on every level, a run or not (good_ovl) *)
Definition Run (X : list file) : Prop := exists pre post, fsL = pre ++ X ++ post.

Lemma good_run X : (L =? 0)%nat = false -> Run X -> Good fsL X.
Proof.
  intros HL%Nat.eqb_neq (pre & post & E).
  apply (boundary_sorted ucmp fsL (lvl_FOK L) (lvl_sorted L ltac:(lia)) pre X post [] E); intros g _ m [].
Qed.

Lemma ovl_Run ub ue : (L =? 0)%nat = false -> Run (overlapping_inputs ucmp false fsL ub ue).
Proof.
  intros HL%Nat.eqb_neq. rewrite (overlapping_inputs_false ucmp fsL _ _ (lvl_FOK L)).
  destruct (ovl_seg ucmp ub ue fsL (lvl_FOK L) (lvl_sorted L ltac:(lia))) as (pre & post & E & _). exists pre, post. exact E.
Qed.

Lemma good_ovl ub ue : Good fsL (overlapping_inputs ucmp (L =? 0)%nat fsL ub ue).
Proof. destruct (L =? 0)%nat eqn:E0; [apply good_lvl0, lvl_FOK|apply good_run, ovl_Run; exact E0]. Qed.

(* the semantic content of the input-side guards *)
Record SelOK (i0 i1 : list file) : Prop := {
  so_0 : Sel fsL i0 (level_entries i0);
  so_1 : Sel fsL1 i1 (level_entries i0 ++ level_entries i1)
}.

(* setup_other_inputs keeps the closure of its seed, or replaces it by that of an overlap set *)
Lemma setup_SelOK in0 expand :
  Good fsL in0 ->
  SelOK (fst (setup_other_inputs ucmp s L in0 expand)) (snd (setup_other_inputs ucmp s L in0 expand)).
Proof.
  intros Hseed. destruct (setup_shape s L in0 expand) as (i0 & -> & E0). cbn [fst snd]. fold fsL fsL1. fold fsL in E0.
  assert (HG: Sel fsL i0 (level_entries i0)).
  { destruct E0 as [->|(a & b & ->)]; [exact Hseed|apply good_ovl]. }
  constructor; auto.
  apply parent_inputs_ok; auto; [apply lvl_FOK|apply lvl_sorted; lia|].
  apply (incl_Forall (proj1 HG)). apply (lvl_FOK L).
Qed.

Lemma manual_SelOK b e keep expand :
  SelOK (fst (manual_inputs ucmp s L b e keep expand)) (snd (manual_inputs ucmp s L b e keep expand)).
Proof.
  unfold manual_inputs. cbv zeta. fold fsL. pose proof (good_ovl b e) as HG.
  destruct (overlapping_inputs ucmp (L =? 0)%nat fsL b e) as [|x0 r] eqn:E; [split; apply Sel_nil|].
  rewrite <- E in *. apply setup_SelOK.
  destruct (L =? 0)%nat eqn:E0; [exact HG|]. apply (good_run _ E0).
  destruct (ovl_Run b e E0) as (pre & post & Es). exists pre, (skipn keep (overlapping_inputs ucmp false fsL b e) ++ post).
  rewrite (app_assoc (firstn keep _)), firstn_skipn. exact Es.
Qed.

Lemma picked_SelOK seed expand :
  SelOK (fst (picked_inputs ucmp s L seed expand)) (snd (picked_inputs ucmp s L seed expand)).
Proof.
  unfold picked_inputs. cbv zeta. fold fsL.
  destruct (find (fun f => fnum f =? seed) fsL) as [f|] eqn:E; [|split; apply Sel_nil].
  apply find_some in E. destruct E as [Hf _]. apply setup_SelOK.
  pose proof (fun a b => good_ovl (Some (ek a)) (Some (ek b))) as HG.
  destruct (L =? 0)%nat eqn:E0.
  - destruct (get_range ucmp [f]) as [[a b]|]; [apply HG|apply Sel_nil].
  - apply (good_run _ E0). apply in_split in Hf. exact Hf.
Qed.
Lemma has_num_map X f : has_num (map fnum X) f = true <-> exists x, In x X /\ fnum x = fnum f.
Proof.
  rewrite has_num_In, in_map_iff. split; intros (x & A & B); exists x; split; assumption.
Qed.

(* the engine selects by number: what it selects are files of X, what it leaves are not *)
Lemma sel_sub i X e : incl X (level_files (levels s) i) ->
  In e (level_entries (select_files (level_files (levels s) i) (map fnum X))) -> In e (level_entries X).
Proof.
  intros Hsub He. apply level_entries_In in He. destruct He as (f & Hf & He).
  apply level_entries_In. exists f. split; [|exact He].
  apply select_In in Hf. destruct Hf as (Hf & Hn). apply has_num_map in Hn. destruct Hn as (x & Hx & E).
  rewrite <- (lvl_inj i x f); auto.
Qed.

Lemma rem_out fs X g : In g (remove_files fs (map fnum X)) -> In g fs /\ ~ In g X.
Proof.
  intros H. apply EngineStepsEdit.remove_In in H. destruct H as (Hf & Hn). split; auto. intros HX.
  rewrite (proj2 (has_num_map X g)) in Hn; [discriminate|eauto].
Qed.

Lemma all_in_incl X fs : incl X fs -> all_in (map fnum X) fs = true.
Proof.
  intros H. unfold all_in. apply forallb_forall. intros n Hn. apply in_map_iff in Hn.
  destruct Hn as (x & <- & Hx). apply existsb_exists. exists x. split; auto. apply N.eqb_refl.
Qed.

Lemma Sep_disjoint (E : list entry) g : FOK g -> Sep g E -> file_disjoint_from ucmp E g = true.
Proof.
  intros Hg H. unfold file_disjoint_from. destruct E as [|m0 mr]; [reflexivity|].
  rewrite (FOK_sm ucmp g Hg), (FOK_lg ucmp g Hg). apply orb_true_iff.
  destruct H as [H|H]; [left; apply H; left; reflexivity|right; apply (ULt_ilt ucmp), H, last_In].
Qed.

(* the INPUT-SIDE conjuncts of Engine.compaction_guard *)
Definition input_guards (c : compaction) : Prop :=
  let lv := levels s in
  let i0 := fst (compaction_inputs s c) in
  let merged := compaction_merged ucmp s c in
  all_in (c_in0 c) (level_files lv (c_level c)) = true /\
  all_in (c_in1 c) (level_files lv (S (c_level c))) = true /\
  newer_outside ucmp (level_entries (remove_files (level_files lv (c_level c)) (c_in0 c))) (level_entries i0) = true /\
  forallb (file_disjoint_from ucmp merged) (remove_files (level_files lv (S (c_level c))) (c_in1 c)) = true /\
  newer_outside ucmp (level_entries (remove_files (level_files lv (S (c_level c))) (c_in1 c))) merged = true.

(* the three guards that compare what stays behind with the merged run M: all they need of
   M is that its entries are those of the selection *)
Lemma stay_guards i0 i1 M rest1 :
  SelOK i0 i1 ->
  (forall m, In m M -> In m (level_entries i0 ++ level_entries i1)) ->
  (forall g, In g rest1 -> In g fsL1 /\ ~ In g i1) ->
  newer_outside ucmp (level_entries (remove_files fsL (map fnum i0)))
                (level_entries (select_files fsL (map fnum i0))) = true /\
  forallb (file_disjoint_from ucmp M) rest1 = true /\
  newer_outside ucmp (level_entries rest1) M = true.
Proof.
  intros [[Hsub0 Hgood] [Hsub1 Hsides]] HM Hrest.
  assert (HS1: forall g, In g rest1 -> FOK g /\ Sep g M).
  { intros g Hg. destruct (Hrest g Hg) as [Hg1 Hng]. split; [eapply (si_fok ucmp s HI); eauto|].
    destruct (Hsides g Hg1 Hng) as [H|H]; [left|right]; intros m Hm; apply H, HM, Hm. }
  split; [|split].
  - apply (newer_outside_NO ucmp). intros o m Ho Hm Hk.
    apply level_entries_In in Ho. destruct Ho as (g & Hg & Ho).
    apply rem_out in Hg. destruct Hg as [Hg Hng].
    apply (Sep_NO ucmp g _ (si_fok ucmp s HI L g Hg) (Hgood g Hg Hng) o m); auto.
    apply (sel_sub L i0 m Hsub0 Hm).
  - apply forallb_forall. intros g Hg. apply Sep_disjoint; apply HS1; exact Hg.
  - apply (newer_outside_NO ucmp). intros o m Ho Hm Hk.
    apply level_entries_In in Ho. destruct Ho as (g & Hg & Ho). destruct (HS1 g Hg) as [Hok HS].
    apply (Sep_NO ucmp g M Hok HS o m); auto.
Qed.

Lemma SelOK_guards i0 i1 cuts outs nf :
  SelOK i0 i1 -> input_guards (to_compaction L (i0, i1) cuts outs nf).
Proof.
  intros HS. pose proof HS as [[Hsub0 _] [Hsub1 _]].
  unfold input_guards, compaction_merged, compaction_inputs, to_compaction.
  cbn [c_level c_in0 c_in1 fst snd]. fold fsL fsL1.
  split; [apply all_in_incl; exact Hsub0|]. split; [apply all_in_incl; exact Hsub1|].
  apply (stay_guards i0 i1 _ _ HS).
  - intros e He. apply (sort_entries_In ucmp), in_app_or in He. apply in_or_app.
    destruct He as [He|He]; [left; apply (sel_sub L)|right; apply (sel_sub (S L))]; assumption.
  - apply rem_out.
Qed.

(* trivial move: a single level-L file and no level-(L+1) input *)
Lemma SelOK_move f : (S L < NUM_LEVELS)%nat -> SelOK [f] [] ->
  move_guard ucmp s L (fnum f) = true /\ do_move ucmp s L (fnum f) <> None.
Proof.
  intros HL HS. pose proof HS as [[Hsub0 _] _].
  assert (Hm: move_guard ucmp s L (fnum f) = true); [|split; [exact Hm|unfold do_move; rewrite Hm; discriminate]].
  unfold move_guard. cbv zeta. fold fsL fsL1. change [fnum f] with (map fnum [f]).
  destruct (stay_guards [f] [] (level_entries (select_files fsL (map fnum [f]))) fsL1 HS) as (G3 & G4 & G5).
  - intros m Hm. apply in_or_app. left. apply (sel_sub L [f] m Hsub0 Hm).
  - intros g Hg. split; [exact Hg|intros []].
  - rewrite G3, G4, G5, (all_in_incl [f] fsL Hsub0), !andb_true_r. apply Nat.ltb_lt. exact HL.
Qed.

End WithState.

(* every selection lcdb's code can make, empty or not, is of this kind *)
Lemma selected_SelOK s L sel : inv_b ucmp s = true ->
  (exists b e keep expand, sel = manual_inputs ucmp s L b e keep expand) \/
  (exists seed expand, sel = picked_inputs ucmp s L seed expand) ->
  SelOK s L (fst sel) (snd sel).
Proof.
  intros HI%(inv_b_SInv ucmp) [(b & e & keep & expand & ->)|(seed & expand & ->)];
    [apply manual_SelOK|apply picked_SelOK]; exact HI.
Qed.

(* neither the level bound nor non-emptiness is needed on the input side: they are the step's
   remaining preconditions *)
Theorem policy_satisfies_guards s L :
  inv_b ucmp s = true -> (S L < NUM_LEVELS)%nat ->
  (forall b e keep expand cuts outs nf,
     fst (manual_inputs ucmp s L b e keep expand) <> [] ->
     input_guards s (to_compaction L (manual_inputs ucmp s L b e keep expand) cuts outs nf)) /\
  (forall seed expand cuts outs nf,
     fst (picked_inputs ucmp s L seed expand) <> [] ->
     input_guards s (to_compaction L (picked_inputs ucmp s L seed expand) cuts outs nf)).
Proof.
  intros HI _.
  assert (H: forall sel cuts outs nf, SelOK s L (fst sel) (snd sel) -> input_guards s (to_compaction L sel cuts outs nf)).
  { intros [i0 i1] cuts outs nf. apply SelOK_guards, (inv_b_SInv ucmp), HI. }
  split; intros; apply H, selected_SelOK; eauto 6.
Qed.

(* the OUTPUT-SIDE conjuncts of Engine.compaction_guard *)
Definition output_guards (s : state) (c : compaction) : bool :=
  forallb (fresh_num s) (c_outs c) && strictly_increasing (c_outs c)
  && forallb (fun n => n <? c_nf c) (c_outs c) && (next_file s <=? c_nf c)
  && forallb (fun n => (0 <? n)%nat) (c_cuts c).

(* compaction_guard = level bound, non-empty inputs[0], input side, output side *)
Lemma compaction_guard_split s c :
  (S (c_level c) < NUM_LEVELS)%nat -> c_in0 c <> [] -> input_guards s c -> output_guards s c = true ->
  compaction_guard ucmp s c = true.
Proof.
  intros HL Hne (G1 & G2 & G3 & G4 & G5) HO. unfold output_guards in HO.
  apply andb_prop in HO as [HO O5]. apply andb_prop in HO as [HO O4]. apply andb_prop in HO as [HO O3].
  apply andb_prop in HO as [O1 O2].
  unfold compaction_guard. cbv zeta.
  unfold compaction_merged in *. destruct (compaction_inputs s c) as [i0 i1] eqn:Ei.
  cbn [fst] in G3.
  repeat (apply andb_true_intro; split); try assumption.
  - apply Nat.ltb_lt, HL.
  - destruct (c_in0 c); [congruence|reflexivity].
Qed.

Lemma zip_files_some nums runs : length nums = length runs -> zip_files nums runs <> None.
Proof.
  revert runs. induction nums as [|n ns IH]; intros [|r rs] H; cbn [length] in H; try lia; cbn [zip_files].
  - discriminate.
  - specialize (IH rs ltac:(lia)). destruct (zip_files ns rs); [discriminate|congruence].
Qed.

(* with fresh, increasing output numbers, positive cuts and as many output numbers as output
   runs, a non-empty selection is an enabled compaction step of the model *)
Theorem SelOK_compact s L i0 i1 cuts outs nf :
  inv_b ucmp s = true -> (S L < NUM_LEVELS)%nat -> SelOK s L i0 i1 -> i0 <> [] ->
  let c := to_compaction L (i0, i1) cuts outs nf in
  output_guards s c = true ->
  length outs = length (split_at cuts (compaction_kept ucmp s c)) ->
  compaction_guard ucmp s c = true /\ do_compact ucmp s c <> None.
Proof.
  intros HI HL HS Hne c HO Hlen.
  assert (Hg: compaction_guard ucmp s c = true).
  { apply compaction_guard_split; auto; [|apply SelOK_guards, HS; apply (inv_b_SInv ucmp), HI].
    cbn [c to_compaction c_in0 fst]. destruct i0; [congruence|discriminate]. }
  split; auto. unfold do_compact. rewrite Hg.
  change (c_outs c) with outs. change (c_cuts c) with cuts.
  pose proof (zip_files_some outs _ Hlen) as Hz.
  destruct (zip_files outs (split_at cuts (compaction_kept ucmp s c))); [discriminate|congruence].
Qed.

(* an enabled structural step keeps the invariant and every readable view *)
Lemma enabled_step_correct s o :
  inv_b ucmp s = true -> structural o -> views_side s o -> step ucmp s o <> None ->
  exists s', step ucmp s o = Some s' /\ inv_b ucmp s' = true /\
             forall k q, readable s q -> view ucmp s' k q = view ucmp s k q.
Proof.
  intros HI Hst Hvs Hd. destruct (step ucmp s o) as [s'|] eqn:E; [|congruence].
  exists s'. split; auto. split.
  - apply (step_preserves_inv ucmp TO s o s'); auto.
  - apply (step_preserves_views_sharp ucmp TO s o s'); auto.
Qed.

(* end to end for the trivial move: a selection of one level-L file and no level-(L+1) input is a
   step of the model that keeps the invariant and every readable view (of
   ldb_compaction_is_trivial_move only this shape is used; its grandparent test plays no part) *)
Theorem policy_move_correct s L :
  inv_b ucmp s = true -> (S L < NUM_LEVELS)%nat ->
  forall sel, (exists b e keep expand, sel = manual_inputs ucmp s L b e keep expand) \/
              (exists seed expand, sel = picked_inputs ucmp s L seed expand) ->
  forall f gp, sel = ([f], []) -> is_trivial_move sel gp = true ->
  exists s', step ucmp s (OMove L (fnum f)) = Some s' /\ inv_b ucmp s' = true /\
             forall k q, readable s q -> view ucmp s' k q = view ucmp s k q.
Proof.
  intros HI HL sel Hsel f gp E _. pose proof (selected_SelOK s L sel HI Hsel) as HS. rewrite E in HS.
  apply enabled_step_correct; cbn; auto.
  apply (SelOK_move s (proj1 (inv_b_SInv ucmp s) HI) L f HL HS).
Qed.

End PP.
