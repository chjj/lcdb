(* PolicyBoundary.v -- what get_range, find_smallest_boundary_file and
   add_boundary_inputs (Policy.v) compute, in the terms the compaction guards need: a file
   that stays behind is apart ([Sep]) from the entries that move.
   - a sorted level (levels >= 1) is read as pre ++ R ++ post with R the selection, a run of
     consecutive files; there find_smallest_boundary_file is [find (cand key)] ([fsbf_find]),
     and add_boundary_inputs moves files from the head of post to the end of R until post
     starts with a user key above R's last ([boundary_seg]), so that the extended run is a
     selection in the sense of [Sel] ([boundary_sorted]); the files overlapping a user range
     are such a run ([PolicyOverlap.ovl_seg]);
   - on level 0, applied to an overlap-closed selection, it adds nothing. *)
From LCDB Require Import EngineSpec EngineStepsBase EngineStepsInv EngineStepsFlush Policy PolicyBase.
From Coq Require Import Sorting.Sorted.
Local Open Scope N_scope.

Section PBd.
Variable ucmp : bytes -> bytes -> comparison.
Context {TO : total_order ucmp}.

Notation ueq := (Engine.ueq ucmp).
Notation ilt := (Engine.ilt ucmp).
Notation NO := (EngineStepsBase.NO ucmp).
Notation FOK := (EngineStepsInv.FOK ucmp).
Notation FB := (EngineStepsInv.FB ucmp).
Notation ovl := (PolicyBase.ovl ucmp).
Notation within := (PolicyBase.within ucmp).
Notation ble := (PolicyBase.ble ucmp).
Notation ele := (PolicyBase.ele ucmp).

Definition ULe (a b : bytes) : Prop := ucmp a b <> Gt.
Definition ULt (a b : bytes) : Prop := ucmp a b = Lt.

Lemma ULe_refl a : ULe a a.
Proof. unfold ULe. rewrite (cmp_refl TO). discriminate. Qed.

Lemma ULe_trans a b c : ULe a b -> ULe b c -> ULe a c.
Proof. apply (cmp_le_trans TO). Qed.
Lemma ULe_ULt a b c : ULe a b -> ULt b c -> ULt a c.
Proof. apply (cmp_le_lt TO). Qed.
Lemma ULt_ULe a b c : ULt a b -> ULe b c -> ULt a c.
Proof. apply (cmp_lt_le TO). Qed.

Lemma ULt_ULe_absurd a b : ULt a b -> ULe b a -> False.
Proof. intros H1 H2. apply H2, (cmp_gt_lt TO), H1. Qed.

Lemma ULt_le a b : ULt a b -> ULe a b.
Proof. unfold ULt, ULe. congruence. Qed.

Lemma ueq_ULe a b : ueq a b = true -> ULe a b /\ ULe b a.
Proof.
  intros H. apply (ueq_iff ucmp) in H. unfold ULe. rewrite H, ((cmp_eq_sym TO) a b H).
  split; discriminate.
Qed.

Lemma ULt_ilt a b : ULt (ek a) (ek b) -> ilt a b = true.
Proof. intros H. apply (ilt_iff ucmp). left; auto. Qed.

Lemma ULe_neq_ULt a b : ULe a b -> ueq a b = false -> ULt a b.
Proof.
  unfold ULe, ULt, Engine.ueq. intros H1 H2. destruct (ucmp a b); congruence.
Qed.

Lemma ents_ULe f x : FOK f -> In x (fents f) -> ULe (ek (sm f)) (ek x) /\ ULe (ek x) (ek (lg f)).
Proof. intros H Hx. split. apply (sm_umin ucmp); auto. apply (lg_umax ucmp); auto. Qed.

Lemma range_from_spec fs : Forall FOK fs -> forall small large a b,
  range_from ucmp small large fs = (a, b) ->
  (b = large \/ exists f, In f fs /\ b = lg f) /\
  ilt small a = false /\ ilt b large = false /\
  (forall f, In f fs -> ilt (sm f) a = false /\ ilt b (lg f) = false).
Proof.
  induction 1 as [|f r Hf Hr IH]; intros small large a b E.
  - cbn [range_from] in E. injection E as <- <-.
    split; [|split; [|split]]; auto; try apply (ilt_irrefl ucmp). intros g [].
  - cbn [range_from] in E. rewrite (FOK_sm ucmp f Hf), (FOK_lg ucmp f Hf), (igt_ilt ucmp) in E.
    apply IH in E. destruct E as (Eb & Hs & Hl & Hall).
    split; [|split; [|split]].
    + destruct Eb as [->|(g & Hg & ->)]; [|right; exists g; split; auto; right; auto].
      destruct (ilt large (lg f)); [right; exists f; split; auto; left; auto|left; auto].
    + destruct (ilt (sm f) small) eqn:E1; auto.
      apply (ilt_asym ucmp). eapply (ile_lt_trans ucmp); eauto.
    + destruct (ilt large (lg f)) eqn:E2; auto.
      apply (ilt_asym ucmp). eapply (ilt_le_trans ucmp); eauto.
    + intros g [<-|Hg]; [|apply Hall; auto]. split.
      * destruct (ilt (sm f) small) eqn:E1; auto. eapply (ile_trans ucmp); eauto.
      * destruct (ilt large (lg f)) eqn:E2; auto. eapply (ile_trans ucmp); eauto.
Qed.

(* key is the largest key of the files R *)
Definition Key (R : list file) (key : entry) : Prop :=
  (exists fl, In fl R /\ key = lg fl) /\ forall f, In f R -> ilt key (lg f) = false.

Lemma get_range_spec fs : Forall FOK fs -> fs <> [] ->
  exists a key, get_range ucmp fs = Some (a, key) /\ Key fs key /\
    forall f, In f fs -> ilt (sm f) a = false.
Proof.
  intros HF Hne. destruct fs as [|f r]; [congruence|]. inversion HF as [|? ? Hf Hr]; subst.
  cbn [get_range]. rewrite (FOK_sm ucmp f Hf), (FOK_lg ucmp f Hf).
  destruct (range_from ucmp (sm f) (lg f) r) as [a b] eqn:E.
  apply (range_from_spec r Hr) in E. destruct E as (Eb & Hs & Hl & Hall).
  exists a, b. split; auto. split; [split|].
  - destruct Eb as [->|(g & Hg & ->)]; [exists f|exists g]; split; auto; [left|right]; auto.
  - intros g [<-|Hg]; [exact Hl|apply Hall, Hg].
  - intros g [<-|Hg]; [exact Hs|apply Hall, Hg].
Qed.

(* the user keys of M lie within the optional bounds *)
Definition Bounded (ub ue : option bytes) (M : list entry) : Prop :=
  forall m, In m M -> ble ub (ek m) /\ ele (ek m) ue.

Lemma get_range_bounds fs a b : Forall FOK fs -> get_range ucmp fs = Some (a, b) ->
  Bounded (Some (ek a)) (Some (ek b)) (level_entries fs).
Proof.
  intros HF E x Hx. apply level_entries_In in Hx. destruct Hx as (f & Hf & Hx).
  assert (Hne: fs <> []) by (intros ->; destruct Hf).
  destruct (get_range_spec fs HF Hne) as (a' & b' & E' & [_ Hmax] & Hmin).
  rewrite E in E'. injection E' as <- <-.
  assert (Hok: FOK f) by (rewrite Forall_forall in HF; auto).
  destruct (ents_ULe f x Hok Hx) as [H3 H4]. split; cbn [PolicyBase.ble PolicyBase.ele].
  - eapply ULe_trans; [|exact H3]. apply (ile_ukey ucmp); auto.
  - eapply ULe_trans; [exact H4|]. apply (ile_ukey ucmp); auto.
Qed.

(* f may follow key as a boundary file: it starts after key, with key's user key *)
Definition cand (key : entry) (f : file) : bool := ilt key (sm f) && ueq (ek (sm f)) (ek key).

(* one step of the scan: a candidate replaces what is in hand if it starts before it *)
Lemma fsbf_cons res key f r : FOK f -> (forall g, res = Some g -> FOK g) ->
  fsbf_from ucmp res key (f :: r) =
  fsbf_from ucmp (if cand key f
                  then match res with
                       | Some g => if ilt (sm f) (sm g) then Some f else res
                       | None => Some f
                       end
                  else res) key r.
Proof.
  intros Hf Hres. cbn [fsbf_from]. rewrite (FOK_sm ucmp f Hf), (igt_ilt ucmp). unfold cand.
  destruct (ilt key (sm f)); cbn [andb]; [|reflexivity].
  destruct (ueq (ek (sm f)) (ek key)); [|reflexivity].
  destruct res as [g|]; [|reflexivity]. rewrite (FOK_sm ucmp g (Hres g eq_refl)). destruct (ilt (sm f) (sm g)); reflexivity.
Qed.

(* b stays in hand while no later file starts before it *)
Lemma fsbf_keep key b l : FOK b -> Forall FOK l -> (forall f, In f l -> ilt (sm f) (sm b) = false) ->
  fsbf_from ucmp (Some b) key l = Some b.
Proof.
  intros Hb. induction 1 as [|f r Hf Hr IH]; intros Hge; [reflexivity|].
  rewrite (fsbf_cons (Some b) key f r Hf) by (intros g [= <-]; exact Hb).
  rewrite (Hge f (or_introl eq_refl)). destruct (cand key f); apply IH; intros g Hg; apply Hge; right; exact Hg.
Qed.

(* on a sorted level the first candidate is the one with the smallest start *)
Lemma fsbf_find key fs : Forall FOK fs -> StronglySorted FB fs ->
  find_smallest_boundary_file ucmp fs key = find (cand key) fs.
Proof.
  unfold find_smallest_boundary_file. intros HF HS. induction HS as [|f r Hr IH Hfr]; [reflexivity|].
  inversion HF as [|? ? Hf HFr]; subst. rewrite (fsbf_cons None key f r Hf) by discriminate. cbn [find].
  destruct (cand key f); [|apply IH, HFr].
  apply (fsbf_keep key f r Hf HFr). intros g Hg. rewrite Forall_forall in Hfr, HFr.
  apply (ilt_asym ucmp), (FB_sm_lt ucmp); auto.
Qed.

(* on any level, sorted or not (level 0; the fuel bound): what is found is a candidate of the level *)
Lemma fsbf_from_In key fs : Forall FOK fs -> forall res b, (forall g, res = Some g -> FOK g) ->
  fsbf_from ucmp res key fs = Some b -> res = Some b \/ (In b fs /\ cand key b = true).
Proof.
  induction 1 as [|f r Hf Hr IH]; intros res b Hres E; [left; exact E|].
  rewrite (fsbf_cons res key f r Hf Hres) in E. apply IH in E.
  - destruct E as [E|[E1 E2]]; [|right; split; [right|]; assumption].
    destruct (cand key f) eqn:Ec; [|left; exact E].
    destruct res as [g|]; [destruct (ilt (sm f) (sm g))|]; try (left; exact E);
      injection E as <-; right; (split; [left; reflexivity|exact Ec]).
  - intros g. destruct (cand key f); [|apply Hres].
    destruct res as [g'|]; [destruct (ilt (sm f) (sm g')); [|apply Hres]|]; intros [= <-]; exact Hf.
Qed.

Lemma fsbf_Some fs key b : Forall FOK fs -> find_smallest_boundary_file ucmp fs key = Some b ->
  In b fs /\ cand key b = true.
Proof.
  intros HF E. apply (fsbf_from_In key fs HF None b) in E; [|discriminate]. destruct E as [[=]|E]; exact E.
Qed.

(* termination measure of boundary_loop: the files that start after the key.  A found boundary
   file is one of them and becomes the key holder; it does not start after its own largest key *)
Definition cnt (key : entry) (fs : list file) : nat := length (filter (fun f => ilt key (sm f)) fs).

Lemma cnt_step fs key b : Forall FOK fs -> find_smallest_boundary_file ucmp fs key = Some b ->
  flargest b = Some (lg b) /\ (cnt (lg b) fs < cnt key fs)%nat.
Proof.
  intros HF E. destruct (fsbf_Some fs key b HF E) as (Hb & Hcb).
  assert (Hok: FOK b) by (rewrite Forall_forall in HF; auto).
  split; [apply (FOK_lg ucmp b Hok)|].
  unfold cand in Hcb. apply andb_true_iff in Hcb. destruct Hcb as [Hcb _].
  unfold cnt. apply (flen_strict _ _ fs b); auto.
  - intros x Hx H. eapply (ilt_trans ucmp); [exact Hcb|].
    eapply (ile_lt_trans ucmp); [|exact H]. apply (sm_le_lg ucmp); auto.
  - apply (sm_le_lg ucmp); auto.
Qed.

Lemma boundary_loop_more fs : Forall FOK fs -> forall fuel key k,
  (cnt key fs < fuel)%nat -> boundary_loop ucmp (fuel + k) fs key = boundary_loop ucmp fuel fs key.
Proof.
  intros HF. induction fuel as [|n IH]; intros key k Hc; [lia|].
  cbn [Nat.add boundary_loop]. destruct (find_smallest_boundary_file ucmp fs key) as [b|] eqn:E; [|reflexivity].
  destruct (cnt_step fs key b HF E) as [-> Hdec]. f_equal. apply IH. lia.
Qed.

(* more fuel than |level_files| + 1 never changes the result of add_boundary_inputs *)
Theorem boundary_loop_fuel fs key k : Forall FOK fs ->
  boundary_loop ucmp (S (length fs) + k) fs key = boundary_loop ucmp (S (length fs)) fs key.
Proof.
  intros HF. apply boundary_loop_more; [exact HF|].
  pose proof (filter_length_le (fun f => ilt key (sm f)) fs). unfold cnt. lia.
Qed.

(* how a file g that stays behind lies relative to the entries M that move: it ends before
   every entry of M (internal order), or it starts with a user key above all of M's.
   A file left before M may share a user key with it, and its entries are then the newer
   ones; one left after M would hold the older ones, so there the user order is strict *)
Definition Before (g : file) (M : list entry) : Prop := forall m, In m M -> ilt (lg g) m = true.
Definition Above (g : file) (M : list entry) : Prop := forall m, In m M -> ULt (ek m) (ek (sm g)).
Definition Sep (g : file) (M : list entry) : Prop := Before g M \/ Above g M.

(* what stays behind in g is newer than M on every common user key *)
Lemma Sep_NO g M : FOK g -> Sep g M -> NO (fents g) M.
Proof.
  intros Hg [H|H] o m Ho Hm Hk.
  - apply (ilt_ueq_seq ucmp); [|exact Hk].
    eapply (ile_lt_trans ucmp); [apply (lg_max ucmp g o Hg Ho)|apply H; exact Hm].
  - exfalso. apply ueq_ULe in Hk. apply (ULt_ULe_absurd _ _ (H m Hm)).
    eapply ULe_trans; [apply (ents_ULe g o Hg Ho)|apply Hk].
Qed.

(* R is selected from the level fs, M moves: every other file of the level is apart from M *)
Definition Sel (fs R : list file) (M : list entry) : Prop :=
  incl R fs /\ forall g, In g fs -> ~ In g R -> Sep g M.

Lemma Sel_nil fs : Sel fs [] [].
Proof. split; [intros g []|]. intros g _ _. left. intros m []. Qed.

Lemma before_Before ub ue g M : before_begin ucmp ub (ek (lg g)) = true -> Bounded ub ue M -> Before g M.
Proof.
  intros Hb HM m Hm. apply (before_begin_true ucmp) in Hb. destruct Hb as (u & -> & Hb).
  apply ULt_ilt. eapply ULt_ULe; [exact Hb|apply (HM m Hm)].
Qed.

Lemma after_Above ub ue g M : after_end ucmp ue (ek (sm g)) = true -> Bounded ub ue M -> Above g M.
Proof.
  intros He HM m Hm. apply (after_end_true ucmp) in He. destruct He as (u & -> & He).
  eapply ULe_ULt; [apply (HM m Hm)|exact He].
Qed.

Lemma within_Bounded ub ue R : Forall FOK R -> (forall f, In f R -> within ub ue f = true) ->
  Bounded ub ue (level_entries R).
Proof.
  intros HF Hw m Hm. apply level_entries_In in Hm. destruct Hm as (f & Hf & Hm).
  rewrite Forall_forall in HF. destruct (ents_ULe f m (HF f Hf) Hm) as [H1 H2].
  apply Hw, (within_iff ucmp) in Hf. destruct Hf as [W1 W2].
  split; [apply (ble_trans ucmp _ _ _ W1 H1)|apply (ele_trans ucmp _ _ _ H2 W2)].
Qed.

Section Sorted.
Variable fs : list file.
Hypothesis HF : Forall FOK fs.
Hypothesis HS : StronglySorted FB fs.

Lemma fs_FOK f : In f fs -> FOK f.
Proof. rewrite Forall_forall in HF. auto. Qed.

(* the level cut in two: the files of the first part lie before those of the second *)
Lemma cut_FB l1 l2 f g : fs = l1 ++ l2 -> In f l1 -> In g l2 -> FOK f /\ FOK g /\ FB f g.
Proof.
  intros E Hf Hg. pose proof HS as H. rewrite E in H. apply SS_FOP, FOP_app in H.
  split; [|split; [|apply H; assumption]]; apply fs_FOK; rewrite E; auto with datatypes.
Qed.

(* in pre ++ R nothing starts after key; post starts after key: the first candidate can only
   be the head of post, and if that is none post starts above key's user key *)
Lemma fsbf_seg pre R post key : fs = pre ++ R ++ post -> Key R key ->
  match post with
  | [] => find_smallest_boundary_file ucmp fs key = None
  | b :: _ =>
      if cand key b then find_smallest_boundary_file ucmp fs key = Some b
      else find_smallest_boundary_file ucmp fs key = None /\
           forall g, In g post -> ULt (ek key) (ek (sm g))
  end.
Proof.
  intros E [(fl & Hfl & ->) Hmax]. rewrite (fsbf_find _ fs HF HS).
  assert (Hlow: forall f, In f (pre ++ R) -> cand (lg fl) f = false).
  { intros f Hf. unfold cand. replace (ilt (lg fl) (sm f)) with false; [reflexivity|symmetry].
    apply in_app_or in Hf. destruct Hf as [Hf|Hf].
    - destruct (cut_FB pre (R ++ post) f fl E Hf) as (Hokf & Hokfl & H); [auto with datatypes|].
      apply (ilt_asym ucmp). apply H; [apply (sm_In ucmp)|apply (lg_In ucmp)]; assumption.
    - eapply (ile_trans ucmp); [apply (sm_le_lg ucmp), fs_FOK; rewrite E; auto with datatypes|apply Hmax, Hf]. }
  rewrite app_assoc in E. rewrite E, (find_app_none _ _ _ Hlow).
  destruct post as [|b post']; [reflexivity|]. cbn [find].
  destruct (cand (lg fl) b) eqn:Ec; [reflexivity|].
  destruct (cut_FB (pre ++ R) (b :: post') fl b E) as (Hokfl & Hokb & Hfb); auto with datatypes.
  apply (FB_sm_lg ucmp) in Hfb; auto. unfold cand in Ec. rewrite Hfb in Ec. cbn [andb] in Ec.
  assert (Hgap: forall g, In g (b :: post') -> ULt (ek (lg fl)) (ek (sm g))).
  { intros g Hg. eapply ULt_ULe.
    - apply ULe_neq_ULt; [apply (ilt_ukey ucmp), Hfb|].
      destruct (ueq (ek (lg fl)) (ek (sm b))) eqn:E'; [apply (ueq_sym ucmp) in E'; congruence|reflexivity].
    - destruct Hg as [<-|Hg]; [apply ULe_refl|]. apply (ilt_ukey ucmp).
      destruct (cut_FB ((pre ++ R) ++ [b]) post' b g) as (_ & Hokg & H); auto with datatypes.
      + rewrite E, <- !app_assoc. reflexivity.
      + apply (FB_sm_lt ucmp); assumption. }
  split; [|exact Hgap]. apply find_none_iff. intros g Hg. unfold cand.
  destruct (ueq (ek (sm g)) (ek (lg fl))) eqn:E'; [|apply andb_false_r].
  apply ueq_ULe in E'. destruct (ULt_ULe_absurd _ _ (Hgap g (or_intror Hg)) (proj1 E')).
Qed.

Lemma boundary_seg pre : forall fuel R post key, (length post < fuel)%nat ->
  fs = pre ++ R ++ post -> Key R key ->
  exists ext post', post = ext ++ post' /\ boundary_loop ucmp fuel fs key = ext /\
    forall g, In g post' -> Above g (level_entries (R ++ ext)).
Proof.
  induction fuel as [|n IH]; intros R post key Hlen E HK; [inversion Hlen|].
  cbn [boundary_loop]. pose proof (fsbf_seg pre R post key E HK) as Hs.
  destruct post as [|b post']; [rewrite Hs; exists [], []; repeat split; intros g []|].
  assert (HRb: forall f, In f R -> FOK f /\ FOK b /\ FB f b).
  { intros f Hf. rewrite app_assoc in E. apply (cut_FB (pre ++ R) (b :: post') f b E); auto with datatypes. }
  destruct (cand key b) eqn:Ec.
  - destruct HK as [(fl & Hfl & _) _]. rewrite Hs, (FOK_lg ucmp b (proj1 (proj2 (HRb fl Hfl)))).
    destruct (IH (R ++ [b]) post' (lg b)) as (ext & post'' & -> & E2 & Hab).
    + cbn [length] in Hlen. apply Nat.succ_lt_mono. exact Hlen.
    + rewrite E, <- app_assoc. reflexivity.
    + split; [exists b; auto with datatypes|].
      intros f Hf. apply in_app_or in Hf. destruct Hf as [Hf|[<-|[]]]; [|apply (ilt_irrefl ucmp)].
      apply (ilt_asym ucmp). apply (FB_lg_lt ucmp); apply (HRb f Hf).
    + exists (b :: ext), post''. rewrite E2. rewrite <- app_assoc in Hab. auto.
  - (* post starts with a user key above key, which is above all of R *)
    destruct Hs as [-> Hgap]. exists [], (b :: post'). rewrite app_nil_r. split; [reflexivity|]. split; [reflexivity|].
    intros g Hg m Hm. apply level_entries_In in Hm. destruct Hm as (f & Hf & Hm).
    eapply ULe_ULt; [apply (ents_ULe f m (proj1 (HRb f Hf)) Hm)|].
    eapply ULe_ULt; [apply (ile_ukey ucmp), HK, Hf|apply Hgap, Hg].
Qed.

Lemma seg_Sel pre R post E0 : fs = pre ++ R ++ post ->
  (forall g, In g pre -> Before g E0) ->
  (forall g, In g post -> Above g E0 /\ Above g (level_entries R)) ->
  Sel fs R (E0 ++ level_entries R).
Proof.
  intros E Hpre Hpost. split; [intros f Hf; rewrite E; auto with datatypes|].
  intros g Hg Hng. rewrite E in Hg. apply in_app_or in Hg.
  destruct Hg as [Hg|Hg]; [left|apply in_app_or in Hg; destruct Hg as [Hg|Hg]; [contradiction|right]];
    intros m Hm; apply in_app_or in Hm; destruct Hm as [Hm|Hm].
  - apply (Hpre g Hg m Hm).
  - apply level_entries_In in Hm. destruct Hm as (f & Hf & Hm).
    destruct (cut_FB pre (R ++ post) g f E Hg) as (Hokg & _ & H); [auto with datatypes|].
    apply H; [apply (lg_In ucmp), Hokg|exact Hm].
  - apply (proj1 (Hpost g Hg) m Hm).
  - apply (proj2 (Hpost g Hg) m Hm).
Qed.

(* E0: the entries that move with the run (those of the level above) *)
Theorem boundary_sorted pre X post E0 : fs = pre ++ X ++ post ->
  (forall g, In g pre -> Before g E0) -> (forall g, In g post -> Above g E0) ->
  Sel fs (boundary_inputs ucmp fs X) (E0 ++ level_entries (boundary_inputs ucmp fs X)).
Proof.
  intros E Hpre Hpost.
  assert (H: exists ext post', post = ext ++ post' /\ boundary_inputs ucmp fs X = X ++ ext /\
               forall g, In g post' -> Above g (level_entries (X ++ ext))).
  { destruct X as [|x0 X'] eqn:EX; [exists [], post; repeat split; intros g _ m []|]. rewrite <- EX in *.
    assert (HFX: Forall FOK X).
    { apply Forall_forall. intros f Hf. apply fs_FOK. rewrite E. auto with datatypes. }
    destruct (get_range_spec X HFX) as (a & key & Er & HK & _); [rewrite EX; discriminate|].
    unfold boundary_inputs, find_largest_key. rewrite Er.
    destruct (boundary_seg pre (S (length fs)) X post key) as (ext & post' & E1 & E2 & Hab); auto.
    - rewrite E, !app_length. lia.
    - exists ext, post'. rewrite E2. auto. }
  destruct H as (ext & post' & -> & -> & Hab).
  apply (seg_Sel pre (X ++ ext) post'); [rewrite E, <- app_assoc; reflexivity|exact Hpre|].
  intros g Hg. split; [apply Hpost; apply in_or_app; right; exact Hg|apply Hab; exact Hg].
Qed.

Lemma boundary_nil : boundary_inputs ucmp fs [] = [].
Proof. reflexivity. Qed.

End Sorted.

(* level 0: on an overlap-closed selection add_boundary_inputs finds nothing *)
Theorem boundary_lvl0 fs ub ue : Forall FOK fs ->
  (forall f, In f fs -> ovl ub ue f = true -> within ub ue f = true) ->
  boundary_inputs ucmp fs (filter (ovl ub ue) fs) = filter (ovl ub ue) fs.
Proof.
  intros HF Hw. set (X := filter (ovl ub ue) fs).
  destruct X as [|x0 X'] eqn:EX. reflexivity. rewrite <- EX.
  assert (HFX: Forall FOK X) by (apply (incl_Forall (incl_filter _ fs) HF)).
  unfold boundary_inputs, find_largest_key.
  destruct (get_range_spec X HFX) as (a & key & E & [(fl & Hfl & ->) Hmax] & _); [rewrite EX; discriminate|].
  rewrite E. cbn [boundary_loop].
  destruct (find_smallest_boundary_file ucmp fs (lg fl)) as [c|] eqn:Ec; [|apply app_nil_r].
  exfalso. destruct (fsbf_Some fs (lg fl) c HF Ec) as (Hc & Hcc).
  unfold cand in Hcc. apply andb_true_iff in Hcc. destruct Hcc as [Hc1 Hc2].
  rewrite Forall_forall in HF, HFX.
  apply filter_In in Hfl. destruct Hfl as [Hfl Ofl].
  pose proof (Hw fl Hfl Ofl) as Wfl. apply (within_iff ucmp) in Wfl. destruct Wfl as [W1 W2].
  apply ueq_ULe in Hc2. destruct Hc2 as [Hc2 Hc2'].
  (* c overlaps the range: sm fl <= lg fl <= sm c <= lg c, and sm c <= lg fl *)
  assert (HcX: In c X).
  { apply filter_In. split; [exact Hc|]. apply (ovl_iff ucmp). split.
    - apply (ble_trans ucmp _ (ek (sm fl))); [exact W1|].
      eapply ULe_trans. apply (sm_lg_user ucmp); auto.
      eapply ULe_trans. exact Hc2'. apply (sm_lg_user ucmp); auto.
    - apply (ele_trans ucmp _ (ek (lg fl))); assumption. }
  (* so it does not end after lg fl, yet starts after it *)
  specialize (Hmax c HcX). rewrite (ilt_le_trans ucmp _ _ _ Hc1 (sm_le_lg ucmp c (HF c Hc))) in Hmax. discriminate.
Qed.

Lemma lvl0_Sel fs ub ue : Forall FOK fs ->
  (forall f, In f fs -> ovl ub ue f = true -> within ub ue f = true) ->
  Sel fs (filter (ovl ub ue) fs) (level_entries (filter (ovl ub ue) fs)).
Proof.
  intros HF Hw. split; [apply incl_filter|]. intros g Hg Hng.
  assert (HB: Bounded ub ue (level_entries (filter (ovl ub ue) fs))).
  { apply within_Bounded; [apply (incl_Forall (incl_filter _ fs) HF)|].
    intros f Hf. apply filter_In in Hf. apply Hw; apply Hf. }
  destruct (ovl ub ue g) eqn:Og; [exfalso; apply Hng, filter_In; auto|].
  apply (ovl_false ucmp) in Og. destruct Og as [Og|Og]; [left|right].
  - apply (before_Before ub ue); assumption.
  - apply (after_Above ub ue); assumption.
Qed.

End PBd.
