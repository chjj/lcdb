(* EngineStepsEdit.v -- the common shape of compaction and trivial move (files leave
   level L and level L+1, new files enter level L+1: edit_state, edit_SInv), what
   compact_entries keeps of a sorted run (CE_spec), then OCompact and OMove themselves:
   invariant and views. *)
From LCDB Require Import Base Engine EngineSpec EngineStepsBase EngineStepsInv EngineStepsBasic.
From Coq Require Import Sorting.Sorted.
Require Import Lia.
Local Open Scope N_scope.

Definition edit_state (s : state) (L : nat) (r0 new1 : list file) (nf : N) : state :=
  mkS (mem s) (imm s) (set_level (set_level (levels s) L r0) (S L) new1)
      (last_seq s) (snaps s) nf (hist s).

Section Edit.
Variable ucmp : bytes -> bytes -> comparison.
Context {TO : total_order ucmp}.

Notation NO := (EngineStepsBase.NO ucmp).
Notation SInv := (EngineStepsInv.SInv ucmp).
Notation FOK := (EngineStepsInv.FOK ucmp).
Notation FB := (EngineStepsInv.FB ucmp).
Notation FC := (EngineStepsInv.FC ucmp).

Lemma has_num_In nums f : has_num nums f = true <-> In (fnum f) nums.
Proof. exact (existsb_eqb_In N.eqb N.eqb_eq (fnum f) nums). Qed.

Lemma has_num_single n f : has_num [n] f = true <-> fnum f = n.
Proof. unfold has_num. cbn [existsb]. rewrite orb_false_r. apply N.eqb_eq. Qed.

Lemma select_In fs nums f : In f (select_files fs nums) <-> In f fs /\ has_num nums f = true.
Proof. unfold select_files. apply filter_In. Qed.

Lemma remove_In fs nums f : In f (remove_files fs nums) <-> In f fs /\ has_num nums f = false.
Proof. unfold remove_files. rewrite filter_In, negb_true_iff. tauto. Qed.

Lemma remove_files_nil fs : remove_files fs [] = fs.
Proof. apply filter_true. reflexivity. Qed.

Section WithEdit.
Variables (s : state) (L : nat) (in0 in1 : list N) (outs : list file) (nf : N).
Hypothesis HI : SInv s.
Hypothesis HL : (S L < NUM_LEVELS)%nat.

Let lv := levels s.
Let p0 := fun f => negb (has_num in0 f).
Let p1 := fun f => negb (has_num in1 f).
Let r0 := remove_files (level_files lv L) in0.
Let r1 := remove_files (level_files lv (S L)) in1.
Let i0 := select_files (level_files lv L) in0.
Let i1 := select_files (level_files lv (S L)) in1.
Let s' := edit_state s L r0 (add_files ucmp r1 outs) nf.

(* the files of s': those of s that are not inputs, and the outputs in level L+1 *)
Lemma edit_In i f :
  In f (level_files (levels s') i) <->
  (In f (level_files lv i) /\ edit_keep L (S L) p0 p1 i f) \/ (i = S L /\ In f outs).
Proof.
  exact (edit_levels_In ucmp lv (next_file s) L (S L) p0 p1 outs (si_lev _ _ HI)
           (Nat.lt_succ_l _ _ HL) HL (Nat.neq_succ_diag_r L) i f).
Qed.

(* entries of tables that the edit leaves where they are *)
Definition Unch (e : entry) : Prop :=
  exists i f, In f (level_files lv i) /\ edit_keep L (S L) p0 p1 i f /\ In e (fents f).

Lemma edit_tables e : In e (tables (levels s')) <-> Unch e \/ In e (level_entries outs).
Proof.
  rewrite tables_In, level_entries_In. split.
  - intros (i & f & Hf & He). apply edit_In in Hf. destruct Hf as [[Hf Kf]|[_ Hf]]; [left; exists i, f; auto|eauto].
  - intros [(i & f & Hf & Kf & He)|(f & Hf & He)]; [exists i, f|exists (S L), f]; (split; [apply edit_In|exact He]); auto.
Qed.

Lemma keep_or_input i f :
  edit_keep L (S L) p0 p1 i f \/ (i = L /\ has_num in0 f = true) \/ (i = S L /\ has_num in1 f = true).
Proof.
  unfold edit_keep, p0, p1. destruct (Nat.eq_dec i L) as [Ei|Ni].
  - destruct (has_num in0 f); [right; left; auto|]. left. split; [reflexivity|].
    intros Ej. rewrite Ei in Ej. destruct (n_Sn _ Ej).
  - destruct (Nat.eq_dec i (S L)) as [Ej|Nj].
    + destruct (has_num in1 f); [right; right; auto|]. left. split; [intros E; destruct (Ni E)|reflexivity].
    + left. split; intros E; [destruct (Ni E)|destruct (Nj E)].
Qed.

Lemma tables_split e :
  In e (tables lv) <-> Unch e \/ In e (level_entries i0) \/ In e (level_entries i1).
Proof.
  rewrite tables_In, !level_entries_In. split.
  - intros (i & f & Hf & He). destruct (keep_or_input i f) as [K|[[-> K]|[-> K]]].
    + left. exists i, f. auto.
    + right; left. exists f. split; [apply filter_In; auto|exact He].
    + right; right. exists f. split; [apply filter_In; auto|exact He].
  - intros [(i & f & Hf & _ & He)|[(f & Hf & He)|(f & Hf & He)]]; [eauto| |]; apply filter_In in Hf; destruct Hf; eauto.
Qed.

Hypothesis Hguard0 : NO (level_entries r0) (level_entries i0).

(* a table that stays in level L or above it is newer than the inputs: it was searched
   before them, or it stays behind in level L *)
Lemma stays_newer i f : In f (level_files lv i) -> edit_keep L (S L) p0 p1 i f -> (i <= L)%nat ->
  NO (fents f) (level_entries i0) /\ NO (fents f) (level_entries i1).
Proof.
  intros Hf Kf Hi. split; intros o m Ho Hm; pose proof Hm as Hm'; apply level_entries_In in Hm';
    destruct Hm' as (f0 & Hf0 & Hm0); apply filter_In in Hf0; destruct Hf0 as [Hf0 _].
  - destruct (Nat.eq_dec i L) as [->|Hne].
    + apply Hguard0; [|exact Hm]. apply level_entries_In. exists f. split; [|exact Ho].
      apply filter_In. split; [exact Hf|]. apply Kf. reflexivity.
    + apply (si_rect _ _ HI i f L f0 Hf Hf0); auto. left. apply Nat.le_neq. auto.
  - apply (si_rect _ _ HI i f (S L) f0 Hf Hf0); auto. left. apply Nat.lt_succ_r, Hi.
Qed.

Hypothesis Houts_ok : Forall FOK outs.
Hypothesis Houts_sorted : StronglySorted FB outs.
Hypothesis Houts_from :
  forall e, In e (level_entries outs) -> In e (level_entries i0) \/ In e (level_entries i1).
Hypothesis Hdisj : forall f g, In f outs -> In g r1 -> FC f g.
Hypothesis Hnd : NoDup (map fnum outs).
Hypothesis Hnums : forall f, In f outs ->
  fnum f < nf /\ forall j g, In g (level_files lv j) -> edit_keep L (S L) p0 p1 j g -> fnum g <> fnum f.
Hypothesis Hnf : next_file s <= nf.

(* an output entry sits in an input file, of level L or of level L+1 *)
Lemma outs_src f e : In f outs -> In e (fents f) ->
  exists i g, (i = L \/ i = S L) /\ In g (level_files lv i) /\ In e (fents g).
Proof.
  intros Hf He. destruct (Houts_from e) as [H|H]; [apply level_entries_In; eauto| |];
    apply level_entries_In in H; destruct H as (g & Hg & Hm); apply filter_In in Hg;
    [exists L, g|exists (S L), g]; (split; [auto|split; [apply Hg|exact Hm]]).
Qed.

Lemma edit_tables_sub e : In e (tables (levels s')) -> In e (tables lv).
Proof. rewrite edit_tables, tables_split. intros [H|H]; [left; exact H|right; apply Houts_from, H]. Qed.

Lemma edit_SInv : SInv s'.
Proof.
  constructor; try (destruct HI; assumption).
  - apply (LevInv_edit ucmp lv (next_file s) nf L (S L) p0 p1 outs); auto; try exact (si_lev _ _ HI).
    + apply Nat.lt_succ_l, HL.
    + apply Forall_forall, Houts_ok.
    + intros _. split.
      * apply SS_FOP in Houts_sorted. eapply FOP_impl; [|exact Houts_sorted]. intros x y _ _ H. left. exact H.
      * intros f g Hf Hg Hp. apply Hdisj; auto. apply filter_In. auto.
  - apply (RecT_step ucmp lv _ (S L) outs (edit_keep L (S L) p0 p1)); [apply HI|apply edit_In|..].
    + intros i f g Hf Kf Hg Hb o m Ho Hm. destruct Hb as [Hb|(_ & Hb & _)]; [|discriminate].
      destruct (stays_newer i f Hf Kf) as [N0 N1]; [lia|].
      destruct (Houts_from m) as [H|H]; [apply level_entries_In; eauto|apply N0|apply N1]; auto.
    + intros f j g Hf Hg _ Hb o m Ho Hm. destruct Hb as [Hb|(Hb & _)]; [|discriminate].
      destruct (outs_src f o Hf Ho) as (i & f0 & Hi & Hf0 & Ho0).
      apply (si_rect _ _ HI i f0 j g Hf0 Hg); auto. left. lia.
    + intros f g _ _ [Hb|(Hb & _)]; [lia|discriminate].
  - intros o m Ho Hm. apply (si_mt _ _ HI); auto. apply edit_tables_sub, Hm.
  - intros o m Ho Hm. apply (si_it _ _ HI); auto. apply edit_tables_sub, Hm.
  - intros e He. apply (si_seq _ _ HI), all_entries_tables. apply all_entries_tables in He.
    destruct He as [He|He]; [left; exact He|right; apply edit_tables_sub, He].
Qed.

End WithEdit.

End Edit.

Section Compact.
Variable ucmp : bytes -> bytes -> comparison.
Context {TO : total_order ucmp}.

Notation ueq := (Engine.ueq ucmp).
Notation Srt := (EngineStepsBase.Srt ucmp).
Notation NO := (EngineStepsBase.NO ucmp).
Notation Cmp := (EngineStepsBase.Cmp ucmp).
Notation SInv := (EngineStepsInv.SInv ucmp).
Notation FOK := (EngineStepsInv.FOK ucmp).
Notation FB := (EngineStepsInv.FB ucmp).
Notation FC := (EngineStepsInv.FC ucmp).
Notation view := (EngineSpec.view ucmp).

Definition ruleB (snap : N) (base : bytes -> bool) (e : entry) : bool :=
  negb (et e) && (es e <=? snap) && base (ek e).

Definition hiddenA (snap : N) (prev : option (bytes * N)) (e : entry) : bool :=
  match prev with Some (k, s) => ueq (ek e) k && (s <=? snap) | None => false end.

Lemma CE_cons snap base prev e r :
  compact_entries ucmp snap base prev (e :: r) =
  (if hiddenA snap prev e || ruleB snap base e then [] else [e])
    ++ compact_entries ucmp snap base (Some (ek e, es e)) r.
Proof. reflexivity. Qed.

Lemma CE_In snap base prev l x : In x (compact_entries ucmp snap base prev l) -> In x l.
Proof.
  revert prev. induction l as [|e r IH]; intros prev H. destruct H.
  rewrite CE_cons in H. apply in_app_or in H. destruct H as [H|H].
  - destruct (hiddenA snap prev e || ruleB snap base e); [destruct H|].
    destruct H as [H|[]]. left; auto.
  - right. eapply IH; eauto.
Qed.

Lemma CE_Srt snap base prev l : Srt l -> Srt (compact_entries ucmp snap base prev l).
Proof.
  revert prev. induction l as [|e r IH]; intros prev H. apply Srt_nil.
  apply Srt_cons_inv in H. destruct H as [H1 H2].
  rewrite CE_cons. apply Srt_app. split; [|split].
  - destruct (hiddenA snap prev e || ruleB snap base e). apply Srt_nil.
    apply Srt_cons. apply Srt_nil. intros x [].
  - apply IH; auto.
  - intros x y Hx Hy. apply CE_In in Hy.
    destruct (hiddenA snap prev e || ruleB snap base e); [destruct Hx|].
    destruct Hx as [<-|[]]. auto.
Qed.

(* the entries of x's user key that are newer than x in l all lie above the snapshot *)
Definition exposed (snap : N) (l : list entry) (x : entry) : Prop :=
  forall y, In y l -> ueq (ek y) (ek x) = true -> es x < es y -> snap < es y.

Lemma CE_spec_aux snap base p r x :
  Srt (p :: r) ->
  (In x (compact_entries ucmp snap base (Some (ek p, es p)) r) <->
   In x r /\ ruleB snap base x = false /\ exposed snap (p :: r) x).
Proof.
  revert p. induction r as [|e r IH]; intros p HS.
  - cbn. tauto.
  - destruct (Srt_cons_inv ucmp _ _ HS) as [HS' Hp].
    rewrite CE_cons, in_app_iff, (IH e HS'). split.
    + intros [H|(Hx & HB & Hex)].
      * destruct (hiddenA snap (Some (ek p, es p)) e || ruleB snap base e) eqn:Ed; [destruct H|].
        destruct H as [<-|[]]. apply orb_false_iff in Ed. destruct Ed as [EA EB].
        split; [left; reflexivity|]. split; [exact EB|].
        intros y [<-|Hy] Hk Hlt.
        -- cbn [hiddenA] in EA. rewrite (ueq_sym ucmp _ _ Hk) in EA. apply N.leb_gt, EA.
        -- destruct (proj1 (N.lt_nge _ _) Hlt (Srt_hd_newest ucmp e r y HS' Hy Hk)).
      * split; [right; exact Hx|]. split; [exact HB|].
        intros y [<-|Hy] Hk Hlt; [|exact (Hex y Hy Hk Hlt)].
        (* e lies between p and x, so it has their user key and es x < es e < es p *)
        apply ueq_iff in Hk.
        destruct (cmp_squeeze TO (ek p) (ek e) (ek x)) as [K1 K2]; auto.
        { apply (ilt_ukey ucmp), Hp. left; reflexivity. }
        { apply (ilt_ukey ucmp), (Srt_cons_inv ucmp _ _ HS'), Hx. }
        apply (ueq_iff ucmp) in K1, K2.
        pose proof (ilt_ueq_seq ucmp p e (Hp e (or_introl eq_refl)) K1) as L1.
        pose proof (ilt_ueq_seq ucmp e x (proj2 (Srt_cons_inv ucmp _ _ HS') x Hx) K2) as L2.
        exact (N.lt_trans _ _ _ (Hex e (or_introl eq_refl) K2 L2) L1).
    + intros ([<-|Hx] & HB & Hex).
      * left. assert (EA: hiddenA snap (Some (ek p, es p)) e = false).
        { cbn [hiddenA]. destruct (ueq (ek e) (ek p)) eqn:Hk; [|reflexivity]. cbn [andb].
          apply N.leb_gt, (Hex p (or_introl eq_refl) (ueq_sym ucmp _ _ Hk)).
          exact (ilt_ueq_seq ucmp p e (Hp e (or_introl eq_refl)) (ueq_sym ucmp _ _ Hk)). }
        rewrite EA, HB. left; reflexivity.
      * right. split; [exact Hx|]. split; [exact HB|]. intros y Hy. apply Hex. right; exact Hy.
Qed.

Lemma CE_spec snap base l x :
  Srt l ->
  (In x (compact_entries ucmp snap base None l) <->
   In x l /\ ruleB snap base x = false /\ exposed snap l x).
Proof.
  intros HS. destruct l as [|e r]; [cbn; tauto|].
  rewrite CE_cons, in_app_iff, (CE_spec_aux snap base e r x HS). cbn [hiddenA orb]. split.
  - intros [H|(Hx & HB & Hex)].
    + destruct (ruleB snap base e) eqn:EB; [destruct H|]. destruct H as [<-|[]].
      split; [left; reflexivity|]. split; [exact EB|].
      intros y Hy Hk Hlt. pose proof (Srt_hd_newest ucmp e r y HS Hy Hk). lia.
    + split; [right; exact Hx|]. split; assumption.
  - intros ([<-|Hx] & HB & Hex).
    + left. rewrite HB. left; reflexivity.
    + right. auto.
Qed.

Lemma split_at_spec cuts l :
  forallb (fun n => (0 <? n)%nat) cuts = true ->
  concat (split_at cuts l) = l /\ Forall (fun r => r <> []) (split_at cuts l).
Proof.
  revert l. induction cuts as [|c cs IH]; intros l Hc; cbn [split_at].
  - destruct l as [|x r]; cbn [concat]; split; auto. apply app_nil_r.
    constructor; auto. congruence.
  - cbn [forallb] in Hc. apply andb_true_iff in Hc. destruct Hc as [Hc1 Hc2].
    destruct l as [|x r]; cbn [concat]; [split; auto|].
    destruct (IH (skipn c (x :: r)) Hc2) as [H1 H2]. split.
    + rewrite H1. apply firstn_skipn.
    + constructor; auto. destruct c as [|c]; [cbn in Hc1; discriminate|]. cbn [firstn]. congruence.
Qed.

Lemma zip_files_spec nums runs fs :
  zip_files nums runs = Some fs -> map fnum fs = nums /\ map fents fs = runs.
Proof.
  revert runs fs. induction nums as [|n ns IH]; intros runs fs H; cbn [zip_files] in H.
  - destruct runs; [|discriminate]. injection H as <-. auto.
  - destruct runs as [|r rs]; [discriminate|].
    destruct (zip_files ns rs) as [fs'|] eqn:E; [|discriminate]. injection H as <-.
    destruct (IH rs fs' E) as [H1 H2]. cbn [map fnum fents]. split; congruence.
Qed.

Lemma level_cross_Cmp s L f g x y :
  SInv s -> In f (level_files (levels s) L) -> In g (level_files (levels s) L) ->
  fnum f <> fnum g -> In x (fents f) -> In y (fents g) -> Cmp x y.
Proof.
  intros HI Hf Hg Hne Hx Hy. destruct L as [|L].
  - destruct (N.lt_total (fnum f) (fnum g)) as [Hlt|[E|Hlt]]; [|contradiction|].
    + apply or_comm.
      exact (NO_Cmp ucmp _ _ y x (si_rect _ _ HI 0%nat g 0%nat f Hg Hf (or_intror (conj eq_refl (conj eq_refl Hlt)))) Hy Hx).
    + exact (NO_Cmp ucmp _ _ x y (si_rect _ _ HI 0%nat f 0%nat g Hf Hg (or_intror (conj eq_refl (conj eq_refl Hlt)))) Hx Hy).
  - pose proof (si_lsort _ _ HI (S L)) as HS. apply SS_FOP in HS; [|lia].
    destruct (ForallOrdPairs_In HS f g Hf Hg) as [E|[E|E]].
    + subst. contradiction.
    + left. apply E; auto.
    + right. apply E; auto.
Qed.

Lemma level_files_FOP_Cmp s L (p : file -> bool) :
  SInv s -> ForallOrdPairs Cmp (level_entries (filter p (level_files (levels s) L))).
Proof.
  intros HI. unfold level_entries. apply FOP_concat.
  - intros l Hl. apply in_map_iff in Hl. destruct Hl as (f & <- & Hf). apply filter_In in Hf.
    apply Srt_FOP_Cmp. apply (si_fok _ _ HI L f). apply Hf.
  - apply FOP_map. apply FOP_filter.
    pose proof (proj1 (si_nd _ _ HI) L) as HN. apply NoDup_nums_FOP in HN.
    eapply FOP_impl; [|exact HN]. intros f g Hf Hg Hne x y Hx Hy.
    apply (level_cross_Cmp s L f g x y); auto.
Qed.

Lemma file_disjoint_FC m f g :
  Srt m -> FOK g -> (forall x, In x (fents f) -> In x m) ->
  file_disjoint_from ucmp m g = true -> FC f g.
Proof.
  intros HS Hg Hf H. unfold file_disjoint_from in H.
  destruct m as [|m0 mr]; [left; intros x y Hx; destruct (Hf x Hx)|].
  destruct (FOK_ends ucmp g Hg) as (a & r & E1 & E2 & E3). rewrite E2, E3 in H.
  destruct Hg as [_ Sg]. rewrite E1 in *.
  apply orb_true_iff in H. destruct H as [H|H]; [right|left]; intros x y Hx Hy.
  - rewrite E1 in Hx. exact (Srt_ends_lt ucmp a r m0 mr x y Sg HS H Hx (Hf y Hy)).
  - rewrite E1 in Hy. exact (Srt_ends_lt ucmp m0 mr a r x y HS Sg H (Hf x Hx) Hy).
Qed.

Section WithCompaction.
Variables (s : state) (c : compaction).
Hypothesis HI : SInv s.

Let L := c_level c.
Let lvL := level_files (levels s) L.
Let lvL1 := level_files (levels s) (S L).
Let r0 := remove_files lvL (c_in0 c).
Let r1 := remove_files lvL1 (c_in1 c).
Let i0 := select_files lvL (c_in0 c).
Let i1 := select_files lvL1 (c_in1 c).
Let merged := compaction_merged ucmp s c.
Let snap := smallest_snapshot s.
Let base := is_base_level ucmp (levels s) L.
Let kept := compaction_kept ucmp s c.

Lemma merged_eq : merged = sort_entries ucmp (level_entries i0 ++ level_entries i1).
Proof. reflexivity. Qed.

Lemma kept_eq : kept = compact_entries ucmp snap base None merged.
Proof. reflexivity. Qed.

Lemma merged_In e : In e merged <-> In e (level_entries i0) \/ In e (level_entries i1).
Proof. rewrite merged_eq, sort_entries_In, in_app_iff. tauto. Qed.

Lemma merged_Srt : Srt merged.
Proof.
  rewrite merged_eq. apply (sort_entries_Srt ucmp). apply FOP_app. split; [|split].
  - apply level_files_FOP_Cmp; auto.
  - apply level_files_FOP_Cmp; auto.
  - intros x y Hx Hy. apply level_entries_In in Hx, Hy.
    destruct Hx as (f & Hf & Hx). destruct Hy as (g & Hg & Hy).
    apply select_In in Hf, Hg. destruct Hf as [Hf _]. destruct Hg as [Hg _].
    exact (NO_Cmp ucmp _ _ x y (si_rect _ _ HI L f (S L) g Hf Hg (or_introl (Nat.lt_succ_diag_r L))) Hx Hy).
Qed.

Lemma kept_merged e : In e kept -> In e merged.
Proof. rewrite kept_eq. apply CE_In. Qed.

(* the conjuncts of compaction_guard that the proofs use; the non-empty input and the two
   all_in tests are not needed (nor, in move_guard_spec, all_in and newer_outside at L+1) *)
Record Guard : Prop := {
  g_lvl : (S L < NUM_LEVELS)%nat;
  g_no0 : NO (level_entries r0) (level_entries i0);
  g_disj : forall g, In g r1 -> file_disjoint_from ucmp merged g = true;
  g_no1 : NO (level_entries r1) merged;
  g_fresh : forall n, In n (c_outs c) -> next_file s <= n < c_nf c;
  g_incr : strictly_increasing (c_outs c) = true;
  g_nf : next_file s <= c_nf c;
  g_cuts : forallb (fun n => (0 <? n)%nat) (c_cuts c) = true
}.

Lemma guard_spec : compaction_guard ucmp s c = true -> Guard.
Proof.
  intros H. unfold compaction_guard, compaction_inputs in H. cbn zeta in H.
  fold L lvL lvL1 in H. fold r0 r1 i0 i1 in H.
  change (compaction_merged ucmp s c) with merged in H.
  apply andb_prop in H as [H Hcuts]. apply andb_prop in H as [H Hnf]. apply andb_prop in H as [H Hlt].
  apply andb_prop in H as [H Hincr]. apply andb_prop in H as [H Hfresh]. apply andb_prop in H as [H Hno1].
  apply andb_prop in H as [H Hdisj]. apply andb_prop in H as [H Hno0]. apply andb_prop in H as [H _].
  apply andb_prop in H as [H _]. apply andb_prop in H as [Hlvl _].
  constructor; auto.
  - apply Nat.ltb_lt, Hlvl.
  - apply newer_outside_NO, Hno0.
  - rewrite forallb_forall in Hdisj. exact Hdisj.
  - apply newer_outside_NO, Hno1.
  - intros n Hn. rewrite forallb_forall in Hfresh, Hlt.
    split; [apply N.leb_le, (Hfresh n Hn)|apply N.ltb_lt, (Hlt n Hn)].
  - apply N.leb_le, Hnf.
Qed.

Hypothesis HG : Guard.
Variable outs : list file.
Hypothesis Hzip : zip_files (c_outs c) (split_at (c_cuts c) kept) = Some outs.

Let s' := edit_state s L r0 (add_files ucmp r1 outs) (c_nf c).

Lemma outs_entries : level_entries outs = kept.
Proof.
  unfold level_entries. rewrite (proj2 (zip_files_spec _ _ _ Hzip)).
  apply split_at_spec. exact (g_cuts HG).
Qed.

Lemma outs_nonempty f : In f outs -> fents f <> [].
Proof.
  intros Hf. destruct (split_at_spec (c_cuts c) kept (g_cuts HG)) as [_ H].
  rewrite Forall_forall in H. apply H.
  rewrite <- (proj2 (zip_files_spec _ _ _ Hzip)). apply in_map; auto.
Qed.

Lemma outs_nums f : In f outs -> In (fnum f) (c_outs c).
Proof.
  intros Hf. rewrite <- (proj1 (zip_files_spec _ _ _ Hzip)). apply in_map; auto.
Qed.

Lemma compact_edit_SInv : SInv s'.
Proof.
  assert (HK: Srt (level_entries outs)) by (rewrite outs_entries, kept_eq; apply CE_Srt, merged_Srt).
  destruct (Srt_files ucmp outs HK outs_nonempty) as [Hok Hss].
  apply (edit_SInv ucmp s L (c_in0 c) (c_in1 c) outs (c_nf c) HI).
  - exact (g_lvl HG).
  - exact (g_no0 HG).
  - exact Hok.
  - exact Hss.
  - intros e He. rewrite outs_entries in He. apply kept_merged in He. apply merged_In; auto.
  - intros f g Hf Hg. apply (file_disjoint_FC merged f g merged_Srt); [| |exact (g_disj HG g Hg)].
    + apply remove_In in Hg. apply (si_fok _ _ HI (S L) g), Hg.
    + intros x Hx. apply kept_merged. rewrite <- outs_entries. apply level_entries_In. eauto.
  - rewrite (proj1 (zip_files_spec _ _ _ Hzip)). apply (SS_NoDup N.lt N.lt_irrefl), strictly_increasing_SS, (g_incr HG).
  - intros f Hf. pose proof (g_fresh HG _ (outs_nums f Hf)) as Hn. split; [lia|].
    intros j g Hg _. pose proof (si_num _ _ HI j g Hg). lia.
  - exact (g_nf HG).
Qed.

Let untouched e := (In e (mem s) \/ In e (imm_run s)) \/ Unch s L (c_in0 c) (c_in1 c) e.

Lemma all_entries_before e : In e (all_entries s) <-> untouched e \/ In e merged.
Proof.
  rewrite all_entries_tables, (tables_split s L (c_in0 c) (c_in1 c)), merged_In. symmetry. apply or_assoc.
Qed.

Lemma all_entries_after e : In e (all_entries s') <-> untouched e \/ In e kept.
Proof.
  rewrite <- outs_entries, all_entries_tables. unfold s', r0, r1, lvL, lvL1.
  rewrite (edit_tables ucmp s L (c_in0 c) (c_in1 c) outs (c_nf c) HI (g_lvl HG)). symmetry. apply or_assoc.
Qed.

Lemma base_spec k i f :
  base k = true -> (L + 2 <= i)%nat -> In f (level_files (levels s) i) -> in_user_range ucmp f k = false.
Proof.
  unfold base, is_base_level. intros H Hi Hf. apply negb_true_iff in H.
  destruct (in_user_range ucmp f k) eqn:E; auto.
  assert (existsb (fun fs => existsb (fun f => in_user_range ucmp f k) fs) (skipn (L + 2) (levels s)) = true); [|congruence].
  apply existsb_exists. exists (level_files (levels s) i). split.
  - apply (nth_error_In_skipn _ _ i); [apply nth_error_nth'; eapply level_files_In_lt; eauto|exact Hi].
  - apply existsb_exists. exists f. auto.
Qed.

Lemma unchanged_newer e e' :
  In e merged -> base (ek e) = true -> untouched e' -> ueq (ek e') (ek e) = true -> es e < es e'.
Proof.
  intros He Hb Hu Hk. pose proof He as He0. apply merged_In in He0.
  assert (Het: In e (tables (levels s))) by (apply (tables_split s L (c_in0 c) (c_in1 c)); auto).
  destruct Hu as [[H|H]|(i & f & Hf & Kf & Hi)].
  - exact (si_mt _ _ HI e' e H Het Hk).
  - exact (si_it _ _ HI e' e H Het Hk).
  - destruct (Nat.le_gt_cases i L) as [Hle|Hgt].
    + destruct (stays_newer ucmp s L (c_in0 c) (c_in1 c) HI (g_no0 HG) i f Hf Kf Hle) as [N0 N1].
      destruct He0; [apply (N0 e' e)|apply (N1 e' e)]; auto.
    + destruct (Nat.eq_dec i (S L)) as [->|N1].
      * (* it stays behind in level L+1 *)
        apply (g_no1 HG e' e); auto. apply level_entries_In. exists f. split; [|exact Hi].
        apply filter_In. split; [exact Hf|exact (proj2 Kf eq_refl)].
      * (* below both input levels: excluded by the base-level test *)
        exfalso. assert (Hi2: (L + 2 <= i)%nat) by lia.
        pose proof (base_spec (ek e) i f Hb Hi2 Hf) as Hbs.
        rewrite (in_user_range_of ucmp f e' (ek e)) in Hbs; auto. discriminate.
        apply (si_fok _ _ HI i f Hf).
Qed.

Lemma compact_edit_sub e : In e (all_entries s') -> In e (all_entries s).
Proof.
  intros He. apply all_entries_after in He. apply all_entries_before. destruct He as [He|He]; auto.
  right. apply kept_merged; auto.
Qed.

(* rule (B) drops a deletion marker only when whatever is left of its user key is newer *)
Lemma ruleB_oldest e e' :
  In e merged -> ruleB snap base e = true -> In e' (all_entries s') -> ueq (ek e') (ek e) = true -> es e < es e'.
Proof.
  intros He Hd He' Hkk. pose proof Hd as Hd'. unfold ruleB in Hd'.
  rewrite !andb_true_iff, N.leb_le in Hd'. destruct Hd' as [[_ Hsn] Hbase]. apply all_entries_after in He'.
  destruct He' as [Hu|Hk']; [exact (unchanged_newer e e' He Hbase Hu Hkk)|].
  apply (CE_spec snap base merged e' merged_Srt) in Hk'. destruct Hk' as (He' & HnB & Hex).
  destruct (N.lt_trichotomy (es e') (es e)) as [Hlt|[Heq|Hgt]]; [| |exact Hgt].
  - pose proof (Hex e He (ueq_sym ucmp _ _ Hkk) Hlt). lia.
  - assert (e' = e) by (apply (SInv_KD ucmp _ HI); auto; apply all_entries_before; auto). congruence.
Qed.

Theorem compact_edit_view k q : snap <= q -> view s' k q = view s k q.
Proof.
  intros Hq. apply (view_drop ucmp); [|exact compact_edit_sub|].
  { intros a b Ha Hb. apply (SInv_KD ucmp _ HI); apply compact_edit_sub; assumption. }
  intros e Eb. apply best_Some in Eb. destruct Eb as (He & Hm & Hmax).
  apply all_entries_before in He. destruct He as [He|He]; [left; apply all_entries_after; auto|].
  destruct (ruleB snap base e) eqn:Hd.
  - right. split; [unfold ruleB in Hd; destruct (et e); [discriminate|reflexivity]|].
    intros e' He' Hkk. exact (ruleB_oldest e e' He Hd He' Hkk).
  - (* e is kept: an entry of its key that is newer is not visible at q, hence above snap *)
    left. apply all_entries_after. right. apply (CE_spec snap base merged e merged_Srt).
    split; [exact He|]. split; [exact Hd|]. intros y Hy Hk Hlt.
    apply (N.le_lt_trans _ q _ Hq), N.lt_nge. intros Hyq.
    assert (Hmy: matches ucmp k q y = true).
    { apply matches_iff in Hm. apply matches_iff. split; [|exact Hyq].
      eapply (ueq_trans ucmp). exact Hk. apply Hm. }
    assert (Hyall: In y (all_entries s)) by (apply all_entries_before; auto).
    specialize (Hmax y Hyall Hmy). clear - Hmax Hlt. lia.
Qed.

End WithCompaction.

Lemma compact_state s c s' :
  do_compact ucmp s c = Some s' ->
  compaction_guard ucmp s c = true /\
  exists outs, zip_files (c_outs c) (split_at (c_cuts c) (compaction_kept ucmp s c)) = Some outs /\
    s' = edit_state s (c_level c) (remove_files (level_files (levels s) (c_level c)) (c_in0 c))
           (add_files ucmp (remove_files (level_files (levels s) (S (c_level c))) (c_in1 c)) outs) (c_nf c).
Proof.
  unfold do_compact. destruct (compaction_guard ucmp s c); [|discriminate].
  destruct (zip_files (c_outs c) (split_at (c_cuts c) (compaction_kept ucmp s c))) as [outs|]; [|discriminate].
  intros H. injection H as <-. split; auto. exists outs. split; auto.
Qed.

Lemma compact_SInv s c s' : SInv s -> do_compact ucmp s c = Some s' -> SInv s'.
Proof.
  intros HI H. apply compact_state in H. destruct H as (HG & outs & Hz & ->).
  apply compact_edit_SInv; auto. apply guard_spec; auto.
Qed.

Lemma compact_view s c s' k q :
  SInv s -> do_compact ucmp s c = Some s' -> smallest_snapshot s <= q -> view s' k q = view s k q.
Proof.
  intros HI H Hq. apply compact_state in H. destruct H as (HG & outs & Hz & ->).
  apply compact_edit_view; auto. apply guard_spec; auto.
Qed.

Lemma compact_sub s c s' e :
  SInv s -> do_compact ucmp s c = Some s' -> In e (all_entries s') -> In e (all_entries s).
Proof.
  intros HI H. apply compact_state in H. destruct H as (HG & outs & Hz & ->).
  exact (compact_edit_sub s c HI (guard_spec s c HG) outs Hz e).
Qed.

Lemma same_num_short l n :
  NoDup (map fnum l) -> (forall f, In f l -> fnum f = n) -> l = [] \/ exists f, l = [f].
Proof.
  intros H1 H2. destruct l as [|f [|g r]]; eauto.
  exfalso. cbn [map] in H1. inversion H1; subst. apply H3. left.
  rewrite (H2 f), (H2 g); auto. right; left; auto. left; auto.
Qed.

Lemma move_state s L n s' :
  do_move ucmp s L n = Some s' ->
  move_guard ucmp s L n = true /\
  s' = edit_state s L (remove_files (level_files (levels s) L) [n])
         (add_files ucmp (remove_files (level_files (levels s) (S L)) [])
                    (select_files (level_files (levels s) L) [n])) (next_file s).
Proof.
  unfold do_move. destruct (move_guard ucmp s L n); [|discriminate].
  intros H. injection H as <-. split; auto. rewrite remove_files_nil. reflexivity.
Qed.

Lemma move_guard_spec s L n :
  move_guard ucmp s L n = true ->
  let i0 := select_files (level_files (levels s) L) [n] in
  (S L < NUM_LEVELS)%nat /\
  NO (level_entries (remove_files (level_files (levels s) L) [n])) (level_entries i0) /\
  forall g, In g (level_files (levels s) (S L)) -> file_disjoint_from ucmp (level_entries i0) g = true.
Proof.
  unfold move_guard. cbn zeta. intros H. apply andb_prop in H as [H _]. apply andb_prop in H as [H H4].
  apply andb_prop in H as [H H3]. apply andb_prop in H as [H1 _]. split; [|split].
  - apply Nat.ltb_lt, H1.
  - apply newer_outside_NO, H3.
  - rewrite forallb_forall in H4. exact H4.
Qed.

Lemma move_SInv s L n s' : SInv s -> do_move ucmp s L n = Some s' -> SInv s'.
Proof.
  intros HI H. apply move_state in H. destruct H as (HG & ->).
  destruct (move_guard_spec s L n HG) as (HL & Hno & Hdisj).
  set (lvL := level_files (levels s) L) in *.
  set (i0 := select_files lvL [n]) in *.
  assert (Hi0: forall f, In f i0 -> In f lvL /\ fnum f = n).
  { intros f Hf. apply select_In in Hf. rewrite has_num_single in Hf. exact Hf. }
  assert (Hok: Forall FOK i0).
  { apply Forall_forall. intros f Hf. apply (si_fok _ _ HI L f). apply Hi0; auto. }
  assert (Hnd: NoDup (map fnum i0)).
  { apply NoDup_map_filter. apply (si_nd _ _ HI). }
  assert (Hss: StronglySorted FB i0).
  { destruct (same_num_short i0 n Hnd) as [E|(f & E)].
    - intros f Hf. apply Hi0; auto.
    - rewrite E. constructor.
    - rewrite E. constructor; constructor. }
  apply (edit_SInv ucmp s L [n] [] i0 (next_file s) HI HL Hno Hok Hss).
  - intros e He. left. exact He.
  - intros f g Hf Hg. rewrite remove_files_nil in Hg.
    apply (file_disjoint_FC (level_entries i0) f g); [| | |exact (Hdisj g Hg)].
    + apply level_entries_Srt; auto.
    + apply (si_fok _ _ HI (S L) g); auto.
    + intros x Hx. apply level_entries_In. eauto.
  - exact Hnd.
  - (* the moved file keeps its number; a file that stays has another one *)
    intros f Hf. destruct (Hi0 f Hf) as [Hf1 Hf2]. split; [apply (si_num _ _ HI L f Hf1)|].
    intros j g Hg [K _]. destruct (Nat.eq_dec j L) as [->|Hne].
    + intros E. specialize (K eq_refl). apply negb_true_iff in K.
      assert (has_num [n] g = true) by (apply has_num_single; congruence). congruence.
    + apply (proj2 (si_nd _ _ HI) j L g f); auto.
  - lia.
Qed.

Lemma move_all_entries s L n s' e :
  SInv s -> do_move ucmp s L n = Some s' -> (In e (all_entries s') <-> In e (all_entries s)).
Proof.
  intros HI H. apply move_state in H. destruct H as (HG & ->).
  destruct (move_guard_spec s L n HG) as (HL & _).
  rewrite !all_entries_tables, (edit_tables ucmp s L [n] [] _ (next_file s) HI HL), (tables_split s L [n] []).
  apply or_iff_compat_l, or_iff_compat_l.
  assert (E: level_entries (select_files (level_files (levels s) (S L)) []) = []).
  { unfold select_files. rewrite filter_false; reflexivity. }
  rewrite E. split; [left; assumption|intros [H|[]]; exact H].
Qed.

End Compact.
