(* EngineTop.v -- property-level theorems about the engine model (Engine.v), assembled
   from the read-path theorem (EngineRead.v) and the step theorems (EngineSteps.v):

   - the ghost history IS the write history ([written]), and reading the history at a
     sequence is the sequential map semantics of the writes up to that sequence;
   - C01: a lookup at the latest sequence returns the most recent write to the key;
   - C06: a live snapshot is a frozen view;
   - C14: the layout invariant holds in every reachable state (spelled out field by field
     in Properties_C14.v); a clean close + reopen reproduces the layout;
   - C13: a new file's number is fresh: above every number in use, and never that of a
     live file (a number may come back after its file is gone and the database reopened);
   - a concrete run exercising every operation, with the theorems instantiated on it. *)
From LCDB Require Import Base Engine EngineSpec EngineRead.
From LCDB Require Import EngineStepsBase EngineStepsInv EngineStepsBasic
                         EngineStepsFlush EngineStepsEdit EngineSteps.
From Coq Require Import Sorting.Sorted.
Require Import Lia.
Local Open Scope N_scope.

(* entries in write order, with the sequences lcdb assigns *)
Fixpoint written (seq : N) (ops : list op) : list entry :=
  match ops with
  | [] => []
  | OWrite b :: r => batch_entries (seq + 1) b ++ written (seq + nlen b) r
  | _ :: r => written seq r
  end.

Fixpoint total_writes (ops : list op) : N :=
  match ops with
  | [] => 0
  | OWrite b :: r => nlen b + total_writes r
  | _ :: r => total_writes r
  end.

(* sequences strictly increasing in list order *)
Definition seq_incr (l : list entry) : Prop := ForallOrdPairs (fun x y => es x < es y) l.

Lemma written_structural seq o r : structural o -> written seq (o :: r) = written seq r.
Proof. destruct o; cbn [structural written]; intros H; auto. contradiction. Qed.

Lemma total_writes_structural o r : structural o -> total_writes (o :: r) = total_writes r.
Proof. destruct o; cbn [structural total_writes]; intros H; auto. contradiction. Qed.

Theorem written_range : forall ops seq e,
  In e (written seq ops) -> seq < es e <= seq + total_writes ops.
Proof.
  induction ops as [|o r IH]; intros seq e H.
  - destruct H.
  - destruct (op_cases o) as [(b & ->)|Hst].
    + cbn [written total_writes] in *. apply in_app_or in H. destruct H as [H|H].
      * apply batch_entries_seq in H. lia.
      * apply IH in H. lia.
    + rewrite written_structural in H by auto. rewrite total_writes_structural by auto. auto.
Qed.

Theorem written_incr : forall ops seq, seq_incr (written seq ops).
Proof.
  unfold seq_incr. induction ops as [|o r IH]; intros seq.
  - constructor.
  - destruct (op_cases o) as [(b & ->)|Hst].
    + cbn [written]. apply FOP_app. split; [apply batch_entries_FOP|]. split; [apply IH|].
      intros x y Hx Hy. apply batch_entries_seq in Hx. apply written_range in Hy. lia.
    + rewrite written_structural by auto. apply IH.
Qed.

Section Top.
Variable ucmp : bytes -> bytes -> comparison.

Theorem run_hist : forall ops s s',
  run ucmp s ops = Some s' ->
  hist s' = rev (written (last_seq s) ops) ++ hist s /\
  last_seq s' = last_seq s + total_writes ops.
Proof.
  induction ops as [|o r IH]; intros s s' H; cbn [run] in H.
  - injection H as <-. cbn [written total_writes rev app]. split; auto. lia.
  - destruct (step ucmp s o) as [s1|] eqn:E; [|discriminate].
    destruct (IH s1 s' H) as [IH1 IH2].
    destruct (op_cases o) as [(b & ->)|Hst].
    + cbn [step] in E. injection E as <-. unfold do_write in IH1, IH2. cbn [last_seq hist] in IH1, IH2.
      cbn [written total_writes]. rewrite rev_app_distr, <- app_assoc. split; auto. lia.
    + destruct (step_meta ucmp s o s1 Hst E) as (E1 & E2 & _).
      rewrite written_structural, total_writes_structural by auto.
      rewrite E1, E2 in *. auto.
Qed.

Corollary run_hist_init : forall ops s,
  run ucmp init_state ops = Some s ->
  hist s = rev (written 0 ops) /\ last_seq s = total_writes ops.
Proof.
  intros ops s H. destruct (run_hist ops init_state s H) as [H1 H2].
  cbn [init_state hist last_seq] in H1, H2. rewrite app_nil_r in H1. split; auto.
Qed.

Definition apply_entry (m : bytes -> option bytes) (e : entry) : bytes -> option bytes :=
  fun k => if ueq ucmp (ek e) k then (if et e then Some (ev e) else None) else m k.

Definition map_after (l : list entry) : bytes -> option bytes :=
  fold_left apply_entry l (fun _ => None).

Lemma map_after_snoc l e k : map_after (l ++ [e]) k = apply_entry (map_after l) e k.
Proof. unfold map_after. rewrite fold_left_app. reflexivity. Qed.

(* reading a history with increasing sequences at q = replaying the writes with
   sequence <= q in order *)
Theorem best_rev_map_after_upto : forall l k q,
  seq_incr l ->
  visible (result_of (best ucmp (rev l) k q)) = map_after (filter (fun e => es e <=? q) l) k.
Proof.
  unfold seq_incr. induction l as [|e l IH] using rev_ind; intros k q Hinc.
  - reflexivity.
  - apply FOP_app in Hinc. destruct Hinc as (Hl & _ & Hle).
    rewrite rev_unit, filter_app. change (e :: rev l) with ([e] ++ rev l).
    rewrite (best_app_newer ucmp)
      by (intros o m [<-|[]] Hm _ _; apply Hle; [apply in_rev, Hm|left; reflexivity]).
    cbn [filter best fold_right]. unfold matches. destruct (es e <=? q).
    + rewrite andb_true_r, map_after_snoc. unfold apply_entry.
      destruct (ueq ucmp (ek e) k); [|apply IH, Hl].
      cbn [newer result_of]. unfold result_of_entry. destruct (et e); reflexivity.
    + rewrite andb_false_r, app_nil_r. apply IH, Hl.
Qed.

Corollary best_rev_map_after : forall l k q,
  seq_incr l -> (forall e, In e l -> es e <= q) ->
  visible (result_of (best ucmp (rev l) k q)) = map_after l k.
Proof.
  intros l k q Hinc Hq. rewrite best_rev_map_after_upto by auto.
  rewrite filter_true; auto. intros x Hx. apply N.leb_le, Hq, Hx.
Qed.

Theorem spec_at_seq : forall ops s k q,
  run ucmp init_state ops = Some s ->
  spec_get ucmp s k q = map_after (filter (fun e => es e <=? q) (written 0 ops)) k.
Proof.
  intros ops s k q H. destruct (run_hist_init ops s H) as [Hh _].
  unfold spec_get. rewrite Hh. apply best_rev_map_after_upto. apply written_incr.
Qed.

Theorem spec_is_last_write : forall ops s k q,
  run ucmp init_state ops = Some s -> last_seq s <= q ->
  spec_get ucmp s k q = map_after (written 0 ops) k.
Proof.
  intros ops s k q H Hq. destruct (run_hist_init ops s H) as [Hh Hl].
  unfold spec_get. rewrite Hh. apply best_rev_map_after. apply written_incr.
  intros e He. apply written_range in He. lia.
Qed.

Hypothesis TO : total_order ucmp.

Lemma readable_cases s q : inv_b ucmp s = true -> In q (snaps s) \/ q = last_seq s -> readable s q.
Proof. intros HI. exact (smallest_le ucmp s q (proj1 (inv_b_SInv ucmp s) HI)). Qed.

Theorem get_spec : forall ops s,
  run ucmp init_state ops = Some s ->
  forall k q, readable s q -> visible (get ucmp s k q) = spec_get ucmp s k q.
Proof.
  intros ops s H k q Hq. destruct (run_hist_ok ucmp TO ops s H) as [HI HO].
  rewrite (get_view ucmp TO s k q HI). apply HO. exact Hq.
Qed.

Theorem get_at_any_state : forall ops s,
  run ucmp init_state ops = Some s ->
  forall k, visible (get ucmp s k (last_seq s)) = spec_get ucmp s k (last_seq s).
Proof.
  intros ops s H k. apply (get_spec ops s H). apply readable_cases; [|right; reflexivity].
  apply (run_hist_ok ucmp TO ops s H).
Qed.

Theorem get_latest : forall ops s,
  run ucmp init_state ops = Some s ->
  forall k, visible (get ucmp s k (last_seq s)) = map_after (written 0 ops) k.
Proof.
  intros ops s H k. rewrite (get_at_any_state ops s H). apply spec_is_last_write; auto. lia.
Qed.

Theorem get_at_seq : forall ops s,
  run ucmp init_state ops = Some s ->
  forall k q, readable s q ->
  visible (get ucmp s k q) = map_after (filter (fun e => es e <=? q) (written 0 ops)) k.
Proof.
  intros ops s H k q Hq. rewrite (get_spec ops s H k q Hq). apply spec_at_seq; auto.
Qed.

(* the snapshot sequence q stays registered along the whole run of ops from s
   (snaps is a multiset: one ORelease q removes one occurrence; OReopen drops all) *)
Definition held (q : N) (s : state) (ops : list op) : Prop :=
  forall pre post s', ops = pre ++ post -> run ucmp s pre = Some s' -> In q (snaps s').

Lemma held_now q s ops : held q s ops -> In q (snaps s).
Proof. intros H. apply (H [] ops s); reflexivity. Qed.

Lemma held_step q s o r s1 : held q s (o :: r) -> step ucmp s o = Some s1 -> held q s1 r.
Proof.
  intros H E pre post s' Hr Hrun. apply (H (o :: pre) post s').
  - rewrite Hr. reflexivity.
  - cbn [run]. rewrite E. exact Hrun.
Qed.

(* a held sequence is a registered snapshot, hence at most last_seq: writes leave its view alone *)
Theorem frozen_view : forall ops s s' q,
  Inv2 ucmp s -> run ucmp s ops = Some s' -> held q s ops ->
  forall k, view ucmp s' k q = view ucmp s k q.
Proof.
  induction ops as [|o r IH]; intros s s' q HI H Hh k; cbn [run] in H.
  - injection H as <-. reflexivity.
  - destruct (step ucmp s o) as [s1|] eqn:E; [|discriminate].
    pose proof (held_now _ _ _ Hh) as Hin.
    pose proof HI as (HIb & _ & _).
    pose proof (readable_cases s q HIb (or_introl Hin)) as Hrd.
    assert (E1: view ucmp s1 k q = view ucmp s k q).
    { destruct (op_cases o) as [(b & ->)|Hst].
      - cbn [step] in E. injection E as <-. apply (write_preserves_old_views ucmp TO); auto.
        apply (si_snap _ _ (proj1 (inv_b_SInv ucmp s) HIb)), Hin.
      - apply (step_preserves_views ucmp TO s o s1 HI E Hst k q Hrd). }
    rewrite <- E1. apply IH.
    + exact (step_preserves_Inv2 ucmp TO s o s1 HI E).
    + exact H.
    + exact (held_step q s o r s1 Hh E).
Qed.

Lemma reachable_Inv2 ops s : run ucmp init_state ops = Some s -> Inv2 ucmp s.
Proof. intros H. eapply (run_preserves_Inv2 ucmp TO); [apply init_Inv2|exact H]. Qed.

Theorem snapshot_frozen : forall ops1 s1 ops2 s2,
  run ucmp init_state ops1 = Some s1 ->
  run ucmp (do_snapshot s1) ops2 = Some s2 ->
  held (last_seq s1) (do_snapshot s1) ops2 ->
  forall k, visible (get ucmp s2 k (last_seq s1)) = visible (get ucmp s1 k (last_seq s1)).
Proof.
  intros ops1 s1 ops2 s2 H1 H2 Hh k.
  pose proof (reachable_Inv2 ops1 s1 H1) as HI1.
  pose proof (step_preserves_Inv2 ucmp TO s1 OSnapshot _ HI1 eq_refl) as HI1'.
  pose proof (run_preserves_Inv2 ucmp TO ops2 _ s2 HI1' H2) as HI2.
  rewrite (get_view ucmp TO s2) by apply HI2.
  rewrite (get_view ucmp TO s1) by apply HI1.
  change (view ucmp s1 k (last_seq s1)) with (view ucmp (do_snapshot s1) k (last_seq s1)).
  apply (frozen_view ops2 (do_snapshot s1) s2); auto.
Qed.

(* the same in terms of the write history: the snapshot shows the writes before it *)
Theorem snapshot_shows_history : forall ops1 s1 ops2 s2,
  run ucmp init_state ops1 = Some s1 ->
  run ucmp (do_snapshot s1) ops2 = Some s2 ->
  held (last_seq s1) (do_snapshot s1) ops2 ->
  forall k, visible (get ucmp s2 k (last_seq s1)) = map_after (written 0 ops1) k.
Proof.
  intros ops1 s1 ops2 s2 H1 H2 Hh k.
  rewrite (snapshot_frozen ops1 s1 ops2 s2 H1 H2 Hh k). apply get_latest; auto.
Qed.

Fixpoint cnt (q : N) (l : list N) : nat :=
  match l with
  | [] => O
  | x :: r => ((if (x =? q)%N then 1 else 0) + cnt q r)%nat
  end.

Fixpoint releases (q : N) (ops : list op) : nat :=
  match ops with
  | [] => O
  | ORelease x :: r => ((if (x =? q)%N then 1 else 0) + releases q r)%nat
  | _ :: r => releases q r
  end.

Definition not_reopen (o : op) : bool := match o with OReopen _ _ _ => false | _ => true end.
Definition no_reopen (ops : list op) : bool := forallb not_reopen ops.

Lemma cnt_In q l : (0 < cnt q l)%nat -> In q l.
Proof.
  induction l as [|x r IH]; cbn [cnt]; intros H. lia.
  destruct (N.eqb_spec x q) as [E|E]. left; exact E. right. apply IH. lia.
Qed.

Lemma cnt_app q a b : cnt q (a ++ b) = (cnt q a + cnt q b)%nat.
Proof. induction a as [|x r IH]; cbn [app cnt]; auto. rewrite IH. lia. Qed.

Lemma cnt_remove_first q x : forall l l',
  remove_first x l = Some l' -> cnt q l = ((if (x =? q)%N then 1 else 0) + cnt q l')%nat.
Proof.
  induction l as [|y r IH]; intros l' H; cbn [remove_first] in H. discriminate.
  destruct (N.eqb_spec y x) as [E|E].
  - injection H as <-. cbn [cnt]. rewrite E. reflexivity.
  - destruct (remove_first x r) as [r'|] eqn:Er; [|discriminate]. injection H as <-.
    cbn [cnt]. rewrite (IH r' eq_refl). lia.
Qed.

Lemma releases_app q a b : releases q (a ++ b) = (releases q a + releases q b)%nat.
Proof.
  induction a as [|o r IH]; cbn [app]; auto.
  destruct o; cbn [releases]; rewrite IH; lia.
Qed.

Lemma step_cnt q s o s' :
  step ucmp s o = Some s' -> not_reopen o = true ->
  (cnt q (snaps s) <= cnt q (snaps s') + releases q [o])%nat.
Proof.
  intros H Hn. destruct (op_cases o) as [(b & ->)|Hst].
  { injection H as <-. cbn [do_write snaps]. lia. }
  destruct (step_meta ucmp s o s' Hst H) as (_ & _ & Hsn).
  destruct o as [b| |lvl num nf|c|L n| |qr|bounds nums nf]; cbn [snaps_after] in Hsn;
    cbn [releases]; try (rewrite Hsn; lia).
  - rewrite Hsn, cnt_app. lia.
  - rewrite (cnt_remove_first q qr _ _ Hsn). lia.
  - discriminate.
Qed.

Lemma run_cnt q : forall ops s s',
  run ucmp s ops = Some s' -> no_reopen ops = true ->
  (cnt q (snaps s) <= cnt q (snaps s') + releases q ops)%nat.
Proof.
  induction ops as [|o r IH]; intros s s' H Hn; cbn [run] in H.
  - injection H as <-. cbn [releases]. lia.
  - destruct (step ucmp s o) as [s1|] eqn:E; [|discriminate].
    unfold no_reopen in Hn. cbn [forallb] in Hn. apply andb_true_iff in Hn. destruct Hn as [Hn1 Hn2].
    pose proof (step_cnt q s o s1 E Hn1) as H1.
    pose proof (IH s1 s' H Hn2) as H2.
    change (o :: r) with ([o] ++ r). rewrite releases_app. lia.
Qed.

(* no reopen, and fewer releases of q than there are handles at q *)
Theorem held_by_count q s ops :
  no_reopen ops = true -> (releases q ops < cnt q (snaps s))%nat -> held q s ops.
Proof.
  intros Hn Hc pre post s' -> Hrun.
  unfold no_reopen in Hn. rewrite forallb_app in Hn. apply andb_true_iff in Hn. destruct Hn as [Hn _].
  pose proof (run_cnt q pre s s' Hrun Hn) as H. rewrite releases_app in Hc.
  apply cnt_In. lia.
Qed.

Theorem snapshot_frozen_count : forall ops1 s1 ops2 s2,
  run ucmp init_state ops1 = Some s1 ->
  run ucmp (do_snapshot s1) ops2 = Some s2 ->
  no_reopen ops2 = true ->
  (releases (last_seq s1) ops2 <= cnt (last_seq s1) (snaps s1))%nat ->
  forall k, visible (get ucmp s2 k (last_seq s1)) = visible (get ucmp s1 k (last_seq s1)) /\
            visible (get ucmp s2 k (last_seq s1)) = map_after (written 0 ops1) k.
Proof.
  intros ops1 s1 ops2 s2 H1 H2 Hn Hc k.
  assert (Hh: held (last_seq s1) (do_snapshot s1) ops2).
  { apply held_by_count; auto. cbn [do_snapshot snaps]. rewrite cnt_app. cbn [cnt].
    rewrite N.eqb_refl. lia. }
  split.
  - apply (snapshot_frozen ops1 s1 ops2 s2); auto.
  - apply (snapshot_shows_history ops1 s1 ops2 s2); auto.
Qed.

(* taking or releasing OTHER snapshots (and any writes, flushes, compactions) does not
   change what the snapshot observes *)
Corollary other_snapshots_irrelevant : forall ops1 s1 ops2 s2,
  run ucmp init_state ops1 = Some s1 ->
  run ucmp (do_snapshot s1) ops2 = Some s2 ->
  no_reopen ops2 = true -> releases (last_seq s1) ops2 = O ->
  forall k, visible (get ucmp s2 k (last_seq s1)) = visible (get ucmp s1 k (last_seq s1)).
Proof.
  intros ops1 s1 ops2 s2 H1 H2 Hn Hc k.
  apply (snapshot_frozen_count ops1 s1 ops2 s2); auto. lia.
Qed.

Theorem inv_reachable : forall ops s, run ucmp init_state ops = Some s -> inv_b ucmp s = true.
Proof. intros ops s H. apply (run_hist_ok ucmp TO ops s H). Qed.

(* close + reopen with nothing to replay into tables (bounds = nums = []: the log is
   reused, or the write buffer was empty) keeps the layout *)
Theorem reopen_same_layout : forall s nf s',
  do_reopen ucmp s [] [] nf = Some s' ->
  levels s' = levels s /\ imm s' = None /\ last_seq s' = last_seq s /\
  (mem s = [] -> imm s = None -> mem s' = []).
Proof.
  intros s nf s' H. apply (reopen_state ucmp) in H.
  destruct H as (fs & top & ER & _ & _ & _ & ->).
  cbn [reopen_files] in ER. injection ER as <- <-.
  cbn [drain_state levels imm last_seq mem filter]. unfold add_files. cbn [fold_left].
  split. apply set_level_same. split; auto. split; auto.
  intros Hm Him. unfold pending_entries. rewrite Him, Hm. reflexivity.
Qed.

Theorem reopen_same_layout_exists : forall s nf,
  (forall f, In f (concat (levels s)) -> fnum f < nf) ->
  exists s', do_reopen ucmp s [] [] nf = Some s' /\ levels s' = levels s.
Proof.
  intros s nf Hnf.
  assert (G: forallb (fun f => fnum f <? nf) (concat (levels s)) = true).
  { apply forallb_forall. intros f Hf. apply N.ltb_lt, Hnf, Hf. }
  unfold do_reopen. cbn [forallb strictly_increasing andb reopen_files]. rewrite G. cbn [andb filter].
  eexists. split. reflexivity. cbn [levels]. unfold add_files. cbn [fold_left]. apply set_level_same.
Qed.

Theorem numbers_fresh : forall ops s,
  run ucmp init_state ops = Some s ->
  (forall f, In f (concat (levels s)) -> fnum f < next_file s) /\
  NoDup (map fnum (concat (levels s))).
Proof.
  intros ops s H. pose proof (inv_reachable ops s H) as HI. apply (inv_b_SInv ucmp) in HI. split.
  - apply concat_levels_forall, (si_num _ _ HI).
  - apply NoDup_concat_ND, (si_nd _ _ HI).
Qed.

(* the counter never goes back while the database is open (a reopen restarts it from the
   MANIFEST, possibly lower: see next_file_monotone_statement below) *)
Theorem next_file_monotone : forall s o s',
  step ucmp s o = Some s' -> not_reopen o = true -> next_file s <= next_file s'.
Proof.
  intros s o s' H Hn. destruct o as [b| |lvl num nf|c|L n| |qr|bounds nums nf]; cbn [step] in H.
  - injection H as <-. cbn [do_write next_file]. lia.
  - apply switch_state in H. destruct H as [_ ->]. cbn [next_file]. lia.
  - apply (flush_state ucmp) in H. destruct H as (im & _ & G1 & G2 & _ & _ & ->). cbn [drain_state next_file]. lia.
  - apply (compact_state ucmp) in H. destruct H as (HG & outs & _ & ->).
    pose proof (g_nf _ _ _ (guard_spec ucmp s c HG)). cbn [edit_state next_file]. lia.
  - apply (move_state ucmp) in H. destruct H as (_ & ->). cbn [edit_state next_file]. lia.
  - injection H as <-. cbn [do_snapshot next_file]. lia.
  - apply release_state in H. destruct H as (sn & _ & ->). cbn [next_file]. lia.
  - discriminate.
Qed.

(* while open: a file of the new version is a file of the old version or carries a number
   the allocator had not handed out *)
Theorem created_numbers_alloc : forall s o s',
  inv_b ucmp s = true -> step ucmp s o = Some s' -> not_reopen o = true ->
  forall f, In f (concat (levels s')) ->
  In f (concat (levels s)) \/ next_file s <= fnum f < next_file s'.
Proof.
  intros s o s' HI H Hnr f Hf. apply (inv_b_SInv ucmp) in HI.
  pose proof (si_len _ _ HI) as Hlen. unfold NUM_LEVELS in Hlen.
  destruct o as [b| |lvl num nf|c|L n| |qr|bounds nums nf]; cbn [step] in H.
  - injection H as <-. left. exact Hf.
  - apply switch_state in H. destruct H as [_ ->]. left. exact Hf.
  - apply (flush_state ucmp) in H. destruct H as (im & _ & G1 & G2 & _ & G4 & ->).
    cbn [drain_state levels next_file] in *. apply In_concat_levels in Hf. destruct Hf as (i & Hf).
    apply (add_level_In ucmp) in Hf; [|exact (level_lt ucmp s lvl HI G4)]. destruct Hf as [Hf|[_ Hf]].
    + left. apply In_concat_levels. eauto.
    + apply flush_news_In in Hf. destruct Hf as [-> _]. right. cbn [fnum]. lia.
  - apply (compact_state ucmp) in H. destruct H as (HG & outs & Hz & ->).
    pose proof (guard_spec ucmp s c HG) as G.
    apply In_concat_levels in Hf. destruct Hf as (i & Hf).
    apply (edit_In ucmp s (c_level c) (c_in0 c) (c_in1 c) outs (c_nf c) HI (g_lvl _ _ _ G)) in Hf.
    destruct Hf as [(Hf & _)|(_ & Hf)].
    + left. apply In_concat_levels. eauto.
    + right. cbn [edit_state next_file]. apply (g_fresh _ _ _ G). eapply (outs_nums ucmp); eauto.
  - apply (move_state ucmp) in H. destruct H as (HG & ->).
    apply In_concat_levels in Hf. destruct Hf as (i & Hf).
    apply (edit_In ucmp s L [n] [] _ (next_file s) HI (proj1 (move_guard_spec ucmp s L n HG))) in Hf.
    left. apply In_concat_levels. destruct Hf as [(Hf & _)|(_ & Hf)]; eauto.
    apply select_In in Hf. destruct Hf as [Hf _]. eauto.
  - injection H as <-. left. exact Hf.
  - apply release_state in H. destruct H as (sn & _ & ->). left. exact Hf.
  - discriminate.
Qed.

(* every step, reopen included: a created file is numbered above every file that was
   live before the step (so never takes the number of a live file), below the new counter *)
Theorem created_numbers_fresh : forall s o s',
  inv_b ucmp s = true -> step ucmp s o = Some s' ->
  forall f, In f (concat (levels s')) ->
  In f (concat (levels s)) \/
  ((forall g, In g (concat (levels s)) -> fnum g < fnum f) /\ fnum f < next_file s').
Proof.
  intros s o s' HI H f Hf.
  destruct (not_reopen o) eqn:Hnr.
  - destruct (created_numbers_alloc s o s' HI H Hnr f Hf) as [Hc|Hc]; auto.
    right. split; [|apply Hc]. intros g Hg.
    apply (inv_b_SInv ucmp) in HI. apply In_concat_levels in Hg. destruct Hg as (j & Hg).
    exact (N.lt_le_trans _ _ _ (si_num _ _ HI j g Hg) (proj1 Hc)).
  - destruct o as [b| |lvl num nf|c|L n| |qr|bounds nums nf]; try discriminate. cbn [step] in H.
    apply (inv_b_SInv ucmp) in HI.
    pose proof (si_len _ _ HI) as Hlen. unfold NUM_LEVELS in Hlen.
    apply (reopen_state ucmp) in H. destruct H as (fs & top & ER & Hn & _ & Hnf & ->).
    apply In_concat_levels in Hf. destruct Hf as (i & Hf).
    apply (add_level_In ucmp) in Hf; [|lia]. destruct Hf as [Hf|[_ Hf]].
    + left. apply In_concat_levels. eauto.
    + right. cbn [drain_state next_file].
      assert (Hin: In (fnum f) nums).
      { destruct (reopen_files_spec ucmp _ _ _ _ _ _ ER) as (I1 & _). rewrite <- I1.
        apply filter_In in Hf. apply in_map, Hf. }
      destruct (Hn _ Hin) as [Hlt Hab]. split; auto.
      intros g Hg. apply In_concat_levels in Hg. destruct Hg as (j & Hg). eapply Hab; eauto.
Qed.

Corollary created_numbers_not_live : forall s o s',
  inv_b ucmp s = true -> step ucmp s o = Some s' ->
  forall f, In f (concat (levels s')) -> ~ In f (concat (levels s)) ->
  forall g, In g (concat (levels s)) -> fnum g <> fnum f.
Proof.
  intros s o s' HI H f Hf Hnew g Hg.
  destruct (created_numbers_fresh s o s' HI H f Hf) as [Hc|[Hc _]]; [contradiction|].
  specialize (Hc g Hg). lia.
Qed.

Theorem run_created_numbers_fresh : forall ops s s',
  inv_b ucmp s = true -> run ucmp s ops = Some s' -> no_reopen ops = true ->
  next_file s <= next_file s' /\
  forall f, In f (concat (levels s')) -> In f (concat (levels s)) \/ next_file s <= fnum f < next_file s'.
Proof.
  induction ops as [|o r IH]; intros s s' HI H Hn; cbn [run] in H.
  - injection H as <-. split. lia. auto.
  - destruct (step ucmp s o) as [s1|] eqn:E; [|discriminate].
    unfold no_reopen in Hn. cbn [forallb] in Hn. apply andb_true_iff in Hn. destruct Hn as [Hn1 Hn2].
    pose proof (step_preserves_inv ucmp TO s o s1 HI E) as HI1.
    destruct (IH s1 s' HI1 H Hn2) as [M1 F1].
    pose proof (next_file_monotone s o s1 E Hn1) as M0.
    split. exact (N.le_trans _ _ _ M0 M1). intros f Hf. destruct (F1 f Hf) as [Hc|Hc].
    + destruct (created_numbers_alloc s o s1 HI E Hn1 f Hc) as [Hd|Hd]; auto. right. clear - Hd M1. lia.
    + right. clear - Hc M0. lia.
Qed.

End Top.

(* the C13 statements without the restriction to an open database; both are FALSE for OReopen since the model's
   reopen restarts the counter from the MANIFEST value (any nf above the live table numbers) *)
Definition next_file_monotone_statement : Prop :=
  forall ucmp s o s', step ucmp s o = Some s' -> next_file s <= next_file s'.
Definition created_numbers_fresh_statement : Prop :=
  forall ucmp s o s', inv_b ucmp s = true -> step ucmp s o = Some s' ->
  forall f, In f (concat (levels s')) -> ~ In f (concat (levels s)) -> next_file s <= fnum f.

Example next_file_monotone_statement_false : ~ next_file_monotone_statement.
Proof.
  intros H. specialize (H bytes_compare init_state (OReopen [] [] 0) _ eq_refl).
  vm_compute in H. apply H. reflexivity.
Qed.

Example created_numbers_fresh_statement_false : ~ created_numbers_fresh_statement.
Proof.
  intros H.
  pose (s := do_write bytes_compare init_state [WPut [97] [1]]).
  specialize (H bytes_compare s (OReopen [1] [0] 1) _ eq_refl eq_refl (mkF 0 [mkE [97] 1 true [1]])).
  vm_compute in H. apply H; auto.
Qed.

Module Example.
Definition ka : bytes := [97].
Definition kb : bytes := [98].
Definition kc : bytes := [99].
Definition kd : bytes := [100].

(* before the snapshot *)
Definition ops1 : list op := [ OWrite [WPut ka [1]; WPut kb [2]] ].                (* seq 1 2 *)
(* while the snapshot (sequence 2) is held *)
Definition ops2 : list op :=
  [ OWrite [WDel ka; WPut kc [3]];                                                  (* seq 3 4 *)
    OSwitch; OFlush 2 2 3;                            (* imm -> table 2 at level 2 *)
    OSnapshot;                                        (* another snapshot, at 4 *)
    OWrite [WDel kb; WPut kd [6]];                                                  (* seq 5 6 *)
    OSwitch; OFlush 0 3 4;                            (* imm -> table 3 at level 0 *)
    OCompact (mkC 0 [3] [] [] [4] 5);                 (* level 0 -> 1, tombstone of kb kept *)
    ORelease 4 ].                                     (* the OTHER snapshot goes away *)
(* afterwards *)
Definition ops3 : list op :=
  [ ORelease 2;
    OWrite [WPut kb [7]];                                                           (* seq 7 *)
    OReopen [7] [5] 6 ].                              (* replayed log -> table 5 at level 0 *)

Definition all_ops : list op := ops1 ++ OSnapshot :: ops2 ++ ops3.

Definition s1 : state :=
  mkS [mkE ka 1 true [1]; mkE kb 2 true [2]] None (repeat [] 7) 2 [] 2
      [mkE kb 2 true [2]; mkE ka 1 true [1]].

Definition s2 : state :=
  mkS [] None
      [ []; [mkF 4 [mkE kb 5 false []; mkE kd 6 true [6]]];
        [mkF 2 [mkE ka 3 false []; mkE ka 1 true [1]; mkE kb 2 true [2]; mkE kc 4 true [3]]];
        []; []; []; [] ]
      6 [2] 5
      [mkE kd 6 true [6]; mkE kb 5 false []; mkE kc 4 true [3]; mkE ka 3 false [];
       mkE kb 2 true [2]; mkE ka 1 true [1]].

Definition s3 : state :=
  mkS [] None
      [ [mkF 5 [mkE kb 7 true [7]]]; [mkF 4 [mkE kb 5 false []; mkE kd 6 true [6]]];
        [mkF 2 [mkE ka 3 false []; mkE ka 1 true [1]; mkE kb 2 true [2]; mkE kc 4 true [3]]];
        []; []; []; [] ]
      7 [] 6
      [mkE kb 7 true [7]; mkE kd 6 true [6]; mkE kb 5 false []; mkE kc 4 true [3];
       mkE ka 3 false []; mkE kb 2 true [2]; mkE ka 1 true [1]].

Example run1 : run bytes_compare init_state ops1 = Some s1.
Proof. reflexivity. Qed.
Example run2 : run bytes_compare (do_snapshot s1) ops2 = Some s2.
Proof. reflexivity. Qed.
Example run_all : run bytes_compare init_state all_ops = Some s3.
Proof. reflexivity. Qed.

Example written_all :
  written 0 all_ops =
  [mkE ka 1 true [1]; mkE kb 2 true [2]; mkE ka 3 false []; mkE kc 4 true [3];
   mkE kb 5 false []; mkE kd 6 true [6]; mkE kb 7 true [7]].
Proof. reflexivity. Qed.

(* C01 on the run: the final lookups are the last writes *)
Example c01_instance : forall k,
  visible (get bytes_compare s3 k 7) = map_after bytes_compare (written 0 all_ops) k.
Proof. exact (get_latest bytes_compare bytes_compare_total all_ops s3 run_all). Qed.

Example c01_values :
  map (fun k => visible (get bytes_compare s3 k 7)) [ka; kb; kc; kd; [101]]
  = [None; Some [7]; Some [3]; Some [6]; None].
Proof. reflexivity. Qed.

(* C06 on the run: the snapshot at sequence 2 is held throughout ops2 ... *)
Example c06_held : held bytes_compare 2 (do_snapshot s1) ops2.
Proof. apply held_by_count; vm_compute; [reflexivity|lia]. Qed.

Example c06_instance : forall k,
  visible (get bytes_compare s2 k 2) = visible (get bytes_compare s1 k 2) /\
  visible (get bytes_compare s2 k 2) = map_after bytes_compare (written 0 ops1) k.
Proof.
  intros k. split.
  - exact (snapshot_frozen bytes_compare bytes_compare_total ops1 s1 ops2 s2 run1 run2 c06_held k).
  - exact (snapshot_shows_history bytes_compare bytes_compare_total ops1 s1 ops2 s2 run1 run2 c06_held k).
Qed.

(* ... it still sees the deleted keys, while the latest view does not *)
Example c06_values :
  map (fun k => visible (get bytes_compare s2 k 2)) [ka; kb; kc; kd] = [Some [1]; Some [2]; None; None] /\
  map (fun k => visible (get bytes_compare s2 k 6)) [ka; kb; kc; kd] = [None; None; Some [3]; Some [6]].
Proof. vm_compute. split; reflexivity. Qed.

(* the hypothesis [held] cannot be dropped: once released, a compaction may drop what
   only the snapshot could see *)
Definition rel_ops : list op :=
  [ OWrite [WPut ka [2]]; ORelease 1; OSwitch; OFlush 0 2 3; OCompact (mkC 0 [2] [] [] [3] 4) ].
Example released_snapshot_not_frozen :
  exists t1 t2,
    run bytes_compare init_state [OWrite [WPut ka [1]]] = Some t1 /\
    run bytes_compare (do_snapshot t1) rel_ops = Some t2 /\
    visible (get bytes_compare t1 ka 1) = Some [1] /\
    visible (get bytes_compare t2 ka 1) = None.
Proof. do 2 eexists. split. reflexivity. split. vm_compute. reflexivity. split; reflexivity. Qed.

(* C14 / C13 on the run *)
Example c14_instance : inv_b bytes_compare s3 = true.
Proof. exact (inv_reachable bytes_compare bytes_compare_total all_ops s3 run_all). Qed.

Example c14_reopen_instance :
  exists s', do_reopen bytes_compare s3 [] [] 6 = Some s' /\ levels s' = levels s3.
Proof.
  apply reopen_same_layout_exists. intros f Hf. vm_compute in Hf.
  destruct Hf as [<-|[<-|[<-|[]]]]; vm_compute; reflexivity.
Qed.

Example c13_instance :
  map fnum (concat (levels s3)) = [5; 4; 2] /\ next_file s3 = 6.
Proof. split; reflexivity. Qed.
End Example.

Print Assumptions run_hist.
Print Assumptions spec_is_last_write.
Print Assumptions get_latest.
Print Assumptions snapshot_frozen.
Print Assumptions snapshot_frozen_count.
Print Assumptions created_numbers_alloc.
Print Assumptions created_numbers_fresh.
Print Assumptions run_created_numbers_fresh.
