(* FsDur.v -- the durable part of the invariant.  For every namespace cut a
   crash may leave (admissible k) CURRENT names a MANIFEST every exposable
   version of which is recoverable ([Good]); preservation by accepted steps
   (dur_step).  What the rules say of an event: FsInv.chk_all_spec. *)
From LCDB Require Import BaseProofs FsModel FsLemmas FsInv.
Local Open Scope N_scope.

(* the directory cuts a power failure may leave: everything up to the last fsync, any prefix of the rest *)
Definition admissible (d : disk) (k : nat) : Prop := (d_dsync d <= k <= length (d_ops d))%nat.

Definition table_good (d : disk) (k : nat) (t : N) : Prop :=
  exists o ents, nsk d k (FTable t) = Some o /\ nth_error (d_objs d) o = Some (mkObj [PTable ents] 1).

(* a version that a crash may expose is recoverable in the namespace cut k *)
Definition ver_good (d : disk) (k : nat) (ms : mver) : Prop :=
  manifest_ok ms = true /\
  (forall f, In f (mv_files ms) -> table_good d k (snd f)) /\
  (forall n, In (DUnlink (FLog n)) (d_ops d) -> log_dead ms n = true).

(* in the cut k, CURRENT is object c and names MANIFEST m, which is object M with content xM *)
Definition view (d : disk) (k : nat) (c : nat) (m : N) (M : nat) (xM : fobj) : Prop :=
  nsk d k FCurrent = Some c /\ nth_error (d_objs d) c = Some (mkObj [PCurrent m] 1) /\
  nsk d k (FManifest m) = Some M /\ nth_error (d_objs d) M = Some xM.

Definition Good (d : disk) (k : nat) : Prop :=
  forall c, nsk d k FCurrent = Some c ->
  exists m M xM, view d k c m M xM /\ forall ms, In ms (exposed xM) -> ver_good d k ms.

Record Inv_dur (p : pstate) : Prop := {
  id_struct : Inv_struct p;
  id_good : forall k, admissible (p_disk p) k -> Good (p_disk p) k;
  (* p_cov is above every log_number written in any edit *)
  id_cov : forall o x e l, nth_error (d_objs (p_disk p)) o = Some x -> In (PEdit e) (o_recs x) ->
      me_log e = Some l -> l <= p_cov p;
  (* only names created earlier are unlinked *)
  id_unl : forall u f, nth_error (d_ops (p_disk p)) u = Some (DUnlink f) ->
      exists i o, (i < u)%nat /\ created_at (p_disk p) i f o;
  (* R4: a log is created only once CURRENT exists *)
  id_logcur : forall i n o, created_at (p_disk p) i (FLog n) o -> nsk (p_disk p) i FCurrent <> None }.

Lemma exposed_log_le_cov : forall p o x ms L, Inv_dur p -> nth_error (d_objs (p_disk p)) o = Some x ->
  In ms (exposed x) -> mv_log ms = Some L -> L <= p_cov p.
Proof.
  intros p o x ms L I Hx Hin HL. unfold exposed in Hin.
  destruct (edits_of (o_recs x)) as [eds|] eqn:He; [|contradiction].
  apply in_map_iff in Hin. destruct Hin as [j [<- _]].
  destruct (replay_log_from _ _ HL) as [e [Hin Hl]].
  eapply (id_cov _ I); eauto. eapply in_edits_of; eauto. eapply In_firstn; exact Hin.
Qed.

Lemma ver_good_apply : forall d k ms ed L, ver_good d k ms -> mv_log ms = Some L ->
  (forall l, me_log ed = Some l -> L <= l) -> (forall f, In f (me_new ed) -> table_good d k (snd f)) ->
  ver_good d k (apply_edit ms ed).
Proof.
  intros d k ms ed L [M1 [M2 M3]] EL Hle Hnew. split; [apply manifest_ok_apply; exact M1|split].
  - intros f Hin. destruct (in_apply_files _ _ _ Hin) as [H|H]; [apply M2; exact H|apply Hnew; exact H].
  - intros n Hin. eapply log_dead_apply; [apply M3; exact Hin|exact EL|exact Hle].
Qed.

(* Within one disk, from a cut to the next, when the operation between them binds or unbinds
   a name f: the cut stays good if nothing in view is called f. *)
Lemma Good_S_keep : forall d k f, Good d k -> f <> FCurrent ->
  (forall g, g <> f -> nsk d (S k) g = nsk d k g) ->
  (forall c m M xM, view d k c m M xM -> FManifest m <> f /\
     forall ms t o, In ms (exposed xM) -> In t (mv_files ms) -> nsk d k (FTable (snd t)) = Some o -> FTable (snd t) <> f) ->
  Good d (S k).
Proof.
  intros d k f G Hf Hns Hv c Hc. rewrite (Hns _ (not_eq_sym Hf)) in Hc.
  destruct (G c Hc) as [m [M [xM [V Hms]]]]. destruct (Hv _ _ _ _ V) as [Hm Ht]. destruct V as [V1 [V2 [V3 V4]]].
  exists m, M, xM. split.
  - unfold view. rewrite (Hns _ (not_eq_sym Hf)), (Hns _ Hm). auto.
  - intros ms Hin. destruct (Hms ms Hin) as [G1 [G2 G3]]. split; [exact G1|split; [|exact G3]].
    intros t Hin'. destruct (G2 t Hin') as [o [ents [Hb Hx]]]. exists o, ents. rewrite (Hns _ (Ht _ _ _ Hin Hin' Hb)). auto.
Qed.

(* the view of the whole directory is the one the rules look at *)
Lemma view_full : forall d c m M xM, view d (length (d_ops d)) c m M xM ->
  current_manifest d = Some m /\ obj_at d (FManifest m) = Some xM.
Proof.
  intros d c m M xM [V1 [V2 [V3 V4]]]. unfold current_manifest, obj_at.
  rewrite !ns_lookup_nsk, V1, V2, V3, V4. auto.
Qed.

Section Step.
Variable p : pstate.

Section Struct.
Hypothesis IS : Inv_struct p.
Let W : ops_wf (d_ops (p_disk p)) (length (d_objs (p_disk p))) := is_ops p IS.

Lemma view_manifest_typed : forall k c m M xM, view (p_disk p) k c m M xM ->
  exists eds, edits_of (o_recs xM) = Some eds /\ (o_synced xM <= length eds)%nat /\ Forall prev_ok eds.
Proof.
  intros k c m M xM [_ [_ [V3 V4]]].
  destruct (nsk_created _ _ W _ _ _ V3 ltac:(discriminate)) as [i [_ C]].
  destruct (is_typed _ IS _ _ _ _ C V4) as [[eds [He Hp]] [S1 _]].
  exists eds. split; [exact He|split; [|exact Hp]]. rewrite (edits_of_length _ _ He); exact S1.
Qed.

(* R3's "no rename is pending": CURRENT is the same in every admissible cut, so the MANIFEST in view
   there is the one that the rules look at *)
Lemma current_view : forall m0 x0 k c m M xM, no_pending_rename (p_disk p) = true ->
  current_manifest (p_disk p) = Some m0 -> obj_at (p_disk p) (FManifest m0) = Some x0 ->
  admissible (p_disk p) k -> view (p_disk p) k c m M xM -> xM = x0.
Proof.
  intros m0 x0 k c m M xM Hn Hcm Hob [A1 A2] [V1 [V2 [V3 V4]]].
  assert (Hsame : nsk (p_disk p) (length (d_ops (p_disk p))) FCurrent = nsk (p_disk p) k FCurrent).
  { apply (nsk_current_norename _ _ W _ _ A2 (Nat.le_refl _)). intros u a b Hu Hop. apply negb_true_iff in Hn.
    discriminate (proj1 (existsb_false_iff _ _) Hn _ (nth_error_In_skipn _ _ _ _ Hop (Nat.le_trans _ _ _ A1 (proj1 Hu)))). }
  unfold current_manifest, obj_at in Hcm. rewrite ns_lookup_nsk, Hsame, V1, V2 in Hcm.
  injection Hcm as <-.
  destruct (obj_at_some _ _ _ Hob) as [M0 [Hl Hx]]. rewrite ns_lookup_nsk in Hl.
  assert (M = M0) by (eapply (nsk_same_obj _ _ W); eauto; discriminate). subst M0.
  rewrite V4 in Hx. injection Hx as <-. reflexivity.
Qed.

Lemma table_ok_good : forall k t, admissible (p_disk p) k ->
  fs_table_ok (p_disk p) t = true -> table_good (p_disk p) k t.
Proof.
  intros k t [A1 A2] H. destruct (table_ok_spec _ _ H) as [o [ents [Hl Hx]]].
  destruct (lookup_created _ IS _ _ Hl) as [i [g [Hc Hg]]]. specialize (Hg ltac:(discriminate)); subst g.
  destruct (is_typed _ IS _ _ _ _ Hc Hx) as [_ [_ S2]]. cbn [o_synced] in S2. specialize (S2 ltac:(lia)).
  exists o, ents; split; [|exact Hx].
  destruct (nsk_bound_or_unlinked _ _ W _ _ _ Hc Logic.I k ltac:(lia) A2) as [Hb|[u [Hu1 Hu2]]]; [exact Hb|].
  (* unlinked before the cut, the table would not be in the running directory *)
  assert (Hu : (u < length (d_ops (p_disk p)))%nat) by (apply nth_error_Some; congruence).
  rewrite ns_lookup_nsk, (nsk_unlinked _ _ W _ _ _ _ Hc Hu2) in Hl by lia. discriminate.
Qed.

Variable e : fev.
Hypothesis Hchk : chk_all p e = true.
Let IS' : Inv_struct (pstep p e) := struct_step p IS e Hchk.

(* a complete fsynced table or *.dbtmp file is left as it is: its object can only have been
   fsynced or appended to, and after the event it still has the type of its name *)
Lemma sealed_kept : forall i f o r, match f with FTable _ | FTmp _ => True | _ => False end ->
  created_at (p_disk p) i f o ->
  nth_error (d_objs (p_disk p)) o = Some (mkObj [r] 1) ->
  nth_error (d_objs (fs_step (p_disk p) e)) o = Some (mkObj [r] 1).
Proof.
  intros i f o r Hf Hc Hx. destruct (step_obj_old _ e _ _ Hx) as [x' [Hx' S]]. rewrite Hx'. f_equal.
  pose proof (step_created_mono _ e _ _ _ Hc) as Hc'. rewrite <- pstep_disk in Hc', Hx'.
  destruct (is_typed _ IS' _ _ _ _ Hc' Hx') as [T _].
  destruct S as [|g _ _|g pl _ _]; [reflexivity|reflexivity|].
  unfold obj_append in T. destruct f; try contradiction; cbn [typed o_recs app] in T;
    destruct T as [T|[? T]]; discriminate T.
Qed.

End Struct.

Hypothesis I : Inv_dur p.
Let IS : Inv_struct p := id_struct p I.
Let W : ops_wf (d_ops (p_disk p)) (length (d_objs (p_disk p))) := is_ops p IS.
Variable e : fev.
Hypothesis Hchk : chk_all p e = true.
Let IS' : Inv_struct (pstep p e) := struct_step p IS e Hchk.

(* The versions that the MANIFEST in view exposes after the event are good (in the old disk),
   and a log that the event unlinks is dead in them. *)
Lemma versions_step : forall k c m M xM xM', admissible (p_disk p) k -> view (p_disk p) k c m M xM ->
  nth_error (d_objs (fs_step (p_disk p) e)) M = Some xM' ->
  (forall ms, In ms (exposed xM) -> ver_good (p_disk p) k ms) ->
  forall ms, In ms (exposed xM') -> ver_good (p_disk p) k ms /\ forall n, e = EUnlink (FLog n) -> log_dead ms n = true.
Proof.
  intros k c m M xM xM' A V Hx' Hold ms Hin. pose proof Hchk as Hk. pose proof V as [V1 [V2 [V3 V4]]].
  destruct (view_manifest_typed IS _ _ _ _ _ V) as [eds [He [Hs Hp]]].
  destruct (step_obj_old _ e _ _ V4) as [x'' [Hx'' S]]. rewrite Hx' in Hx''. injection Hx'' as <-.
  destruct S as [|f Ee Hl|f pl Ee Hl].
  - split; [apply Hold; exact Hin|]. intros n En. rewrite En in Hk.
    destruct (chk_all_spec _ _ Hk) as [_ [_ [Hnp [m0 [x0 [Hcm [Hob Hd]]]]]]].
    apply Hd. rewrite <- (current_view IS _ _ _ _ _ _ _ Hnp Hcm Hob A V). exact Hin.
  - split; [apply Hold; eapply exposed_sync; eauto|]. intros n En. rewrite En in Ee. discriminate.
  - split; [|intros n En; rewrite En in Ee; discriminate]. rewrite Ee in Hk.
    (* an append to the object of the MANIFEST in view is the append of an edit to that MANIFEST *)
    destruct (nsk_created _ _ W _ _ _ V3 ltac:(discriminate)) as [i' [_ C']].
    pose proof (append_name _ IS _ _ _ _ _ Hk Hl C') as ->.
    destruct (chk_all_spec _ _ Hk) as [x1 [_ R]]. destruct pl as [s ops|ed|ents|cm]; try contradiction.
    destruct R as [_ [R2 R5]].
    destruct (exposed_append _ _ _ He Hs _ Hin) as [Hin' | ->]; [apply Hold, Hin'|].
    (* the new version is the last one with the edit applied: R5 keeps log_number
       from falling, R2 has checked the tables the edit adds *)
    pose proof (Hold _ (exposed_last _ _ He Hs)) as V0.
    destruct (proj1 (manifest_ok_iff _) (proj1 V0)) as [nx [L [ls [_ [EL _]]]]].
    apply (ver_good_apply _ _ _ _ L V0 EL).
    + intros l Hle. destruct (R5 _ Hle) as [H5 _].
      pose proof (exposed_log_le_cov _ _ _ _ _ I V4 (exposed_last _ _ He Hs) EL) as Hcov.
      clear - H5 Hcov. lia.
    + intros f' Hnew. apply (table_ok_good IS _ _ A), R2, Hnew.
Qed.

(* a cut that was admissible before the event is good after it *)
Lemma Good_old : forall k, admissible (p_disk p) k -> Good (fs_step (p_disk p) e) k.
Proof.
  intros k A. pose proof (step_nsk_old (p_disk p) e k (proj2 A)) as Hns.
  intros c Hc. rewrite Hns in Hc.
  destruct (id_good _ I k A c Hc) as [m [M [xM [V Hms]]]]. pose proof V as [V1 [V2 [V3 V4]]].
  destruct (nsk_cur_created _ _ W _ _ V1) as [i [t Cc]].
  destruct (step_obj_old _ e _ _ V4) as [xM' [HxM' _]].
  exists m, M, xM'. split.
  - unfold view. rewrite !Hns. repeat split; auto. exact (sealed_kept IS e Hchk _ (FTmp t) _ _ Logic.I Cc V2).
  - intros ms Hin. destruct (versions_step _ _ _ _ _ _ A V HxM' Hms ms Hin) as [[G1 [G2 G3]] Hd].
    split; [exact G1|split].
    + intros f Hf. destruct (G2 f Hf) as [o [ents [Hb Hx]]]. exists o, ents. rewrite Hns. split; [exact Hb|].
      destruct (nsk_created _ _ W _ _ _ Hb ltac:(discriminate)) as [j [_ Ct]]. exact (sealed_kept IS e Hchk _ (FTable (snd f)) _ _ Logic.I Ct Hx).
    + intros n Hin'. apply In_nth_error in Hin'. destruct Hin' as [u Hu].
      destruct (step_op _ _ _ _ Hu) as [Hu'|[_ Ee]]; [apply G3; eapply nth_error_In; exact Hu'|apply Hd; exact Ee].
Qed.

(* the cut that contains the operation that the event adds: from the cut before it, inside the new disk *)
Lemma Good_new : forall k op, (length (d_ops (p_disk p)) <= k)%nat ->
  nth_error (d_ops (fs_step (p_disk p) e)) k = Some op -> Good (fs_step (p_disk p) e) (S k).
Proof.
  intros k op Hle Eop. pose proof Hchk as Hk. pose proof (step_nsk_old (p_disk p) e) as Hns.
  pose proof (Good_old _ (conj (is_dsync _ IS) (Nat.le_refl _))) as G.
  destruct (step_op _ _ _ _ Eop) as [Hold|[-> Hop]].
  { assert (k < length (d_ops (p_disk p)))%nat by (apply nth_error_Some; congruence). lia. }
    destruct op as [f o|a b|f].
    + (* a new name: nothing in view is called f *)
      destruct Hop as [Ee _]. rewrite Ee in Hk. destruct (create_fresh _ IS _ Hk) as [H0 [Hnew _]].
      assert (Hfresh : forall g o', nsk (fs_step (p_disk p) e) (length (d_ops (p_disk p))) g = Some o' -> g <> FCurrent -> g <> f).
      { intros g o' Hb Hg ->. rewrite Hns in Hb by lia. destruct (nsk_created _ _ W _ _ _ Hb Hg) as [j [_ C]].
        apply Hnew. apply in_created_names; exists o'; eapply nth_error_In; exact C. }
      apply (Good_S_keep _ _ f G H0).
      * intros g Hg. rewrite (nsk_S _ _ _ Eop). cbn [ns_apply]. rewrite (proj2 (fname_eqb_neq g f) Hg). reflexivity.
      * intros c m M xM [_ [_ [V3 _]]]. split; [eapply Hfresh; [exact V3|discriminate]|].
        intros ms t o' _ _ Hb. eapply Hfresh; [exact Hb|discriminate].
    + (* R4 has checked the MANIFEST that CURRENT now names *)
      rewrite Hop in Hk. destruct (chk_all_spec _ _ Hk) as [t [m [x [-> [-> [Htmp [Hman Hall]]]]]]].
      destruct (obj_at_some _ _ _ Htmp) as [ot [Hl Hxt]]. destruct (obj_at_some _ _ _ Hman) as [M [HlM HxM]].
      assert (Eobjs : d_objs (fs_step (p_disk p) e) = d_objs (p_disk p)) by (apply step_dirop_objs; rewrite Hop; exact Logic.I).
      assert (Hns' : forall g, nsk (fs_step (p_disk p) e) (S (length (d_ops (p_disk p)))) g =
                     if fname_eqb g FCurrent then Some ot else if fname_eqb g (FTmp t) then None else ns_lookup (p_disk p) g).
      { intro g. rewrite (nsk_S _ _ _ Eop), Hns by lia. cbn [ns_apply]. rewrite <- ns_lookup_nsk, Hl. cbv beta. rewrite <- ns_lookup_nsk. reflexivity. }
      intros c Hc. rewrite Hns' in Hc. cbn [fname_eqb] in Hc. injection Hc as <-.
      exists m, M, x. split.
      * unfold view. rewrite !Hns', Eobjs. cbn [fname_eqb]. auto.
      * intros ms Hms. destruct (Hall _ Hms) as [R1 [R2 R3]]. split; [exact R1|split].
        -- intros f Hf. destruct (table_ok_spec _ _ (R2 _ Hf)) as [o' [ents [Hb Hx]]].
           exists o', ents. rewrite Hns', Eobjs. cbn [fname_eqb]. auto.
        -- (* a log unlinked earlier is unbound now, so R4 checked that it is dead *)
           intros n Hin. apply In_nth_error in Hin. destruct Hin as [u Hu].
           destruct (step_op _ _ _ _ Hu) as [Hu'|[_ Ee]]; [|rewrite Hop in Ee; discriminate].
           destruct (id_unl _ I u _ Hu') as [i [o [Hi Hc]]].
           destruct (in_map_fst _ _ (in_logs_of_created _ IS _ _ _ Hc)) as [bs Hlog].
           apply (R3 _ Hlog). cbn [fst]. rewrite ns_lookup_nsk.
           eapply nsk_unlinked; [exact W|exact Hc|exact Hu'|exact Hi| |lia].
           apply nth_error_Some. congruence.
    + (* the rules have checked that nothing in view is called f *)
      rewrite Hop in Hk. destruct (unlink_bound _ _ Hk) as [Hf _].
      assert (Eobjs : d_objs (fs_step (p_disk p) e) = d_objs (p_disk p)) by (apply step_dirop_objs; rewrite Hop; exact Logic.I).
      apply (Good_S_keep _ _ f G Hf).
      * intros g Hg. rewrite (nsk_S _ _ _ Eop). cbn [ns_apply]. rewrite (proj2 (fname_eqb_neq g f) Hg). reflexivity.
      * intros c m M xM V. unfold view in V. rewrite !Hns, Eobjs in V by lia.
        destruct (view_full _ _ _ _ _ V) as [Hcm Hob]. split.
        -- intros <-. destruct (chk_all_spec _ _ Hk) as [_ [_ [m0 [Hcm0 Hne]]]]. congruence.
        -- intros ms t o' Hms Ht _ <-. destruct (chk_all_spec _ _ Hk) as [_ [_ [m0 [x0 [Hcm0 [Hob0 Hnot]]]]]].
           rewrite Hcm in Hcm0. injection Hcm0 as <-. rewrite Hob in Hob0. injection Hob0 as <-.
           exact (Hnot _ _ Hms Ht eq_refl).
Qed.

Lemma dur_step : Inv_dur (pstep p e).
Proof.
  pose proof Hchk as Hk. pose proof (step_nsk_old (p_disk p) e) as Hns.
  constructor; rewrite ?pstep_disk.
  - exact IS'.
  - intros k [A1 A2].
    destruct (Nat.le_gt_cases k (length (d_ops (p_disk p)))) as [Hle|Hgt].
    { apply Good_old. split; [pose proof (dsync_mono _ IS e); lia|exact Hle]. }
    destruct k as [|k]; [lia|].
    destruct (nth_error (d_ops (fs_step (p_disk p) e)) k) as [op|] eqn:Eop; [|apply nth_error_None in Eop; lia].
    apply (Good_new k op); [lia|exact Eop].
  - intros o x ed l' Hx Hin Hl. pose proof (pstep_cov_mono p e) as Hmono.
    destruct (step_obj_inv _ _ _ _ Hx) as [[x0 [Hx0 S]]|[_ ->]]; [|contradiction].
    assert (Hold : In (PEdit ed) (o_recs x0) -> l' <= p_cov (pstep p e)).
    { intro Hin0. pose proof (id_cov _ I _ _ _ _ Hx0 Hin0 Hl). lia. }
    destruct S as [|f _ _|f pl Ee Hlk]; try exact (Hold Hin).
    apply in_app_or in Hin. destruct Hin as [Hin|[->|[]]]; [exact (Hold Hin)|].
    (* the new edit: R0 says it goes to a MANIFEST, whose edits raise the watermark *)
    rewrite Ee in Hk. destruct (chk_all_spec _ _ Hk) as [x [_ R]].
    destruct f; try contradiction. rewrite Ee, pstep_cov, Hl. apply N.le_max_r.
  - intros u f Hu. destruct (step_op _ _ _ _ Hu) as [Hu'|[-> Ee]].
    + destruct (id_unl _ I u f Hu') as [i [o [Hi Hc]]]. exists i, o. split; [exact Hi|apply step_created_mono; exact Hc].
    + rewrite Ee in Hk. destruct (unlink_bound _ _ Hk) as [Hf [o Hlk]].
      destruct (lookup_created _ IS _ _ Hlk) as [i [g [Hc Hg]]]. rewrite (Hg Hf) in Hc.
      exists i, o. split; [apply nth_error_Some; unfold created_at in Hc; congruence|apply step_created_mono; exact Hc].
  - intros i n o Hc. destruct (step_op _ _ _ _ Hc) as [Hc'|[-> [Ee _]]].
    + rewrite Hns; [exact (id_logcur _ I _ _ _ Hc')|]. apply Nat.lt_le_incl, nth_error_Some. congruence.
    + rewrite Hns by lia. rewrite Ee in Hk. destruct (chk_all_spec _ _ Hk) as [_ [_ [_ H4]]].
      unfold current_manifest, obj_at in H4. rewrite <- ns_lookup_nsk.
      destruct (ns_lookup (p_disk p) FCurrent); [discriminate|elim H4; reflexivity].
Qed.

End Step.

Lemma Inv_dur_p0 : Inv_dur p0.
Proof.
  constructor.
  - constructor; cbn.
    + constructor; cbn; try (intros; contradiction); try constructor; intros [].
    + lia.
    + intros f [].
    + intros i f o x H; destruct i; discriminate.
    + reflexivity.
    + repeat constructor.
  - intros k [A1 A2] c Hc. cbn in A2. assert (k = O) by lia. subst k. discriminate.
  - intros o x e l H. destruct o; discriminate.
  - intros u f H. destruct u; discriminate.
  - intros i n o H. destruct i; discriminate.
Qed.

Theorem Inv_dur_run : forall tr, wf_protocol tr = true -> Inv_dur (prun tr).
Proof.
  intro tr; induction tr as [|e tr IH] using rev_ind; intro H.
  - exact Inv_dur_p0.
  - apply wf_protocol_snoc in H. destruct H as [H1 H2]. rewrite prun_snoc. apply dur_step; auto.
Qed.
