(* LifecycleProofs.v -- proofs about Lifecycle.v (property C20).  Locks: LInv is kept by every operation (lk_run_LInv)
   and gives second_open_fails, open_succeeds, close_releases, failed_open_releases; with several processes PInv holds
   when the table is consulted first (prun_checked_PInv).  Destroy: destroy_remaining_In / _nil / _idem.  Backup: it is
   a reopen step (backup_is_step), so backup_Inv2, backup_views, backup_get, backup_scan; wrun_split: source and backup
   evolve independently.  Comparator check: edits_check_true. *)
From LCDB Require Import Base BaseProofs Engine EngineSpec EngineRead Filename FilenameProofs Edit Lifecycle.
From LCDB Require Import EngineStepsBase EngineStepsInv EngineStepsFlush EngineSteps EngineTop IteratorProofs.
Require Import Lia.
Local Open Scope N_scope.

Lemma dir_in_In d l : dir_in d l = true <-> In d l.
Proof. exact (existsb_eqb_In bytes_eqb bytes_eqb_eq d l). Qed.

Lemma dir_in_false d l : dir_in d l = false <-> ~ In d l.
Proof.
  split.
  - intros Hf Hin. apply dir_in_In in Hin. congruence.
  - intros Hn. destruct (dir_in d l) eqn:E; [|reflexivity]. apply dir_in_In in E. contradiction.
Qed.

Lemma unlock_file_head d l : unlock_file d (d :: l) = l.
Proof. unfold unlock_file. cbn [dir_remove]. rewrite bytes_eqb_refl. reflexivity. Qed.

Lemma dir_remove_split d l : In d l ->
  exists a b, l = a ++ d :: b /\ dir_remove d l = a ++ b /\ ~ In d a.
Proof.
  induction l as [|x r IH]; intros Hin; [destruct Hin|].
  cbn [dir_remove]. destruct (bytes_eqb d x) eqn:E.
  - apply bytes_eqb_eq in E. subst x. exists [], r. repeat split; auto.
  - apply bytes_eqb_neq in E. destruct Hin as [->|Hin]; [contradiction|].
    destruct (IH Hin) as (a & b & -> & Hr & Hna). exists (x :: a), b.
    split; [reflexivity|]. split; [cbn; rewrite Hr; reflexivity|].
    intros [->|H]; [contradiction|auto].
Qed.

Lemma dir_remove_notin d l : ~ In d l -> dir_remove d l = l.
Proof.
  induction l as [|x r IH]; intros Hn; [reflexivity|].
  cbn [dir_remove]. destruct (bytes_eqb d x) eqn:E.
  - apply bytes_eqb_eq in E. subst x. exfalso. apply Hn. left; reflexivity.
  - rewrite IH; [reflexivity|]. intros H. apply Hn. right; exact H.
Qed.

Lemma dir_remove_In d l x : NoDup l -> (In x (dir_remove d l) <-> In x l /\ x <> d).
Proof.
  intros Hnd. destruct (in_dec (list_eq_dec N.eq_dec) d l) as [Hin|Hn].
  - destruct (dir_remove_split d l Hin) as (a & b & -> & -> & Hna).
    apply NoDup_remove_2 in Hnd. rewrite !in_app_iff in *. cbn [In]. split.
    + intros H. split; [tauto|]. intros ->. tauto.
    + intros ([H|[H|H]] & Hne); [tauto|congruence|tauto].
  - rewrite dir_remove_notin by exact Hn. split; [|tauto].
    intros H. split; [exact H|]. intros ->. contradiction.
Qed.

Lemma dir_remove_NoDup d l : NoDup l -> NoDup (dir_remove d l).
Proof.
  intros Hnd. destruct (in_dec (list_eq_dec N.eq_dec) d l) as [Hin|Hn].
  - destruct (dir_remove_split d l Hin) as (a & b & -> & -> & _). apply NoDup_remove_1 in Hnd. exact Hnd.
  - rewrite dir_remove_notin by exact Hn. exact Hnd.
Qed.

Lemma handle_dir_split h hs d : handle_dir h hs = Some d ->
  exists a b, hs = a ++ (h, d) :: b /\ handle_remove h hs = a ++ b.
Proof.
  induction hs as [|[h' d'] r IH]; intros H; [discriminate|].
  cbn [handle_dir] in H. cbn [handle_remove]. destruct (h =? h') eqn:E.
  - apply N.eqb_eq in E. subst h'. injection H as ->. exists [], r. split; reflexivity.
  - destruct (IH H) as (a & b & -> & Hr). exists ((h', d') :: a), b. split; [reflexivity|].
    cbn. rewrite Hr. reflexivity.
Qed.

Lemma dir_handle_Some d hs : In d (map snd hs) -> exists h, dir_handle d hs = Some h /\ handle_dir h hs <> None.
Proof.
  induction hs as [|[h' d'] r IH]; intros Hin; [destruct Hin|].
  cbn [dir_handle]. destruct (bytes_eqb d d') eqn:E.
  - exists h'. split; [reflexivity|]. cbn [handle_dir]. rewrite N.eqb_refl. discriminate.
  - apply bytes_eqb_neq in E. destruct Hin as [Hd|Hin]; [cbn in Hd; congruence|].
    destruct (IH Hin) as (h & Hh & Hne). exists h. split; [exact Hh|].
    cbn [handle_dir]. destruct (h =? h'); [discriminate|exact Hne].
Qed.

(* with unique handle identifiers, the handle found for d is a handle on d *)
Lemma dir_handle_dir d hs h : NoDup (map fst hs) -> dir_handle d hs = Some h -> handle_dir h hs = Some d.
Proof.
  induction hs as [|[h' d'] r IH]; intros Hnd H; [discriminate|].
  cbn [dir_handle] in H. cbn [map fst] in Hnd. inversion Hnd as [|? ? Hni Hnd']; subst.
  cbn [handle_dir]. destruct (bytes_eqb d d') eqn:E.
  - injection H as ->. rewrite N.eqb_refl. apply bytes_eqb_eq in E. congruence.
  - specialize (IH Hnd' H). destruct (h =? h') eqn:Eh; [|exact IH].
    apply N.eqb_eq in Eh. subst h'. exfalso. apply Hni.
    destruct (handle_dir_split h r d IH) as (a & b & -> & _). rewrite map_app, in_app_iff. right. left. reflexivity.
Qed.

Record LInv (s : lk_state) : Prop := {
  li_locks_nodup : NoDup (locks s);
  li_dirs_nodup : NoDup (open_dirs s);
  li_ids_nodup : NoDup (map fst (handles s));
  li_ids_bound : forall x, In x (handles s) -> fst x < next_handle s;
  li_held : forall d, In d (locks s) <-> In d (open_dirs s) }.

Lemma lk_init_LInv : LInv lk_init.
Proof. constructor; cbn; try constructor; try tauto; intros x []. Qed.

Lemma open_gen_LInv ok s d : LInv s -> LInv (fst (lc_open_gen ok s d)).
Proof.
  intros [H1 H2 H3 H4 H5]. unfold lc_open_gen, lock_file.
  destruct (dir_in d (locks s)) eqn:E; [constructor; assumption|].
  apply dir_in_false in E. destruct ok; cbn [fst].
  - constructor; unfold open_dirs in *; cbn [locks handles next_handle map fst snd].
    + constructor; assumption.
    + constructor; [|assumption]. rewrite <- H5. exact E.
    + constructor; [|assumption]. intros Hin. apply in_map_iff in Hin. destruct Hin as (x & Hx & Hin).
      specialize (H4 x Hin). lia.
    + intros x [<-|Hx]; [cbn; lia|]. specialize (H4 x Hx). lia.
    + intros d0. cbn [In]. rewrite H5. tauto.
  - rewrite unlock_file_head. constructor; assumption.
Qed.

Lemma close_handle_LInv s h : LInv s -> LInv (fst (lc_close_handle s h)).
Proof.
  intros [H1 H2 H3 H4 H5]. unfold lc_close_handle.
  destruct (handle_dir h (handles s)) as [d|] eqn:E; cbn [fst]; [|constructor; assumption].
  destruct (handle_dir_split h (handles s) d E) as (a & b & Hs & Hr).
  unfold open_dirs in *. rewrite Hs in *. rewrite Hr. clear Hr.
  rewrite map_app in *. cbn [map fst snd] in *.
  constructor; cbn [locks handles next_handle]; unfold open_dirs; cbn [handles].
  - apply dir_remove_NoDup. exact H1.
  - rewrite map_app. apply NoDup_remove_1 in H2. exact H2.
  - rewrite map_app. apply NoDup_remove_1 in H3. exact H3.
  - intros x Hx. apply H4. rewrite in_app_iff in *. cbn [In]. tauto.
  - intros d0. unfold unlock_file. rewrite dir_remove_In by exact H1. rewrite H5.
    pose proof (NoDup_remove_2 _ _ _ H2) as Hni. rewrite map_app, !in_app_iff in *. cbn [In]. split.
    + intros ([H|[H|H]] & Hne); [tauto|congruence|tauto].
    + intros H. split; [tauto|]. intros ->. tauto.
Qed.

Lemma close_LInv s d : LInv s -> LInv (fst (lc_close s d)).
Proof.
  intros H. unfold lc_close. destruct (dir_handle d (handles s)); [apply close_handle_LInv; exact H|exact H].
Qed.

Lemma lk_step_LInv s o : LInv s -> LInv (fst (lk_step s o)).
Proof.
  intros H. destruct o; cbn [lk_step].
  - apply open_gen_LInv; exact H.
  - apply open_gen_LInv; exact H.
  - apply close_LInv; exact H.
  - apply close_handle_LInv; exact H.
Qed.

Lemma lk_run_LInv ops : forall s, LInv s -> LInv (lk_run s ops).
Proof.
  induction ops as [|o r IH]; intros s H; cbn [lk_run]; [exact H|].
  apply IH. apply lk_step_LInv. exact H.
Qed.

Lemma count_nodup_map {A} (f : A -> dir) d l : NoDup (map f l) ->
  (length (filter (fun y => bytes_eqb d (f y)) l) <= 1)%nat.
Proof.
  induction l as [|x r IH]; intros Hnd; [cbn; lia|].
  cbn [map] in Hnd. inversion Hnd as [|? ? Hni Hnd']; subst. cbn [filter]. destruct (bytes_eqb d (f x)) eqn:E.
  - apply bytes_eqb_eq in E. subst d. rewrite filter_false; [cbn; lia|].
    intros y Hy. apply bytes_eqb_neq. intros E. apply Hni. rewrite E. apply in_map, Hy.
  - apply IH. exact Hnd'.
Qed.

Lemma count_nodup d l : NoDup l -> (length (filter (bytes_eqb d) l) <= 1)%nat.
Proof. intros Hnd. apply (count_nodup_map (fun x => x)). rewrite map_id. exact Hnd. Qed.

Lemma p_count_nodup d l : NoDup (map snd l) -> (length (filter (fun y : N * dir => bytes_eqb d (snd y)) l) <= 1)%nat.
Proof. apply count_nodup_map. Qed.

(* the facts of C20_exclusive, for any state satisfying the invariant *)
Lemma second_open_fails ok s d : LInv s -> In d (open_dirs s) -> lc_open_gen ok s d = (s, RLocked).
Proof.
  intros HI Hin. unfold lc_open_gen, lock_file.
  apply (li_held s HI) in Hin. apply dir_in_In in Hin. rewrite Hin. reflexivity.
Qed.

Lemma open_succeeds s d : LInv s -> ~ In d (open_dirs s) ->
  snd (lc_open s d) = ROpened (next_handle s) /\ In d (open_dirs (fst (lc_open s d))).
Proof.
  intros HI Hn. unfold lc_open, lc_open_gen, lock_file.
  rewrite <- (li_held s HI) in Hn. apply dir_in_false in Hn. rewrite Hn. cbn. auto.
Qed.

Lemma failed_open_releases s d : LInv s -> ~ In d (open_dirs s) -> lc_failed_open s d = (s, RFailed).
Proof.
  intros HI Hn. unfold lc_failed_open, lc_open_gen, lock_file.
  rewrite <- (li_held s HI) in Hn. apply dir_in_false in Hn. rewrite Hn, unlock_file_head.
  destruct s; reflexivity.
Qed.

Lemma close_releases s d : LInv s -> In d (open_dirs s) ->
  snd (lc_close s d) = RClosed /\ ~ In d (open_dirs (fst (lc_close s d))) /\
  (forall d', d' <> d -> (In d' (open_dirs (fst (lc_close s d))) <-> In d' (open_dirs s))).
Proof.
  intros HI Hin. unfold lc_close.
  destruct (dir_handle_Some d (handles s) Hin) as (h & Hh & _). rewrite Hh.
  pose proof (dir_handle_dir d (handles s) h (li_ids_nodup s HI) Hh) as Hd.
  unfold lc_close_handle. rewrite Hd. cbn [fst snd]. split; [reflexivity|].
  destruct (handle_dir_split h (handles s) d Hd) as (a & b & Hs & Hr).
  pose proof (li_dirs_nodup s HI) as Hnd. unfold open_dirs in *. cbn [handles]. rewrite Hr. rewrite Hs in *.
  rewrite !map_app in *. cbn [map snd] in *. pose proof (NoDup_remove_2 _ _ _ Hnd) as Hni.
  split; [exact Hni|]. intros d' Hne. rewrite !in_app_iff. cbn [In]. split; [tauto|].
  intros [H|[H|H]]; [tauto|congruence|tauto].
Qed.

Lemma pd_eqb_eq x y : pd_eqb x y = true <-> x = y.
Proof.
  destruct x as [p d], y as [p' d']. unfold pd_eqb. cbn [fst snd]. rewrite andb_true_iff, N.eqb_eq, bytes_eqb_eq.
  split; [intros [-> ->]; reflexivity|intros H; injection H; auto].
Qed.

Lemma pd_in_In x l : pd_in x l = true <-> In x l.
Proof. exact (existsb_eqb_In pd_eqb pd_eqb_eq x l). Qed.

Lemma os_close_id p d l : ~ In (p, d) l -> os_close p d l = l.
Proof.
  intros Hn. apply filter_true. intros y Hy. apply negb_true_iff. destruct (pd_eqb (p, d) y) eqn:E; [|reflexivity].
  apply pd_eqb_eq in E. subst y. destruct (Hn Hy).
Qed.

Lemma os_close_remove x l : NoDup (map snd l) ->
  filter (fun y => negb (pd_eqb x y)) l = pd_remove x l.
Proof.
  induction l as [|y r IH]; intros Hnd; [reflexivity|].
  cbn [map] in Hnd. inversion Hnd as [|? ? Hni Hnd']; subst.
  cbn [filter pd_remove]. destruct (pd_eqb x y) eqn:E; cbn [negb].
  - apply pd_eqb_eq in E. subst y. destruct x as [p d].
    apply (os_close_id p d r). intros Hin. apply Hni. apply in_map_iff. exists (p, d). split; [reflexivity|exact Hin].
  - rewrite IH by exact Hnd'. reflexivity.
Qed.

Lemma pd_remove_sub x l y : In y (pd_remove x l) -> In y l.
Proof.
  induction l as [|z r IH]; cbn [pd_remove]; [tauto|].
  destruct (pd_eqb x z); cbn [In]; [tauto|]. intros [H|H]; [tauto|right; apply IH; exact H].
Qed.

Lemma pd_remove_nodup x l : NoDup (map snd l) -> NoDup (map snd (pd_remove x l)).
Proof.
  induction l as [|z r IH]; intros Hnd; [constructor|].
  cbn [map] in Hnd. inversion Hnd as [|? ? Hni Hnd']; subst. cbn [pd_remove].
  destruct (pd_eqb x z); [exact Hnd'|]. cbn [map]. constructor; [|apply IH; exact Hnd'].
  intros Hin. apply Hni. apply in_map_iff in Hin. destruct Hin as (y & Hy & Hin).
  apply in_map_iff. exists y. split; [exact Hy|]. eapply pd_remove_sub; exact Hin.
Qed.

(* with the table consulted before the LOCK file is opened: the three lists coincide and
   no directory occurs twice *)
Definition PInv (s : mp_state) : Prop :=
  p_os s = p_table s /\ p_handles s = p_table s /\ NoDup (map snd (p_table s)).

Lemma pstep_checked_PInv s o : PInv s -> PInv (fst (mp_step true s o)).
Proof.
  intros (H1 & H2 & H3). destruct o as [p d|p d]; cbn [mp_step].
  - unfold p_lock_file. destruct (pd_in (p, d) (p_table s)) eqn:E; [cbn; repeat split; assumption|].
    assert (Hn : ~ In (p, d) (p_table s)).
    { intros Hin. apply pd_in_In in Hin. congruence. }
    destruct (os_conflict p d (p_os s)) eqn:C; cbn [fst p_table p_os p_handles].
    + rewrite H1. rewrite os_close_id by exact Hn. repeat split; assumption.
    + rewrite H1, H2. repeat split. cbn [map snd]. constructor; [|exact H3].
      intros Hin. apply in_map_iff in Hin. destruct Hin as ([p' d'] & Hd & Hin). cbn [snd] in Hd. subst d'.
      destruct (N.eq_dec p' p) as [->|Hne]; [contradiction|].
      assert (Hc : os_conflict p d (p_os s) = true).
      { unfold os_conflict. apply existsb_exists. exists (p', d). rewrite H1. split; [exact Hin|].
        cbn [fst snd]. rewrite bytes_eqb_refl. apply N.eqb_neq in Hne. rewrite Hne. reflexivity. }
      congruence.
  - destruct (pd_in (p, d) (p_handles s)) eqn:E; cbn [fst]; [|repeat split; assumption].
    cbn [p_table p_os p_handles]. unfold os_close. rewrite H1, H2. rewrite os_close_remove by exact H3.
    repeat split. apply pd_remove_nodup. exact H3.
Qed.

Lemma prun_checked_PInv ops : forall s, PInv s -> PInv (mp_run true s ops).
Proof.
  induction ops as [|o r IH]; intros s H; cbn [mp_run]; [exact H|]. apply IH. apply pstep_checked_PInv. exact H.
Qed.

Lemma destroy_remaining_In n l :
  In n (destroy_remaining l) <-> In n l /\ parse_filename n = None.
Proof.
  unfold destroy_remaining. rewrite filter_In. split.
  - intros [H1 H2]. split; [exact H1|]. destruct (parse_filename n); [discriminate|reflexivity].
  - intros [H1 H2]. split; [exact H1|]. rewrite H2. reflexivity.
Qed.

Lemma destroy_remaining_nil l : destroy_remaining l = [] <-> forall n, In n l -> owned n = true.
Proof.
  split.
  - intros H n Hin. unfold owned. destruct (parse_filename n) eqn:E; [reflexivity|].
    assert (Hr : In n (destroy_remaining l)) by (apply destroy_remaining_In; auto). rewrite H in Hr. destruct Hr.
  - intros H. destruct (destroy_remaining l) as [|n t] eqn:E; [reflexivity|].
    assert (Hr : In n (destroy_remaining l)) by (rewrite E; left; reflexivity).
    apply destroy_remaining_In in Hr. destruct Hr as [Hin Hp]. specialize (H n Hin). unfold owned in H.
    rewrite Hp in H. discriminate.
Qed.

Lemma destroy_remaining_idem l : destroy_remaining (destroy_remaining l) = destroy_remaining l.
Proof. apply filter_idem. Qed.

Section Backup.
Variable ucmp : bytes -> bytes -> comparison.

Lemma backup_is_step s bounds nums nf :
  backup_state ucmp s bounds nums nf = step ucmp s (OReopen bounds nums nf).
Proof. reflexivity. Qed.

Lemma backup_last_seq s bounds nums nf b :
  backup_state ucmp s bounds nums nf = Some b -> last_seq b = last_seq s /\ snaps b = [] /\ hist b = hist s.
Proof.
  intros H. destruct (step_meta ucmp s (OReopen bounds nums nf) b I H) as (El & Eh & Es). auto.
Qed.

(* a backup can always be taken: recovery with nothing cut into tables.  The next file number is any number above
   every file number in use, the premise of reopen_same_layout_exists. *)
Lemma backup_exists s :
  exists b, backup_state ucmp s [] [] (next_file s + N.of_nat (length (concat (levels s))) +
            fold_right (fun f m => N.max (fnum f + 1) m) 0 (concat (levels s))) = Some b.
Proof.
  set (mx := fold_right (fun f m => N.max (fnum f + 1) m) 0 (concat (levels s))).
  assert (Hmx : forall f, In f (concat (levels s)) -> fnum f < mx).
  { unfold mx. induction (concat (levels s)) as [|g r IH]; intros f Hf; [destruct Hf|].
    cbn [fold_right]. destruct Hf as [<-|Hf]; [lia|]. specialize (IH f Hf). lia. }
  destruct (reopen_same_layout_exists ucmp s
              (next_file s + N.of_nat (length (concat (levels s))) + mx)) as (b & Hb & _).
  - intros f Hf. specialize (Hmx f Hf). lia.
  - exists b. exact Hb.
Qed.

Lemma wrun_split : forall ops w w',
  wrun ucmp w ops = Some w' <->
  run ucmp (w_src w) (src_ops ops) = Some (w_src w') /\ run ucmp (w_bak w) (bak_ops ops) = Some (w_bak w').
Proof.
  induction ops as [|o r IH]; intros w w'.
  - cbn. destruct w as [a b], w' as [a' b']. cbn. split.
    + intros H. injection H as -> ->. auto.
    + intros [H1 H2]. injection H1 as ->. injection H2 as ->. reflexivity.
  - destruct o as [o|o]; cbn [wrun wstep src_ops bak_ops run].
    + destruct (step ucmp (w_src w) o) as [s1|]; [|split; [discriminate|intros [H _]; discriminate]].
      rewrite IH. cbn [w_src w_bak]. tauto.
    + destruct (step ucmp (w_bak w) o) as [b1|]; [|split; [discriminate|intros [_ H]; discriminate]].
      rewrite IH. cbn [w_src w_bak]. tauto.
Qed.

Hypothesis TO : total_order ucmp.

Lemma backup_Inv2 s bounds nums nf b :
  Inv2 ucmp s -> backup_state ucmp s bounds nums nf = Some b -> Inv2 ucmp b.
Proof.
  intros HI H. rewrite backup_is_step in H. eapply (step_preserves_Inv2 ucmp TO); eauto.
Qed.

Lemma backup_views s bounds nums nf b :
  Inv2 ucmp s -> backup_state ucmp s bounds nums nf = Some b ->
  forall k q, readable s q -> view ucmp b k q = view ucmp s k q.
Proof.
  intros HI H k q Hq. rewrite backup_is_step in H.
  apply (step_preserves_views ucmp TO s (OReopen bounds nums nf) b HI H); [exact I|exact Hq].
Qed.

Lemma backup_contents s bounds nums nf b :
  Inv2 ucmp s -> backup_state ucmp s bounds nums nf = Some b ->
  forall k, view ucmp b k (last_seq s) = view ucmp s k (last_seq s).
Proof.
  intros HI H k. apply (backup_views s bounds nums nf b HI H).
  apply (readable_cases ucmp TO); [exact (proj1 HI)|right; reflexivity].
Qed.

(* what the public read functions return on the two databases *)
Lemma backup_get s bounds nums nf b :
  Inv2 ucmp s -> backup_state ucmp s bounds nums nf = Some b ->
  forall k, visible (get ucmp b k (last_seq b)) = visible (get ucmp s k (last_seq s)).
Proof.
  intros HI H k. pose proof (backup_Inv2 s bounds nums nf b HI H) as HIb.
  destruct (backup_last_seq s bounds nums nf b H) as (Hl & _ & _). rewrite Hl.
  rewrite (get_view ucmp TO b k (last_seq s) (proj1 HIb)).
  rewrite (get_view ucmp TO s k (last_seq s) (proj1 HI)).
  apply (backup_contents s bounds nums nf b HI H).
Qed.

Lemma backup_scan s bounds nums nf b :
  Inv2 ucmp s -> backup_state ucmp s bounds nums nf = Some b ->
  forall k v,
  (exists k', ucmp k' k = Eq /\ In (k', v) (live_view ucmp b (last_seq b))) <->
  (exists k', ucmp k' k = Eq /\ In (k', v) (live_view ucmp s (last_seq s))).
Proof.
  intros HI H k v. pose proof (backup_Inv2 s bounds nums nf b HI H) as HIb.
  rewrite (iterator_agrees_with_get ucmp TO b k (last_seq b) v (proj1 HIb)).
  rewrite (iterator_agrees_with_get ucmp TO s k (last_seq s) v (proj1 HI)).
  rewrite (backup_get s bounds nums nf b HI H k). tauto.
Qed.

End Backup.

Lemma edits_check_true edits req :
  edits_check edits req = true <-> forall e c, In e edits -> e_comparator e = Some c -> c = req.
Proof.
  unfold edits_check, open_check. rewrite forallb_forall. split.
  - intros H e c Hin Hc. specialize (H e Hin). rewrite Hc in H. apply bytes_eqb_eq in H. exact H.
  - intros H e Hin. destruct (e_comparator e) as [c|] eqn:E; [|reflexivity].
    apply bytes_eqb_eq. eapply H; eauto.
Qed.
