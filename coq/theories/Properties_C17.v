(* Properties_C17.v -- theorems for property C17 (metadata codecs: version edits,
   write batches, internal keys / separators, file names, MANIFEST replay).
   The proofs are in EditProofs.v, BatchProofs.v, IKeyProofs.v, FilenameProofs.v,
   ManifestBuilderProofs.v and ManifestReplayProofs.v; the MANIFEST replay theorems are
   stated here only, as instances of ManifestReplayProofs.replay_state_fold_base and
   replay_state_snapshot_with. *)
From LCDB Require Import Base Varint Batch IKey Edit Filename.
From LCDB Require Import EditProofs BatchProofs IKeyProofs FilenameProofs.
From LCDB Require Import LogFormat ManifestReplay ManifestBuilderProofs ManifestReplayProofs.
From Coq Require Import Sorted.
Local Open Scope N_scope.

Theorem C17_edit_import_export : forall e,
  wf_edit e = true -> edit_import (edit_export e) = Some (edit_canon e).
Proof. exact edit_import_export. Qed.
Print Assumptions C17_edit_import_export.

Theorem C17_edit_canon_id : forall e,
  StronglySorted (fun a b => fe_compare a b = Lt) (e_deleted_files e) -> edit_canon e = e.
Proof. exact edit_canon_id. Qed.
Print Assumptions C17_edit_canon_id.

Theorem C17_edit_canon_idem : forall e, edit_canon (edit_canon e) = edit_canon e.
Proof. exact edit_canon_idem. Qed.
Print Assumptions C17_edit_canon_idem.

Theorem C17_edit_roundtrip_export : forall e,
  wf_edit e = true -> edit_roundtrip (edit_export e) = Some (edit_export e).
Proof. exact edit_roundtrip_export. Qed.
Print Assumptions C17_edit_roundtrip_export.

Theorem C17_edit_remove_file_sorted : forall e l n,
  StronglySorted (fun a b => fe_compare a b = Lt) (e_deleted_files e) ->
  StronglySorted (fun a b => fe_compare a b = Lt) (e_deleted_files (edit_remove_file e l n)).
Proof. exact edit_remove_file_sorted. Qed.
Print Assumptions C17_edit_remove_file_sorted.

Theorem C17_edit_import_bad_tag : forall tag rest,
  tag < 128 -> tag <> 1 -> tag <> 2 -> tag <> 3 -> tag <> 4 -> tag <> 5 -> tag <> 6 ->
  tag <> 7 -> tag <> 9 ->
  edit_import (tag :: rest) = None.
Proof. exact edit_import_bad_tag. Qed.
Print Assumptions C17_edit_import_bad_tag.

Theorem C17_level_read_bad_level : forall lvl rest,
  EDIT_NUM_LEVELS <= lvl -> lvl < 4294967296 -> level_read (varint32_write lvl ++ rest) = None.
Proof. exact level_read_bad_level. Qed.
Print Assumptions C17_level_read_bad_level.

Theorem C17_standard_tags :
  TAG_COMPARATOR = 1 /\ TAG_LOG_NUMBER = 2 /\ TAG_NEXT_FILE_NUMBER = 3 /\ TAG_LAST_SEQUENCE = 4 /\
  TAG_COMPACT_POINTER = 5 /\ TAG_DELETED_FILE = 6 /\ TAG_NEW_FILE = 7 /\ TAG_PREV_LOG_NUMBER = 9 /\
  EDIT_NUM_LEVELS = 7.
Proof. repeat split; reflexivity. Qed.
Print Assumptions C17_standard_tags.

Theorem C17_batch_iterate_build : forall seq ops,
  wf_ops ops = true -> batch_iterate (batch_build seq ops) = (ops, BOk).
Proof. exact batch_iterate_build. Qed.
Print Assumptions C17_batch_iterate_build.

Theorem C17_batch_build_layout : forall seq ops,
  batch_build seq ops =
  le64 (seq mod 18446744073709551616) ++ le32 (nlen ops mod 4294967296) ++ enc_ops ops.
Proof. exact batch_build_layout. Qed.
Print Assumptions C17_batch_build_layout.

Theorem C17_batch_sequence_build : forall seq ops,
  seq < 18446744073709551616 -> batch_sequence (batch_build seq ops) = seq.
Proof. exact batch_sequence_build. Qed.
Print Assumptions C17_batch_sequence_build.

Theorem C17_batch_count_build : forall seq ops,
  nlen ops < 4294967296 -> batch_count (batch_build seq ops) = nlen ops.
Proof. exact batch_count_build. Qed.
Print Assumptions C17_batch_count_build.

Theorem C17_batch_append_build : forall s1 s2 o1 o2,
  batch_append (batch_build s1 o1) (batch_build s2 o2) = batch_build s1 (o1 ++ o2).
Proof. exact batch_append_build. Qed.
Print Assumptions C17_batch_append_build.

Theorem C17_batch_append_iterate : forall a b oa ob,
  batch_iterate a = (oa, BOk) -> batch_iterate b = (ob, BOk) ->
  nlen oa + nlen ob < 4294967296 ->
  batch_iterate (batch_append a b) = (oa ++ ob, BOk) /\
  batch_count (batch_append a b) = batch_count a + batch_count b /\
  batch_sequence (batch_append a b) = batch_sequence a.
Proof. exact batch_append_iterate. Qed.
Print Assumptions C17_batch_append_iterate.

Theorem C17_batch_iterate_ok_count : forall b ops,
  batch_iterate b = (ops, BOk) -> nlen ops = batch_count b.
Proof. exact batch_iterate_ok_count. Qed.
Print Assumptions C17_batch_iterate_ok_count.

Theorem C17_batch_iterate_count_mismatch : forall seq ops c,
  wf_ops ops = true -> c mod 4294967296 <> nlen ops ->
  batch_iterate (batch_set_count (batch_build seq ops) c) = (ops, BWrongCount).
Proof. exact batch_iterate_build_wrong_count. Qed.
Print Assumptions C17_batch_iterate_count_mismatch.

Theorem C17_ikey_parse_encode : forall k s t,
  s < 2 ^ 56 -> t <= 1 -> ikey_parse (ikey_encode k s t) = Some (k, s, t).
Proof. exact ikey_parse_encode. Qed.
Print Assumptions C17_ikey_parse_encode.

Theorem C17_ikey_compare_strict_total_order :
  (forall a, ikey_compare a a <> Lt) /\
  (forall a b c, ikey_compare a b = Lt -> ikey_compare b c = Lt -> ikey_compare a c = Lt) /\
  (forall a b, ikey_compare a b = Lt -> ikey_compare b a <> Lt) /\
  (forall a b, wf_ikey a = true -> wf_ikey b = true ->
               ikey_compare a b = Lt \/ a = b \/ ikey_compare b a = Lt).
Proof. exact ikey_compare_strict_total_order. Qed.
Print Assumptions C17_ikey_compare_strict_total_order.

Theorem C17_ikey_compare_antisym : forall a b,
  ikey_compare a b = CompOpp (ikey_compare b a).
Proof. exact ikey_compare_antisym. Qed.
Print Assumptions C17_ikey_compare_antisym.

Theorem C17_ikey_compare_encode : forall u1 s1 t1 u2 s2 t2,
  s1 < 2 ^ 56 -> s2 < 2 ^ 56 -> t1 <= 1 -> t2 <= 1 ->
  ikey_compare (ikey_encode u1 s1 t1) (ikey_encode u2 s2 t2) =
  match bytes_compare u1 u2 with
  | Eq => match N.compare s2 s1 with Eq => N.compare t2 t1 | c => c end
  | c => c
  end.
Proof. exact ikey_compare_encode. Qed.
Print Assumptions C17_ikey_compare_encode.

Theorem C17_lkey_internal_key : forall u s,
  lkey_internal_key u s = ikey_encode u s VALTYPE_SEEK /\ lkey_user_key u s = u.
Proof. intros u s. split; [exact (lkey_internal_key_eq u s)|exact (lkey_user_key_eq u s)]. Qed.
Print Assumptions C17_lkey_internal_key.

Theorem C17_shortest_separator_contract : forall a b,
  bytes_compare a b = Lt ->
  bytes_leb a (shortest_separator a b) = true /\
  bytes_ltb (shortest_separator a b) b = true.
Proof. exact shortest_separator_contract. Qed.
Print Assumptions C17_shortest_separator_contract.

Theorem C17_short_successor_contract : forall a, bytes_leb a (short_successor a) = true.
Proof. exact short_successor_contract. Qed.
Print Assumptions C17_short_successor_contract.

Theorem C17_ikc_shortest_separator_contract : forall a b,
  ikey_compare a b = Lt ->
  ikey_compare a (ikc_shortest_separator a b) <> Gt /\
  ikey_compare (ikc_shortest_separator a b) b = Lt.
Proof. exact ikc_shortest_separator_contract. Qed.
Print Assumptions C17_ikc_shortest_separator_contract.

Theorem C17_ikc_short_successor_contract : forall a,
  ikey_compare a (ikc_short_successor a) <> Gt.
Proof. exact ikc_short_successor_contract. Qed.
Print Assumptions C17_ikc_short_successor_contract.

Theorem C17_ikc_shortest_separator_length : forall a b,
  (8 <= length a)%nat ->
  (8 <= length (ikc_shortest_separator a b) <= length a)%nat.
Proof. exact ikc_shortest_separator_length. Qed.
Print Assumptions C17_ikc_shortest_separator_length.

Theorem C17_parse_filename_make : forall kind n,
  n < 2 ^ 64 ->
  parse_filename (make_name kind n) = Some (kind_type kind, if kind <? 5 then n else 0).
Proof. exact parse_filename_make. Qed.
Print Assumptions C17_parse_filename_make.

Theorem C17_decode_int_encode_int : forall x pad rest,
  x < 18446744073709551616 ->
  match rest with [] => True | c :: _ => c < 48 \/ 57 < c end ->
  decode_int (encode_int x pad ++ rest) = Some (x, rest).
Proof. exact decode_int_encode_int. Qed.
Print Assumptions C17_decode_int_encode_int.

(* MANIFEST replay: ManifestReplay.v is the replica of ldb_versions_recover with the
   version builder. *)

(* replaying the bytes of a MANIFEST written from the edits es = folding the edits,
   one ldb_versions_apply at a time, over the empty state; the counters are the last
   values set (log round trip o edit round trip o builder).  For every user comparator
   that is a total order (EngineSpec.total_order): the internal-key comparator is
   ikc_compare ucmp *)
Theorem C17_replay_fold_any_comparator : forall ucmp, EngineSpec.total_order ucmp -> forall cmpname es,
  Forall (fun e => wf_edit e = true) es ->
  Forall (fun e => wf_bytes (edit_export e) = true) es ->
  Forall (cmp_matches cmpname) es ->
  fresh_adds empty_levels es ->
  manifest_replay_with (ikc_compare ucmp) cmpname (write_log (map edit_export es)) =
  finish_vstate 2 (fold_left (apply_edit (ikc_compare ucmp)) (map edit_canon es) vstate_init).
Proof.
  intros ucmp Ht cmpname es Hwf Hwb Hcm Hfr.
  rewrite manifest_replay_with_state. unfold manifest_replay_state_with.
  rewrite (replay_state_fold_base _ (ikc_total_order ucmp Ht)) by (assumption || apply empty_levels_sorted).
  reflexivity.
Qed.
Print Assumptions C17_replay_fold_any_comparator.

(* with the bytewise comparator: ikey_compare is ikc_compare bytes_compare *)
Theorem C17_replay_fold : forall cmpname es,
  Forall (fun e => wf_edit e = true) es ->
  Forall (fun e => wf_bytes (edit_export e) = true) es ->
  Forall (cmp_matches cmpname) es ->
  fresh_adds empty_levels es ->
  manifest_replay cmpname (write_log (map edit_export es)) =
  finish_vstate 2 (fold_left (apply_edit ikey_compare) (map edit_canon es) vstate_init).
Proof. exact (C17_replay_fold_any_comparator bytes_compare EngineRead.bytes_compare_total). Qed.
Print Assumptions C17_replay_fold.

(* a reused MANIFEST (a later session appends es2 with a writer created at the
   file size): es2 replayed on top of the state after es1 *)
Theorem C17_replay_append : forall cmpname es1 es2,
  Forall (fun e => wf_edit e = true) (es1 ++ es2) ->
  Forall (fun e => wf_bytes (edit_export e) = true) (es1 ++ es2) ->
  Forall (cmp_matches cmpname) (es1 ++ es2) ->
  fresh_adds empty_levels (es1 ++ es2) ->
  manifest_replay cmpname
    (write_log (map edit_export es1) ++
     write_log_from (nlen (write_log (map edit_export es1))) (map edit_export es2)) =
  finish_vstate 2
    (fold_left (apply_edit ikey_compare) (map edit_canon es2)
       (fold_left (apply_edit ikey_compare) (map edit_canon es1) vstate_init)).
Proof.
  intros cmpname es1 es2 Hwf Hwb Hcm Hfr.
  rewrite <- LogFormatProofs.write_log_app, <- map_app, C17_replay_fold by assumption.
  rewrite map_app, fold_left_app. reflexivity.
Qed.
Print Assumptions C17_replay_append.

(* a new MANIFEST = the snapshot record of (levels, compact) followed by the edits es
   replays to es applied to exactly that state: rolling over loses nothing *)
Theorem C17_replay_snapshot : forall cmpname levels compact es,
  wf_str cmpname = true -> wf_bytes cmpname = true ->
  wf_version ikey_compare levels compact ->
  Forall (fun e => wf_edit e = true) es ->
  Forall (fun e => wf_bytes (edit_export e) = true) es ->
  Forall (cmp_matches cmpname) es ->
  fresh_adds levels es ->
  manifest_replay cmpname
    (write_log (map edit_export (snapshot_edit cmpname compact levels :: es))) =
  finish_vstate 2
    (fold_left (apply_edit ikey_compare) (map edit_canon es)
       (mkV levels compact None None None None)).
Proof.
  intros cmpname levels compact es Hn Hnb Hv Hwf Hwb Hcm Hfr.
  unfold manifest_replay. rewrite manifest_replay_with_state.
  rewrite (replay_state_snapshot_with _ ikey_compare_total_order) by assumption. reflexivity.
Qed.
Print Assumptions C17_replay_snapshot.

(* the snapshot record followed by nothing: exactly the state's file set and compaction
   pointers, no counters *)
Theorem C17_replay_snapshot_nothing : forall cmpname levels compact,
  wf_str cmpname = true -> wf_bytes cmpname = true ->
  wf_version ikey_compare levels compact ->
  (forall l, (l < NLEVELS)%nat -> NoDup (map f_number (nth l levels []))) ->
  manifest_replay_state cmpname (write_log [edit_export (snapshot_edit cmpname compact levels)]) =
  inr (mkV levels compact None None None None).
Proof. exact replay_state_snapshot_nothing. Qed.
Print Assumptions C17_replay_snapshot_nothing.

(* the freshness hypothesis cannot be dropped: a number added, deleted and added again at
   one level comes back twice on replay (the recovery builder accumulates all edits) *)
Theorem C17_replay_fold_needs_fresh :
  level_numbers (manifest_replay [] (write_log (map edit_export cx_edits))) =
    [[]; [5; 5]; []; []; []; []; []] /\
  level_numbers (finish_vstate 2 (fold_left (apply_edit ikey_compare) (map edit_canon cx_edits) vstate_init)) =
    [[]; [5]; []; []; []; []; []].
Proof. exact replay_fold_needs_fresh. Qed.
Print Assumptions C17_replay_fold_needs_fresh.
