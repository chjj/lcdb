(* FsAck.v -- what the trace says about batches (log contents,
   acknowledgements, flushes), tied to the protocol state: [Inv_trace], kept by
   every accepted event (Inv_trace_run). *)
From LCDB Require Import BaseProofs FsModel FsLemmas FsInv FsDur.
Local Open Scope N_scope.

(* the summands of log_batches and logged *)
Definition batch_of_ev (n : N) (e : fev) : list brec :=
  match e with
  | EAppend (FLog m) (PBatch s ops) => if m =? n then [(s, ops)] else []
  | _ => []
  end.

Lemma log_batches_snoc : forall tr e n, log_batches (tr ++ [e]) n = log_batches tr n ++ batch_of_ev n e.
Proof.
  intros tr e n; unfold log_batches. rewrite flat_map_app. cbn [flat_map]. rewrite app_nil_r.
  reflexivity.
Qed.

Definition logged_of_ev (e : fev) : list brec :=
  match e with EAppend (FLog _) (PBatch s ops) => [(s, ops)] | _ => [] end.

Lemma logged_snoc : forall tr e, logged (tr ++ [e]) = logged tr ++ logged_of_ev e.
Proof.
  intros tr e; unfold logged. rewrite flat_map_app. cbn [flat_map]. rewrite app_nil_r.
  reflexivity.
Qed.

(* An event creates a log, appends a batch to a log, or leaves the list of
   logs and what the trace says of their contents alone. *)
Inductive ev_kind (e : fev) : Prop :=
| EK_newlog : forall n, e = ECreate (FLog n) -> ev_kind e
| EK_batch : forall n s ops, e = EAppend (FLog n) (PBatch s ops) -> ev_kind e
| EK_other : (forall p, p_logs (pstep p e) = p_logs p) -> (forall n, batch_of_ev n e = []) -> logged_of_ev e = [] ->
    ev_kind e.

Lemma ev_kind_of : forall e, ev_kind e.
Proof.
  intro e. assert (Ho : (forall p, p_logs (pstep p e) = p_logs p) -> (forall n, batch_of_ev n e = []) ->
                        logged_of_ev e = [] -> ev_kind e) by apply EK_other.
  destruct e as [f|f pl| | |a b|f|id b sy|id ok]; try (apply Ho; reflexivity).
  - destruct f; try (apply Ho; reflexivity). eapply EK_newlog; reflexivity.
  - destruct f, pl; try (apply Ho; reflexivity). eapply EK_batch; reflexivity.
Qed.

Lemma acks_from_snoc : forall tr e p, acks_from p (tr ++ [e]) = acks_from p tr ++ ack_of (fold_left pstep tr p) e.
Proof.
  intro tr; induction tr as [|x r IH]; intros e p; cbn [acks_from app fold_left].
  - rewrite app_nil_r; reflexivity.
  - rewrite IH, app_assoc; reflexivity.
Qed.

Lemma acks_snoc : forall tr e, acks (tr ++ [e]) = acks tr ++ ack_of (prun tr) e.
Proof. intros; unfold acks; apply acks_from_snoc. Qed.

Lemma ack_of_nonack : forall p e, (forall id ok, e <> EAck id ok) -> ack_of p e = [].
Proof. intros p e H; destruct e; try reflexivity. exfalso; eapply H; reflexivity. Qed.

Lemma in_acks_snoc : forall tr e a, In a (acks (tr ++ [e])) ->
  In a (acks tr) \/
  exists id id' ops sy n s, e = EAck id true /\ p_call (prun tr) = Some (id', ops, sy, Some (n, s)) /\
    a = (id, sy, n, (s, ops)).
Proof.
  intros tr e a H. rewrite acks_snoc in H. apply in_app_or in H. destruct H as [H|H]; [left; exact H|].
  right. destruct e as [f|f pl| | |a' b|f|id b sy|id ok]; cbn [ack_of] in H; try contradiction.
  destruct ok; [|contradiction].
  destruct (p_call (prun tr)) as [[[[id' ops] sy] [[n s]|]]|]; try contradiction.
  destruct H as [<-|[]]. exists id, id', ops, sy, n, s. auto.
Qed.

Lemma flushed_snoc : forall tr e b, flushed tr b -> flushed (tr ++ [e]) b.
Proof.
  intros tr e b [pre [m [ed [suf [E H]]]]]. exists pre, m, ed, (suf ++ [e]). split; [|exact H].
  rewrite E, <- app_assoc. reflexivity.
Qed.

Definition pending (c : option (N * list wop * bool * option (N * N))) : list brec :=
  match c with Some (_, ops, _, Some (_, s)) => [(s, ops)] | _ => [] end.

(* batch b of log n is covered by an fsync of that log *)
Definition synced_in_log (tr : list fev) (n : N) (b : brec) : Prop :=
  exists i o x j, created_at (fs_run tr) i (FLog n) o /\ nth_error (d_objs (fs_run tr)) o = Some x /\
    (j < o_synced x)%nat /\ nth_error (log_batches tr n) j = Some b.

(* What the protocol state remembers is what the trace did:
   it_logs, it_nologs, it_logged: p_logs holds, log by log, the batches the trace appended
     (log_batches), and in creation order all of them (logged); it_obj: so does the object that a
     log was created with, whether the log is still linked or not;
   it_acks, it_call: the batches of the calls acknowledged OK, then that of the call in progress
     if its record is appended, are the logged batches in order (R7);
   it_ack: an acknowledged batch is in the log its acknowledgement names, and under an fsync of
     that log if the call was a sync write (R1);
   it_unl: an unlink event is an unlink on the disk (R0);
   it_cov, it_flushed: the flush watermark is not above the newest log, and every batch of a
     log below it was contained in the tables of the edit that raised it (R5). *)
Record Inv_trace (tr : list fev) : Prop := {
  it_logs : forall n bs, In (n, bs) (p_logs (prun tr)) -> bs = log_batches tr n;
  it_nologs : forall n, ~ In n (map fst (p_logs (prun tr))) -> log_batches tr n = [];
  it_obj : forall i n o x, created_at (fs_run tr) i (FLog n) o -> nth_error (d_objs (fs_run tr)) o = Some x ->
      batches_of (o_recs x) = Some (log_batches tr n);
  it_logged : logged tr = flat_map snd (p_logs (prun tr));
  it_acks : map snd (acks tr) ++ pending (p_call (prun tr)) = logged tr;
  it_call : forall id ops sy n s, p_call (prun tr) = Some (id, ops, sy, Some (n, s)) ->
      exists bs0, log_batches tr n = bs0 ++ [(s, ops)];
  it_ack : forall id sy n b, In (id, sy, n, b) (acks tr) ->
      In b (log_batches tr n) /\ (sy = true -> synced_in_log tr n b);
  it_unl : forall f, In (EUnlink f) tr -> In (DUnlink f) (d_ops (fs_run tr));
  it_cov : p_cov (prun tr) <= newest_log (p_logs (prun tr));
  it_flushed : forall n b, In b (log_batches tr n) -> n < p_cov (prun tr) -> flushed tr b }.

Lemma synced_in_log_snoc : forall tr e n b, synced_in_log tr n b -> synced_in_log (tr ++ [e]) n b.
Proof.
  intros tr e n b [i [o [x [j [Hc [Hx [Hj Hn]]]]]]]. unfold synced_in_log. rewrite fs_run_snoc.
  destruct (step_synced_mono _ e _ _ Hx) as [x' [Hx' Hs]].
  exists i, o, x', j. split; [apply step_created_mono; exact Hc|split; [exact Hx'|split; [lia|]]].
  rewrite log_batches_snoc. rewrite nth_error_app1; [exact Hn|]. apply nth_error_Some; congruence.
Qed.

Lemma in_add_batch : forall n b l m bs, NoDup (map fst l) -> In (m, bs) (add_batch n b l) ->
  (m <> n /\ In (m, bs) l) \/ (m = n /\ exists bs0, In (n, bs0) l /\ bs = bs0 ++ [b]).
Proof.
  intros n b l; induction l as [|[k ks] r IH]; intros m bs ND H; cbn [add_batch] in H; [contradiction|].
  cbn [map fst] in ND. inversion ND as [|? ? Hn ND']; subst.
  destruct (k =? n) eqn:E.
  - apply N.eqb_eq in E; subst k. destruct H as [H|H].
    + injection H as <- <-. right; split; [reflexivity|]. exists ks; split; [left; reflexivity|reflexivity].
    + left; split; [|right; exact H]. intros ->. apply Hn. apply in_map_iff. exists (n, bs); auto.
  - apply N.eqb_neq in E. destruct H as [H|H].
    + injection H as <- <-. left; split; [exact E|left; reflexivity].
    + destruct (IH m bs ND' H) as [[Hm Hin]|[-> [bs0 [Hin ->]]]].
      * left; split; [exact Hm|right; exact Hin].
      * right; split; [reflexivity|]. exists bs0; split; [right; exact Hin|reflexivity].
Qed.

Lemma add_batch_app : forall n b l r, ~ In n (map fst l) -> add_batch n b (l ++ r) = l ++ add_batch n b r.
Proof.
  intros n b l r; induction l as [|[m bs] l IH]; intro H; cbn [add_batch app]; [reflexivity|].
  cbn [map fst In] in H. destruct (m =? n) eqn:E.
  - apply N.eqb_eq in E. exfalso; apply H; left; exact E.
  - f_equal. apply IH. intro Hin; apply H; right; exact Hin.
Qed.

Lemma add_batch_notin : forall n b l, ~ In n (map fst l) -> add_batch n b l = l.
Proof.
  intros n b l H. pose proof (add_batch_app n b l [] H) as E. cbn [add_batch] in E. rewrite !app_nil_r in E. exact E.
Qed.

Lemma add_batch_last : forall (l : list (N * list brec)) m b, StronglySorted N.lt (0 :: map fst l) ->
  In m (map fst l) -> m = newest_log l -> flat_map snd (add_batch m b l) = flat_map snd l ++ [b].
Proof.
  intros l m b Hs Hin Hm.
  destruct l as [|x0 l0] using rev_ind; [contradiction|]. clear IHl0. destruct x0 as [m' bs].
  rewrite map_app in Hs, Hin. cbn [map fst] in Hs, Hin.
  apply (SS_app N.lt (0 :: map fst l0) [m']) in Hs. destruct Hs as (_ & _ & Hlt).
  (* the newest log is the last one: the others are below the last, which is not above the newest *)
  assert (Hn : ~ In m (map fst l0)).
  { intro Hi. specialize (Hlt m m' (or_intror Hi) (or_introl eq_refl)).
    pose proof (newest_log_in (l0 ++ [(m', bs)]) 0 m') as Hle. unfold newest_log in Hm. rewrite <- Hm in Hle.
    assert (m' <= m) by (apply Hle; rewrite map_app; apply in_or_app; right; left; reflexivity). lia. }
  apply in_app_or in Hin. destruct Hin as [Hin|[<-|[]]]; [contradiction|].
  rewrite (add_batch_app _ _ _ _ Hn). cbn [add_batch]. rewrite N.eqb_refl.
  rewrite !flat_map_app. cbn [flat_map snd]. rewrite !app_nil_r, app_assoc. reflexivity.
Qed.

(* a batch goes to the newest log, which is one of p_logs *)
Lemma append_batch_newest : forall p m s ops, Inv_struct p -> chk_all p (EAppend (FLog m) (PBatch s ops)) = true ->
  In m (map fst (p_logs p)) /\ m = newest_log (p_logs p).
Proof.
  intros p m s ops IS H. destruct (append_bound _ IS _ _ H) as [_ [o [i [_ Hc]]]].
  split; [eapply in_logs_of_created; eauto|]. destruct (chk_all_spec _ _ H) as [x' [_ R]]. apply R.
Qed.

Lemma create_log_fresh : forall p n, Inv_struct p -> chk_all p (ECreate (FLog n)) = true ->
  ~ In n (map fst (p_logs p)).
Proof.
  intros p n IS H Hin. destruct (create_fresh _ IS _ H) as [_ [Hnew _]]. apply Hnew.
  rewrite (is_logs_names _ IS) in Hin. apply in_log_nums; exact Hin.
Qed.

(* R7 on one event: the batch of the call in progress is acknowledged, or one is logged for it, or neither *)
Lemma ack_law : forall p e, chk_all p e = true ->
  map snd (ack_of p e) ++ pending (p_call (pstep p e)) = pending (p_call p) ++ logged_of_ev e.
Proof.
  intros p e Hchk. rewrite pstep_call.
  destruct e as [f|f pl| | |a b|f|id b sy|id ok]; cbn [ack_of logged_of_ev map app]; rewrite ?app_nil_r; try reflexivity.
  - destruct f as [m| | | |]; rewrite ?app_nil_r; try reflexivity.
    destruct pl as [s ops|ed|ents|cm]; rewrite ?app_nil_r; try reflexivity.
    destruct (chk_all_spec _ _ Hchk) as [x [_ [_ [id [sy ->]]]]]. reflexivity.
  - rewrite (chk_all_spec _ _ Hchk : p_call _ = None). reflexivity.
  - (* acknowledged OK iff its record was appended: the pending batch becomes an acknowledged one *)
    destruct (chk_all_spec _ _ Hchk) as [id' [ops [sy [ap [Ec [-> _]]]]]]. rewrite Ec.
    destruct ap as [[n s]|]; reflexivity.
Qed.

(* a call whose record is in log n: it was so before, or the event appends the record *)
Lemma call_law : forall p e id ops sy n s, chk_all p e = true ->
  p_call (pstep p e) = Some (id, ops, sy, Some (n, s)) ->
  p_call p = Some (id, ops, sy, Some (n, s)) /\ batch_of_ev n e = [] \/ batch_of_ev n e = [(s, ops)].
Proof.
  intros p e id ops sy n s Hchk H. rewrite pstep_call in H.
  destruct e as [f|f pl| | |a b|f|id' b sy'|id' ok]; try (left; split; [exact H|reflexivity]); try discriminate.
  destruct f as [m| | | |]; try (left; split; [exact H|reflexivity]).
  destruct pl as [s' ops'|ed|ents|cm]; try (left; split; [exact H|reflexivity]).
  destruct (chk_all_spec _ _ Hchk) as [x [_ [_ [id0 [sy0 Hcall]]]]]. rewrite Hcall in H.
  injection H as <- <- <- <- <-. right. cbn [batch_of_ev]. rewrite N.eqb_refl. reflexivity.
Qed.

(* One more event e, accepted after a trace tr with the invariants: clause by clause. *)
Section Step.
Variables (tr : list fev) (e : fev).
Hypothesis IS : Inv_struct (prun tr).
Hypothesis IT : Inv_trace tr.
Hypothesis Hchk : chk_all (prun tr) e = true.

Lemma logs_step :
  (forall n bs, In (n, bs) (p_logs (prun (tr ++ [e]))) -> bs = log_batches (tr ++ [e]) n) /\
  (forall n, ~ In n (map fst (p_logs (prun (tr ++ [e])))) -> log_batches (tr ++ [e]) n = []).
Proof.
  rewrite prun_snoc.
  assert (D1 : forall n bs, In (n, bs) (p_logs (prun tr)) -> batch_of_ev n e = [] -> bs = log_batches (tr ++ [e]) n).
  { intros n bs Hin Hb. rewrite log_batches_snoc, Hb, app_nil_r. apply (it_logs _ IT); exact Hin. }
  assert (D2 : forall n, ~ In n (map fst (p_logs (prun tr))) -> batch_of_ev n e = [] -> log_batches (tr ++ [e]) n = []).
  { intros n Hn Hb. rewrite log_batches_snoc, Hb, app_nil_r. apply (it_nologs _ IT); exact Hn. }
  destruct (ev_kind_of e) as [n' ->|m s ops ->|Hp Hb _].
  - pose proof (create_log_fresh _ _ IS Hchk) as Hfresh. rewrite pstep_logs. split.
    + intros n bs Hin. apply in_app_or in Hin. destruct Hin as [Hin|[Hin|[]]]; [apply D1; [exact Hin|reflexivity]|].
      injection Hin as <- <-. symmetry. apply D2; [exact Hfresh|reflexivity].
    + intros n Hn. apply D2; [|reflexivity]. intro Hin; apply Hn. rewrite map_app. apply in_or_app; left; exact Hin.
  - destruct (append_batch_newest _ _ _ _ IS Hchk) as [Hm _]. rewrite pstep_logs. split.
    + intros n bs Hin.
      pose proof (SS_NoDup _ N.lt_irrefl _ (proj1 (StronglySorted_inv (is_logs_sorted _ IS)))) as ND.
      destruct (in_add_batch m (s, ops) _ n bs ND Hin) as [[Hne Hin']|[-> [bs0 [Hin' ->]]]].
      * apply D1; [exact Hin'|]. cbn [batch_of_ev]. destruct (m =? n) eqn:E; [apply N.eqb_eq in E; congruence|reflexivity].
      * rewrite log_batches_snoc. cbn [batch_of_ev]. rewrite N.eqb_refl. f_equal. apply (it_logs _ IT); exact Hin'.
    + intros n Hn. rewrite add_batch_fst in Hn. apply D2; [exact Hn|].
      cbn [batch_of_ev]. destruct (m =? n) eqn:E; [apply N.eqb_eq in E; subst; contradiction|reflexivity].
  - rewrite Hp. split; [intros n bs Hin; apply D1; [exact Hin|apply Hb]|intros n Hn; apply D2; [exact Hn|apply Hb]].
Qed.

(* whatever the event does to the object a log was created with, it adds the same record to what the trace
   says of that log *)
Lemma obj_log_step : forall i n o x', created_at (fs_run (tr ++ [e])) i (FLog n) o ->
  nth_error (d_objs (fs_run (tr ++ [e]))) o = Some x' -> batches_of (o_recs x') = Some (log_batches (tr ++ [e]) n).
Proof.
  intros i n o x' Hc Hx'. rewrite fs_run_snoc, <- prun_disk in Hc, Hx'. rewrite log_batches_snoc.
  pose proof (is_ops _ IS) as W.
  destruct (step_obj_inv _ _ _ _ Hx') as [[x [Hx S]]|[Hn ->]];
    destruct (created_step_inv _ IS _ _ _ _ Hc) as [[Hc' Ho]|[Ee Ho]]; try congruence.
  - assert (Hold : batches_of (o_recs x) = Some (log_batches tr n)).
    { rewrite prun_disk in Hc', Hx. exact (it_obj _ IT _ _ _ _ Hc' Hx). }
    destruct S as [Hno|g Ee Hl|g pl Ee Hl].
    + (* not appended to: the event is not a batch for this log *)
      replace (batch_of_ev n e) with (@nil brec); [rewrite app_nil_r; exact Hold|].
      destruct (ev_kind_of e) as [n' ->|m s ops ->|_ Hb _]; [reflexivity| |symmetry; apply Hb].
      cbn [batch_of_ev]. destruct (m =? n) eqn:E; [|reflexivity]. apply N.eqb_eq in E; subst m. exfalso.
      destruct (append_bound _ IS _ _ Hchk) as [_ [o0 [i0 [Hl0 Hc0]]]].
      apply (Hno _ _ eq_refl). rewrite Hl0, (created_same_name _ _ _ _ _ _ _ W Hc0 Hc'). reflexivity.
    + rewrite Ee. cbn [batch_of_ev]. rewrite app_nil_r. exact Hold.
    + rewrite Ee in Hchk |- *. pose proof (append_name _ IS _ _ _ _ _ Hchk Hl Hc') as ->.
      destruct (chk_all_spec _ _ Hchk) as [x1 [_ R]]. destruct pl as [s ops| | |]; try contradiction.
      cbn [batch_of_ev]. rewrite N.eqb_refl. unfold obj_append; cbn [o_recs]. apply batches_of_snoc; exact Hold.
  - (* the log created now has no batches yet *)
    rewrite Ee in Hchk |- *. cbn [batch_of_ev o_recs]. rewrite app_nil_r.
    rewrite (it_nologs _ IT n (create_log_fresh _ _ IS Hchk)). reflexivity.
Qed.

Lemma logged_step :
  logged (tr ++ [e]) = flat_map snd (p_logs (prun (tr ++ [e]))).
Proof.
  rewrite prun_snoc, logged_snoc, (it_logged _ IT).
  destruct (ev_kind_of e) as [n ->|m s ops ->|Hp _ Hl].
  - rewrite pstep_logs, flat_map_app. reflexivity.
  - destruct (append_batch_newest _ _ _ _ IS Hchk) as [Hm Hn]. rewrite pstep_logs.
    symmetry. apply add_batch_last; [apply (is_logs_sorted _ IS)|exact Hm|exact Hn].
  - rewrite Hp, Hl. apply app_nil_r.
Qed.

Lemma acks_step :
  map snd (acks (tr ++ [e])) ++ pending (p_call (prun (tr ++ [e]))) = logged (tr ++ [e]).
Proof.
  rewrite prun_snoc, logged_snoc, acks_snoc, map_app, <- (it_acks _ IT), <- !app_assoc.
  f_equal. apply ack_law; assumption.
Qed.

Lemma call_step :
  forall id ops sy n s, p_call (prun (tr ++ [e])) = Some (id, ops, sy, Some (n, s)) ->
    exists bs0, log_batches (tr ++ [e]) n = bs0 ++ [(s, ops)].
Proof.
  intros id ops sy n s H. rewrite prun_snoc in H. rewrite log_batches_snoc.
  destruct (call_law _ _ _ _ _ _ _ Hchk H) as [[Hp ->]| ->]; [|eauto].
  rewrite app_nil_r. exact (it_call _ IT _ _ _ _ _ Hp).
Qed.

Lemma unl_step :
  forall f, In (EUnlink f) (tr ++ [e]) -> In (DUnlink f) (d_ops (fs_run (tr ++ [e]))).
Proof.
  intros f H. rewrite fs_run_snoc. apply in_app_or in H. destruct H as [H|[H|[]]].
  - destruct (step_dir (fs_run tr) e) as [l [E _]]. rewrite E. apply in_or_app; left. apply (it_unl _ IT); exact H.
  - subst e. destruct (unlink_bound _ _ Hchk) as [_ [o Hl]]. rewrite prun_disk in Hl.
    cbn [fs_step]. rewrite Hl. cbn [d_ops]. apply in_or_app; right; left; reflexivity.
Qed.

(* the acknowledged record is the last of its log (it_call); R1: when a sync write is acknowledged
   that log is fsynced to the end *)
Lemma ack_step : forall id sy n b, In (id, sy, n, b) (acks (tr ++ [e])) ->
  In b (log_batches (tr ++ [e]) n) /\ (sy = true -> synced_in_log (tr ++ [e]) n b).
Proof.
  intros id sy n b H.
  destruct (in_acks_snoc _ _ _ H) as [Hin|[id0 [id' [ops [sy0 [n0 [s [-> [Hcall E]]]]]]]]].
  - destruct (it_ack _ IT _ _ _ _ Hin) as [H1 H2].
    split; [rewrite log_batches_snoc; apply in_or_app; left; exact H1|intro Hs; apply synced_in_log_snoc, H2, Hs].
  - injection E as <- <- <- ->. destruct (it_call _ IT _ _ _ _ _ Hcall) as [bs0 Hl0].
    assert (Hl : log_batches (tr ++ [EAck id true]) n = bs0 ++ [(s, ops)]).
    { rewrite log_batches_snoc. cbn [batch_of_ev]. rewrite app_nil_r. exact Hl0. }
    split; [rewrite Hl; apply in_or_app; right; left; reflexivity|intros ->].
    destruct (chk_all_spec _ _ Hchk) as [id1 [ops1 [sy1 [ap1 [Ec [_ R1]]]]]]. rewrite Hcall in Ec. injection Ec as <- <- <- <-.
    destruct (R1 eq_refl _ _ eq_refl) as [x [Ex H1]].
    assert (Hf : FLog n <> FCurrent) by discriminate.
    destruct (obj_at_created _ IS _ _ Hf Ex) as [o [i [_ [Hx Hc]]]]. rewrite prun_disk in Hx, Hc.
    pose proof (batches_of_length _ _ (it_obj _ IT _ _ _ _ Hc Hx)) as Hlen.
    unfold synced_in_log. rewrite fs_run_snoc. cbn [fs_step].
    exists i, o, x, (length bs0). split; [exact Hc|split; [exact Hx|split]].
    + rewrite H1, <- Hlen, Hl0, app_length. cbn [length]. lia.
    + rewrite Hl, nth_error_app2 by lia. rewrite Nat.sub_diag. reflexivity.
Qed.

Lemma cov_newest_step :
  p_cov (prun (tr ++ [e])) <= newest_log (p_logs (prun (tr ++ [e]))).
Proof.
  rewrite prun_snoc, pstep_cov, pstep_logs. pose proof (it_cov _ IT) as H.
  destruct e as [f|f pl| | |a b|f|id b sy|id ok]; try exact H.
  - destruct f; try exact H. rewrite newest_log_snoc. lia.
  - destruct f; try exact H; destruct pl as [s ops|ed|ents|cm]; try exact H.
    + rewrite (newest_log_keys _ (p_logs (prun tr))); [exact H|apply add_batch_fst].
    + destruct (me_log ed) as [l|] eqn:El; [|exact H].
      destruct (chk_all_spec _ _ Hchk) as [x1 [_ [_ [_ R5]]]]. destruct (R5 _ El) as [_ [H5 _]]. lia.
Qed.

Lemma flushed_step :
  forall n b, In b (log_batches (tr ++ [e]) n) -> n < p_cov (prun (tr ++ [e])) -> flushed (tr ++ [e]) b.
Proof.
  intros n b Hb Hn. rewrite prun_snoc, pstep_cov in Hn. rewrite log_batches_snoc in Hb.
  assert (Hold : In b (log_batches tr n) -> n < p_cov (prun tr) -> flushed (tr ++ [e]) b).
  { intros H1 H2. apply flushed_snoc. eapply (it_flushed _ IT); eauto. }
  apply in_app_or in Hb. destruct Hb as [Hb|Hb].
  - destruct e as [f|f pl| | |a b'|f|id b' sy|id ok]; try (apply Hold; assumption).
    destruct f as [m|m|m| |m]; try (apply Hold; assumption).
    destruct pl as [s ops|ed|ents|cm]; try (apply Hold; assumption).
    destruct (me_log ed) as [l|] eqn:El; [|apply Hold; assumption].
    destruct (N.ltb_spec n (p_cov (prun tr))) as [Hlt|Hge]; [apply Hold; assumption|].
    (* an edit raises the watermark to l: R5 has checked the batches of the logs in between *)
    destruct (chk_all_spec _ _ Hchk) as [x1 [_ [_ [_ R5]]]]. destruct (R5 _ El) as [_ [_ H5]].
    destruct (in_dec N.eq_dec n (map fst (p_logs (prun tr)))) as [Hk|Hk];
      [|rewrite (it_nologs _ IT _ Hk) in Hb; contradiction].
    destruct (in_map_fst _ _ Hk) as [bs Hin]. exists tr, m, ed, []. split; [reflexivity|]. rewrite <- prun_disk.
    apply (H5 n bs b Hin Hge); [lia|rewrite (it_logs _ IT _ _ Hin); exact Hb].
  - (* a new batch goes to the newest log, which is not below the watermark *)
    destruct (ev_kind_of e) as [n' ->|m s ops ->|_ Hbn _]; [contradiction| |rewrite Hbn in Hb; contradiction].
    cbn [batch_of_ev] in Hb. destruct (m =? n) eqn:E; [apply N.eqb_eq in E; subst m|contradiction].
    destruct (append_batch_newest _ _ _ _ IS Hchk) as [_ Hnew]. pose proof (it_cov _ IT). cbv beta iota in Hn. lia.
Qed.

End Step.

Lemma Inv_trace_nil : Inv_trace [].
Proof.
  constructor; cbn; try (intros; contradiction); try reflexivity; try (intros; discriminate); try lia.
  intros i n o x H; destruct i; discriminate.
Qed.

Theorem Inv_trace_run : forall tr, wf_protocol tr = true -> Inv_trace tr.
Proof.
  intro tr; induction tr as [|e tr IH] using rev_ind; intro H; [exact Inv_trace_nil|].
  apply wf_protocol_snoc in H. destruct H as [H1 H2]. specialize (IH H1).
  pose proof (id_struct _ (Inv_dur_run _ H1)) as IS.
  destruct (logs_step _ _ IS IH H2) as [L1 L2].
  constructor.
  - exact L1.
  - exact L2.
  - apply obj_log_step; assumption.
  - apply logged_step; assumption.
  - apply acks_step; assumption.
  - apply call_step; assumption.
  - apply ack_step; assumption.
  - apply unl_step; assumption.
  - apply cov_newest_step; assumption.
  - apply flushed_step; assumption.
Qed.
