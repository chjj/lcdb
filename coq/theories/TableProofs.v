(* TableProofs.v -- proofs about TableFormat.v:
   C16: memory safety: footer/handle decoding, read_block, table_open, table_get and
   the two-level iterator never return OOB, for ALL file contents and scripts;
   and what read_block returns on a file that holds a block and its trailer at the
   handle ([read_block_at]), from which the table files read back what was stored. *)
From LCDB Require Import Base Varint Crc32c Block Trie Filter Snappy TableFormat.
From LCDB Require Import BaseProofs VarintProofs Crc32cProofs BlockProofs FilterProofs SnappyProofs.
From Coq Require Import Lia.
Local Open Scope N_scope.

Theorem footer_decode_safe : forall l, footer_decode l <> OOB.
Proof.
  intros l. unfold footer_decode.
  destruct (N.ltb_spec (nlen l) FOOTER_SIZE) as [E|E]; [discriminate|].
  unfold FOOTER_SIZE in E.
  destruct (de64_some (drop_n 40 l)) as [m ->]; [rewrite nlen_drop; lia|].
  destruct (negb (m =? TABLE_MAGIC)); [discriminate|].
  destruct (handle_decode l) as [[mi r]|]; [|discriminate].
  destruct (handle_decode r) as [[ih r']|]; discriminate.
Qed.

Lemma read_block_ok : forall file fsize verify h,
  fsize = nlen file -> safe (read_block file fsize verify h).
Proof.
  intros file fsize verify [off n] Hs. unfold read_block.
  destruct (18446744073709551610 <? n); [exact I|].
  unfold TRAILER_SIZE.
  destruct (N.ltb_spec fsize (off + (n + 5))) as [E|E]; [exact I|].
  rewrite slice_ok by (auto; lia). cbn [rbind].
  set (contents := take_n (n + 5) (drop_n off file)).
  assert (Hd : nlen (drop_n n contents) = 5).
  { subst contents. rewrite nlen_drop, nlen_take, nlen_drop. lia. }
  destruct (drop_n n contents) as [|ty [|c0 [|c1 [|c2 [|c3 tl]]]]];
    unfold nlen in Hd; cbn [length] in Hd; try lia.
  match goal with |- context [if ?c then Ok (RBerr SCorruption) else _] => destruct c end; [exact I|].
  destruct (ty =? 0); [exact I|].
  destruct (ty =? 1); [|exact I].
  destruct (snappy_decode_size (take_n n contents)); [|exact I].
  apply (yields_bind (proj2 (safe_iff _) (snappy_decode_safe (take_n n contents)))).
  intros [u|] _; exact I.
Qed.

Theorem read_block_safe : forall file verify h, read_block file (nlen file) verify h <> OOB.
Proof. intros. apply safe_iff, read_block_ok. reflexivity. Qed.

(* [read_block] on a file that holds  dat ++ [ty; c0; c1; c2; c3]  at the handle: the two range
   tests pass and the slice is that block, so the answer depends on the checksum comparison and
   the type byte alone.  Reading back what the builder stored (TableBuildProofs.v) is the case
   where the comparison succeeds; an altered block (Properties_C11.v) the case where it fails. *)
Lemma read_block_at : forall pre dat ty c0 c1 c2 c3 post file verify,
  file = pre ++ (dat ++ [ty; c0; c1; c2; c3]) ++ post ->
  nlen file < 18446744073709551616 ->
  read_block file (nlen file) verify (nlen pre, nlen dat) =
    if (if verify
        then negb (crc_unmask (c0 + 256 * c1 + 65536 * c2 + 16777216 * c3) =? crc_value (dat ++ [ty]))
        else false)
    then Ok (RBerr SCorruption)
    else if ty =? 0 then Ok (RBok dat)
    else if ty =? 1 then
      match snappy_decode_size dat with
      | None => Ok (RBerr SCorruption)
      | Some _ => u <~ snappy_decode dat ;;
                  match u with None => Ok (RBerr SCorruption) | Some ub => Ok (RBok ub) end
      end
    else Ok (RBerr SCorruption).
Proof.
  intros pre dat ty c0 c1 c2 c3 post file verify Hf Hlen.
  assert (Hsz : nlen file = nlen pre + (nlen dat + 5 + nlen post)) by (rewrite Hf, !nlen_app; reflexivity).
  unfold read_block, TRAILER_SIZE.
  replace (18446744073709551610 <? nlen dat) with false by (symmetry; apply N.ltb_ge; lia).
  replace (nlen file <? nlen pre + (nlen dat + 5)) with false by (symmetry; apply N.ltb_ge; lia).
  rewrite slice_ok by (auto; lia). cbn [rbind].
  rewrite Hf, drop_n_app_exact, (take_n_app_exact _ post) by (rewrite ?nlen_app; reflexivity).
  rewrite (take_n_app_exact dat _ (nlen dat)), (drop_n_app_exact dat) by reflexivity.
  change (dat ++ [ty; c0; c1; c2; c3]) with (dat ++ [ty] ++ [c0; c1; c2; c3]).
  rewrite app_assoc, take_n_app_exact by (rewrite nlen_app; reflexivity).
  reflexivity.
Qed.

Definition table_ok (t : table) : Prop :=
  t_fsize t = nlen (t_file t) /\ blk_ok (t_index t) /\
  match t_filter t with Some fr => fr_ok fr | None => True end.

Lemma table_read_filter_ok : forall file paranoid hv,
  yields (table_read_filter file (nlen file) paranoid hv)
         (fun r => match r with Some fr => fr_ok fr | None => True end).
Proof.
  intros. unfold table_read_filter.
  destruct (handle_decode hv) as [[h r]|]; [|exact I].
  apply (yields_bind (read_block_ok file (nlen file) paranoid h eq_refl)). intros [b|s] _; [|exact I].
  apply (yields_bind (filter_init_ok b)). intros fr Hok. exact Hok.
Qed.

Lemma table_read_meta_ok : forall has_filter file paranoid mh,
  yields (table_read_meta has_filter file (nlen file) paranoid mh)
         (fun r => match r with Some fr => fr_ok fr | None => True end).
Proof.
  intros. unfold table_read_meta.
  destruct (negb has_filter); [exact I|].
  apply (yields_bind (read_block_ok file (nlen file) paranoid mh eq_refl)). intros [b|s] _; [|exact I].
  apply (yields_bind (block_init_ok b)). intros blk [Hok _].
  apply (yields_bind Hok). intros it Hinv.
  apply (yields_bind (biter_seek_ok false bytes_compare FILTER_KEY it Hinv)). intros it1 Hinv1.
  destruct (biter_valid it1) eqn:V; cbn [andb]; [|exact I].
  destruct (bytes_eqb (biter_key it1) FILTER_KEY); [|exact I].
  apply (yields_bind (biter_value_valid_ok it1 Hinv1 V)). intros v _.
  apply table_read_filter_ok.
Qed.

Lemma table_open_ok : forall has_filter paranoid file,
  yields (table_open has_filter paranoid file)
         (fun r => match r with inr t => table_ok t | inl _ => True end).
Proof.
  intros. unfold table_open.
  destruct (N.ltb_spec (nlen file) FOOTER_SIZE) as [E|E]; [exact I|].
  unfold FOOTER_SIZE in *.
  rewrite slice_ok by (auto; lia). cbn [rbind].
  apply (yields_bind (proj2 (safe_iff _) (footer_decode_safe _))). intros [[mh ih]|] _; [|exact I].
  apply (yields_bind (read_block_ok file (nlen file) paranoid ih eq_refl)). intros [b|s] _; [|exact I].
  apply (yields_bind (block_init_ok b)). intros blk [Hok _].
  apply (yields_bind (table_read_meta_ok has_filter file paranoid mh)). intros flt Hflt.
  exact (conj eq_refl (conj Hok Hflt)).
Qed.

Lemma table_blockreader_ok : forall t verify iv,
  table_ok t -> yields (table_blockreader t verify iv) binv.
Proof.
  intros t verify iv (Hs & _ & _). unfold table_blockreader.
  destruct (handle_decode iv) as [[h r]|]; [|apply biter_empty_inv].
  apply (yields_bind (read_block_ok (t_file t) (t_fsize t) verify h Hs)).
  intros [b|s] _; [|apply biter_empty_inv].
  apply (yields_bind (block_init_ok b)). intros blk [Hok _]. exact Hok.
Qed.

Definition two_ok (it : twoiter) : Prop :=
  binv (tw_index it) /\ match tw_data it with Some d => binv d | None => True end.

Lemma twoiter_observe_ok : forall it, two_ok it -> safe (twoiter_observe it).
Proof.
  intros it [A B]. unfold twoiter_observe.
  destruct (tw_data it) as [d|]; [apply biter_observe_ok; exact B|exact I].
Qed.

Section TableSafety.
Variable cmp : bytes -> bytes -> comparison.
Variable is_internal : bool.
Variable has_filter : bool.

Section TwoSafety.
Variable t : table.
Variable verify : bool.
Hypothesis Ht : table_ok t.

Lemma two_init_data_block_ok : forall it,
  two_ok it -> yields (two_init_data_block t verify it) two_ok.
Proof.
  intros it [A B]. unfold two_init_data_block.
  destruct (biter_valid (tw_index it)) eqn:V; cbn [negb]; [|exact (conj A I)].
  apply (yields_bind (biter_value_valid_ok _ A V)). intros h _.
  destruct ((match tw_data it with Some _ => true | None => false end) && bytes_eqb h (tw_handle it));
    [exact (conj A B)|].
  apply (yields_bind (table_blockreader_ok t verify h Ht)). intros d Hd. exact (conj A Hd).
Qed.

(* The common shape of first, last, seek and of one round of skipping: move the index
   cursor, open the data block it points at, position the data cursor, go on with [k]. *)
Lemma two_land_ok : forall (ri : res biter) (g : biter -> res biter) (k : twoiter -> res twoiter) it,
  two_ok it -> yields ri binv -> (forall d, binv d -> yields (g d) binv) ->
  (forall it2, two_ok it2 -> yields (k it2) two_ok) ->
  yields (i <~ ri ;;
          it1 <~ two_init_data_block t verify (two_with_index it i) ;;
          it2 <~ match tw_data it1 with
                 | Some d => d' <~ g d ;; Ok (two_with_data it1 d')
                 | None => Ok it1
                 end ;;
          k it2) two_ok.
Proof.
  intros ri g k it [A B] Hi Hg Hk.
  apply (yields_bind Hi). intros i Hi'.
  apply (yields_bind (two_init_data_block_ok (two_with_index it i) (conj Hi' B))). intros it1 [A1 B1].
  apply (@yields_bind _ _ two_ok); [|exact Hk].
  destruct (tw_data it1) as [d|] eqn:Ed.
  - apply (yields_bind (Hg d B1)). intros d' Hd'. exact (conj A1 Hd').
  - split; [exact A1|]. rewrite Ed. exact I.
Qed.

Lemma two_skip_ok : forall forward fuel it,
  two_ok it -> yields (two_skip is_internal t verify forward fuel it) two_ok.
Proof.
  intros forward. induction fuel as [|x fuel IH]; intros it Hok; cbn [two_skip];
    (destruct (two_data_invalid it); [|exact Hok]);
    (destruct (negb (biter_valid (tw_index it))); [exact (conj (proj1 Hok) I)|]); [exact Hok|].
  apply two_land_ok; [exact Hok| | |exact IH]; destruct forward.
  - apply biter_next_ok, Hok.
  - apply biter_prev_ok, Hok.
  - apply biter_first_ok.
  - apply biter_last_ok.
Qed.

Lemma twoiter_step_ok : forall op it,
  two_ok it -> yields (twoiter_step cmp is_internal t verify op it) two_ok.
Proof.
  intros op it Hok. pose proof Hok as [A B].
  pose proof (fun forward it2 => two_skip_ok forward (two_fuel it2) it2) as Hskip.
  destruct op; cbn [twoiter_step].
  - apply two_land_ok; [exact Hok|apply biter_first_ok, A|apply biter_first_ok|apply Hskip].
  - apply two_land_ok; [exact Hok|apply biter_last_ok, A|apply biter_last_ok|apply Hskip].
  - apply two_land_ok; [exact Hok|apply biter_seek_ok, A|apply biter_seek_ok|apply Hskip].
  - destruct (twoiter_valid it); [|exact Hok].
    unfold twoiter_next. destruct (tw_data it) as [d|]; [|exact Hok].
    apply (yields_bind (biter_next_ok is_internal d B)). intros d' Hd'. apply Hskip, (conj A Hd').
  - destruct (twoiter_valid it); [|exact Hok].
    unfold twoiter_prev. destruct (tw_data it) as [d|]; [|exact Hok].
    apply (yields_bind (biter_prev_ok is_internal d B)). intros d' Hd'. apply Hskip, (conj A Hd').
Qed.

Lemma twoiter_run_ok : forall ops it,
  two_ok it -> safe (twoiter_run cmp is_internal t verify ops it).
Proof.
  induction ops as [|op ops IH]; intros it Hok; cbn [twoiter_run]; [exact I|].
  apply (yields_bind (twoiter_step_ok op it Hok)). intros it1 Hok1.
  apply (yields_bind (twoiter_observe_ok it1 Hok1)). intros o _.
  apply (yields_bind (IH it1 Hok1)). intros [os it2] _. exact I.
Qed.

End TwoSafety.

Lemma twoiter_create_ok : forall t, table_ok t -> yields (twoiter_create t) two_ok.
Proof.
  intros t (_ & Hidx & _). unfold twoiter_create.
  apply (yields_bind Hidx). intros i Hi. exact (conj Hi I).
Qed.

(* C16: the table reader never reads outside the file or a block: for ALL byte
   strings, options, scripts and keys the model never returns OOB.
   table_run does not consult the filter, so no policy appears. *)
Theorem table_iterator_safe : forall paranoid verify file ops,
  table_run cmp is_internal has_filter paranoid verify file ops <> OOB.
Proof.
  intros. apply safe_iff. unfold table_run.
  apply (yields_bind (table_open_ok has_filter paranoid file)). intros [s|t] Hr; [exact I|].
  apply (yields_bind (twoiter_create_ok t Hr)). intros it Hit.
  apply (yields_bind (twoiter_run_ok t verify Hr ops it Hit)). intros [os it'] _. exact I.
Qed.

Section Lookup.
Variable fmatch : bytes -> bytes -> res bool.
Hypothesis fmatch_safe : forall f k, fmatch f k <> OOB.

Lemma table_get_ok : forall t verify k,
  table_ok t -> safe (table_get cmp is_internal fmatch t verify k).
Proof.
  intros t verify k Hok. pose proof Hok as (Hs & Hidx & Hflt). unfold table_get.
  apply (yields_bind Hidx). intros it0 Hinv0.
  apply (yields_bind (biter_seek_ok is_internal cmp k it0 Hinv0)). intros it1 Hinv1.
  destruct (biter_valid it1) eqn:V; [|exact I].
  apply (yields_bind (biter_value_valid_ok it1 Hinv1 V)). intros v _.
  apply (@yields_bind _ _ (fun _ => True)).
  { destruct (t_filter t) as [fr|]; [|exact I].
    destruct (handle_decode v) as [[h r]|]; [|exact I].
    apply (yields_bind (filter_matches_safe fmatch fmatch_safe fr (fst h) k Hflt)). intros m _. exact I. }
  intros [|] _; [exact I|].
  apply (yields_bind (table_blockreader_ok t verify v Hok)). intros bit Hb.
  apply (yields_bind (biter_seek_ok is_internal cmp k bit Hb)). intros bit1 Hb1.
  apply (yields_bind (biter_observe_ok bit1 Hb1)). intros o _. exact I.
Qed.

Theorem table_lookup_safe : forall paranoid verify file k,
  table_lookup cmp is_internal has_filter fmatch paranoid verify file k <> OOB.
Proof.
  intros. apply safe_iff. unfold table_lookup.
  apply (yields_bind (table_open_ok has_filter paranoid file)). intros [s|t] Hr; [exact I|].
  apply (yields_bind (table_get_ok t verify k Hr)). intros g _. exact I.
Qed.

End Lookup.
End TableSafety.
