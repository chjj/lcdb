(* BatchProofs.v -- proofs about Batch.v: a batch built through put/del iterates
   back to the same operations; append concatenates; a wrong header count is
   reported. *)
From LCDB Require Import Base Varint BaseProofs VarintProofs MetaLemmas Batch.
Local Open Scope N_scope.

Lemma skipn12_hdr : forall x c rest, skipn 12 (le64 x ++ le32 c ++ rest) = rest.
Proof. intros x c rest. reflexivity. Qed.

Lemma hdr_length : forall x c rest,
  length (le64 x ++ le32 c ++ rest) = (12 + length rest)%nat.
Proof. intros. rewrite !app_length, le64_length, le32_length. lia. Qed.

Lemma batch_count_mk : forall s c body,
  c < 4294967296 -> batch_count (le64 s ++ le32 c ++ body) = c.
Proof.
  intros s c body Hc. unfold batch_count.
  rewrite skipn8_le64, de32_le32 by exact Hc. reflexivity.
Qed.

Lemma batch_set_count_mk : forall s c body c',
  batch_set_count (le64 s ++ le32 c ++ body) c' = le64 s ++ le32 (c' mod 4294967296) ++ body.
Proof.
  intros s c body c'. reflexivity.
Qed.

Lemma batch_apply_mk : forall s c body o,
  c < 4294967296 ->
  batch_apply (le64 s ++ le32 c ++ body) o =
  le64 s ++ le32 ((c + 1) mod 4294967296) ++ (body ++ enc_op o).
Proof.
  intros s c body o Hc. destruct o as [k v|k]; unfold batch_apply, batch_put, batch_del, enc_op;
    rewrite batch_count_mk by exact Hc; rewrite batch_set_count_mk;
    rewrite <- !app_assoc; reflexivity.
Qed.

Lemma fold_apply_mk : forall ops s c body,
  c < 4294967296 ->
  fold_left batch_apply ops (le64 s ++ le32 c ++ body) =
  le64 s ++ le32 ((c + nlen ops) mod 4294967296) ++ (body ++ enc_ops ops).
Proof.
  induction ops as [|o ops IH]; intros s c body Hc; cbn [fold_left].
  - unfold enc_ops. cbn [flat_map].
    rewrite app_nil_r, nlen_nil, N.add_0_r, N.mod_small by exact Hc. reflexivity.
  - rewrite batch_apply_mk by exact Hc.
    rewrite IH by (apply N.mod_lt; discriminate).
    unfold enc_ops. cbn [flat_map].
    rewrite nlen_cons, <- !app_assoc, N.add_mod_idemp_l, <- N.add_assoc by discriminate.
    reflexivity.
Qed.

Theorem batch_build_layout : forall seq ops,
  batch_build seq ops =
  le64 (seq mod 18446744073709551616) ++ le32 (nlen ops mod 4294967296) ++ enc_ops ops.
Proof.
  intros seq ops. unfold batch_build.
  replace (batch_set_sequence batch_empty seq)
    with (le64 (seq mod 18446744073709551616) ++ le32 0 ++ []) by reflexivity.
  rewrite fold_apply_mk by reflexivity. cbn [app]. rewrite N.add_0_l. reflexivity.
Qed.

(* One record of the loop: the operation and the input left, or the status
   with which the loop stops. *)
Definition dec_op (tag : N) (rest : bytes) : (bop * bytes) + bstatus :=
  if tag =? 1 then
    match slice_read rest with
    | None => inr BBadPut
    | Some (k, r1) =>
      match slice_read r1 with
      | None => inr BBadPut
      | Some (v, r2) => inl (BPut k v, r2)
      end
    end
  else if tag =? 0 then
    match slice_read rest with
    | None => inr BBadDelete
    | Some (k, r1) => inl (BDel k, r1)
    end
  else inr BUnknownTag.

Lemma iter_loop_S : forall f tag rest,
  batch_iter_loop (S f) (tag :: rest) =
  match dec_op tag rest with
  | inl (o, r) => let '(ops, st) := batch_iter_loop f r in (o :: ops, st)
  | inr e => ([], e)
  end.
Proof.
  intros f tag rest. unfold dec_op. cbn [batch_iter_loop].
  destruct (tag =? 1).
  - destruct (slice_read rest) as [[k r1]|]; [|reflexivity].
    destruct (slice_read r1) as [[v r2]|]; reflexivity.
  - destruct (tag =? 0); [|reflexivity].
    destruct (slice_read rest) as [[k r1]|]; reflexivity.
Qed.

(* A decoded record consumes input and does not look beyond itself; a failure
   is never BOk. *)
Lemma dec_op_cases : forall tag rest,
  match dec_op tag rest with
  | inl (o, r) =>
      (length r < length rest)%nat /\ forall y, dec_op tag (rest ++ y) = inl (o, r ++ y)
  | inr e => e <> BOk
  end.
Proof.
  intros tag rest. unfold dec_op. destruct (tag =? 1).
  - destruct (slice_read rest) as [[k r1]|] eqn:E1; [|discriminate].
    destruct (slice_read r1) as [[v r2]|] eqn:E2; [|discriminate].
    split.
    + apply slice_read_shrinks in E1. apply slice_read_shrinks in E2. lia.
    + intros y. rewrite (slice_read_app _ _ _ y E1), (slice_read_app _ _ _ y E2). reflexivity.
  - destruct (tag =? 0); [|discriminate].
    destruct (slice_read rest) as [[k r1]|] eqn:E1; [|discriminate].
    split; [exact (slice_read_shrinks _ _ _ E1)|].
    intros y. rewrite (slice_read_app _ _ _ y E1). reflexivity.
Qed.

Lemma iter_loop_nil : forall f, batch_iter_loop f [] = ([], BOk).
Proof. intros [|f]; reflexivity. Qed.

Lemma iter_loop_fuel : forall f1 f2 x,
  (length x <= f1)%nat -> (length x <= f2)%nat ->
  batch_iter_loop f1 x = batch_iter_loop f2 x.
Proof.
  induction f1 as [|f1 IH]; intros f2 x H1 H2.
  - destruct x; [|cbn [length] in H1; lia]. rewrite !iter_loop_nil. reflexivity.
  - destruct x as [|t rest]; [rewrite !iter_loop_nil; reflexivity|].
    destruct f2 as [|f2]; [cbn [length] in H2; lia|].
    cbn [length] in H1, H2. rewrite !iter_loop_S.
    pose proof (dec_op_cases t rest) as C.
    destruct (dec_op t rest) as [[o r]|e]; [|reflexivity].
    destruct C as [C _]. rewrite (IH f2 r) by lia. reflexivity.
Qed.

(* the loop without fuel: as much as the input is long *)
Definition iter_all (x : bytes) : list bop * bstatus := batch_iter_loop (length x) x.

Lemma iter_all_nil : iter_all [] = ([], BOk).
Proof. reflexivity. Qed.

Lemma iter_all_cons : forall t rest,
  iter_all (t :: rest) =
  match dec_op t rest with
  | inl (o, r) => let '(ops, st) := iter_all r in (o :: ops, st)
  | inr e => ([], e)
  end.
Proof.
  intros t rest. unfold iter_all. cbn [length]. rewrite iter_loop_S.
  pose proof (dec_op_cases t rest) as C.
  destruct (dec_op t rest) as [[o r]|e]; [|reflexivity].
  destruct C as [C _].
  rewrite (iter_loop_fuel (length rest) (length r) r) by lia. reflexivity.
Qed.

Lemma batch_iterate_eq : forall b,
  batch_iterate b =
  if nlen b <? BATCH_HEADER then ([], BTooSmall)
  else
    let '(ops, st) := iter_all (skipn 12 b) in
    match st with
    | BOk => if nlen ops =? batch_count b then (ops, BOk) else (ops, BWrongCount)
    | e => (ops, e)
    end.
Proof.
  intros b. unfold batch_iterate, iter_all.
  rewrite (iter_loop_fuel (length b) (length (skipn 12 b)) (skipn 12 b))
    by (rewrite skipn_length; lia).
  reflexivity.
Qed.

Lemma iter_all_enc_op : forall o y,
  wf_op o = true ->
  iter_all (enc_op o ++ y) = let '(ops, st) := iter_all y in (o :: ops, st).
Proof.
  intros [k v|k] y H; cbn [wf_op] in H; unfold enc_op; rewrite <- !app_assoc; cbn [app];
    rewrite iter_all_cons; unfold dec_op; cbn [N.eqb Pos.eqb].
  - apply andb_true_iff in H. destruct H as [Hk Hv].
    apply N.ltb_lt in Hk. apply N.ltb_lt in Hv.
    rewrite slice_read_write by exact Hk. rewrite slice_read_write by exact Hv. reflexivity.
  - apply N.ltb_lt in H. rewrite slice_read_write by exact H. reflexivity.
Qed.

Lemma iter_all_enc : forall ops y,
  forallb wf_op ops = true ->
  iter_all (enc_ops ops ++ y) = let '(oy, st) := iter_all y in (ops ++ oy, st).
Proof.
  induction ops as [|o ops IH]; intros y H.
  - cbn [enc_ops flat_map app]. destruct (iter_all y). reflexivity.
  - cbn [forallb] in H. apply andb_true_iff in H. destruct H as [Ho Hops].
    unfold enc_ops. cbn [flat_map]. fold (enc_ops ops).
    rewrite <- app_assoc, iter_all_enc_op, IH by assumption.
    destruct (iter_all y). reflexivity.
Qed.

Lemma iter_all_app_gen : forall n x ox y,
  (length x <= n)%nat ->
  iter_all x = (ox, BOk) ->
  iter_all (x ++ y) = let '(oy, st) := iter_all y in (ox ++ oy, st).
Proof.
  induction n as [|n IH]; intros x ox y Hn Hx.
  - destruct x; [|cbn [length] in Hn; lia].
    rewrite iter_all_nil in Hx. injection Hx as <-. cbn [app]. destruct (iter_all y). reflexivity.
  - destruct x as [|t rest].
    { rewrite iter_all_nil in Hx. injection Hx as <-. cbn [app]. destruct (iter_all y). reflexivity. }
    cbn [length] in Hn. rewrite iter_all_cons in Hx. cbn [app]. rewrite iter_all_cons.
    pose proof (dec_op_cases t rest) as C.
    destruct (dec_op t rest) as [[o r]|e].
    + destruct C as [Cl Ca]. rewrite Ca.
      destruct (iter_all r) as [o2 s2] eqn:E3. injection Hx as <- ->.
      rewrite (IH r o2 y) by (first [lia | exact E3]).
      destruct (iter_all y). reflexivity.
    + injection Hx as _ He. contradiction.
Qed.

Lemma iter_all_app : forall x ox y,
  iter_all x = (ox, BOk) ->
  iter_all (x ++ y) = let '(oy, st) := iter_all y in (ox ++ oy, st).
Proof. intros x ox y H. apply (iter_all_app_gen (length x)); [lia|exact H]. Qed.

Lemma wf_ops_split : forall ops,
  wf_ops ops = true -> forallb wf_op ops = true /\ nlen ops < 4294967296.
Proof.
  intros ops H. unfold wf_ops in H. apply andb_true_iff in H. destruct H as [H1 H2].
  apply N.ltb_lt in H2. split; assumption.
Qed.

(* once the records decode, the header count decides the status *)
Lemma batch_iterate_run : forall b ops,
  12 <= nlen b -> iter_all (skipn 12 b) = (ops, BOk) ->
  batch_iterate b = (ops, if nlen ops =? batch_count b then BOk else BWrongCount).
Proof.
  intros b ops Hl Hi. rewrite batch_iterate_eq. unfold BATCH_HEADER.
  replace (nlen b <? 12) with false by (symmetry; apply N.ltb_ge; lia).
  rewrite Hi. destruct (nlen ops =? batch_count b); reflexivity.
Qed.

Lemma batch_iterate_mk : forall s c ops,
  forallb wf_op ops = true -> c < 4294967296 ->
  batch_iterate (le64 s ++ le32 c ++ enc_ops ops) = (ops, if nlen ops =? c then BOk else BWrongCount).
Proof.
  intros s c ops Hwf Hc. rewrite (batch_iterate_run _ ops).
  - rewrite batch_count_mk by exact Hc. reflexivity.
  - unfold nlen. rewrite hdr_length. lia.
  - rewrite skipn12_hdr, <- (app_nil_r (enc_ops ops)), iter_all_enc by exact Hwf.
    rewrite iter_all_nil, app_nil_r. reflexivity.
Qed.

Theorem batch_iterate_build : forall seq ops,
  wf_ops ops = true -> batch_iterate (batch_build seq ops) = (ops, BOk).
Proof.
  intros seq ops H. apply wf_ops_split in H. destruct H as [Hwf Hn].
  rewrite batch_build_layout, batch_iterate_mk by (exact Hwf || (apply N.mod_lt; discriminate)).
  rewrite N.mod_small by exact Hn.
  rewrite N.eqb_refl. reflexivity.
Qed.

Theorem batch_sequence_build : forall seq ops,
  seq < 18446744073709551616 -> batch_sequence (batch_build seq ops) = seq.
Proof.
  intros seq ops H. rewrite batch_build_layout.
  rewrite N.mod_small by exact H.
  unfold batch_sequence. rewrite de64_le64 by exact H. reflexivity.
Qed.

Theorem batch_count_build : forall seq ops,
  nlen ops < 4294967296 -> batch_count (batch_build seq ops) = nlen ops.
Proof.
  intros seq ops H. rewrite batch_build_layout.
  rewrite batch_count_mk by (apply N.mod_lt; discriminate). apply N.mod_small, H.
Qed.

Theorem batch_append_build : forall s1 s2 o1 o2,
  batch_append (batch_build s1 o1) (batch_build s2 o2) = batch_build s1 (o1 ++ o2).
Proof.
  intros s1 s2 o1 o2. rewrite !batch_build_layout. unfold batch_append.
  rewrite !batch_count_mk by (apply N.mod_lt; discriminate). rewrite batch_set_count_mk, skipn12_hdr.
  unfold enc_ops. rewrite flat_map_app, nlen_app, <- !app_assoc, <- N.add_mod by discriminate.
  reflexivity.
Qed.

Lemma batch_iterate_ok_inv : forall b ops,
  batch_iterate b = (ops, BOk) ->
  12 <= nlen b /\ iter_all (skipn 12 b) = (ops, BOk) /\ nlen ops = batch_count b.
Proof.
  intros b ops H. rewrite batch_iterate_eq in H. unfold BATCH_HEADER in H.
  destruct (nlen b <? 12) eqn:Hl; [discriminate H|]. apply N.ltb_ge in Hl.
  destruct (iter_all (skipn 12 b)) as [o st] eqn:E.
  destruct st; try discriminate H.
  destruct (nlen o =? batch_count b) eqn:Hc; [|discriminate H].
  injection H as Ho. subst o. apply N.eqb_eq in Hc. repeat split; assumption.
Qed.

(* [batch_set_count] on a batch that was read, not built: its sequence field is [firstn 8 a] *)
Lemma firstn8_length : forall (b : bytes), 12 <= nlen b -> length (firstn 8 b) = 8%nat.
Proof. intros b H. unfold nlen in H. rewrite firstn_length. lia. Qed.

Lemma skipn_firstn8 : forall (a : bytes) n rest,
  12 <= nlen a -> skipn (8 + n) (firstn 8 a ++ rest) = skipn n rest.
Proof.
  intros a n rest H. rewrite skipn_app. rewrite firstn8_length by exact H.
  replace (8 + n - 8)%nat with n by lia.
  rewrite skipn_all2 by (rewrite firstn8_length by exact H; lia).
  reflexivity.
Qed.

Lemma de64_firstn8 : forall (a r : bytes), (8 <= length a)%nat -> de64 (firstn 8 a ++ r) = de64 a.
Proof.
  intros a r H. do 8 (destruct a as [|? a]; [cbn [length] in H; lia|]). reflexivity.
Qed.

Theorem batch_append_iterate : forall a b oa ob,
  batch_iterate a = (oa, BOk) -> batch_iterate b = (ob, BOk) ->
  nlen oa + nlen ob < 4294967296 ->
  batch_iterate (batch_append a b) = (oa ++ ob, BOk) /\
  batch_count (batch_append a b) = batch_count a + batch_count b /\
  batch_sequence (batch_append a b) = batch_sequence a.
Proof.
  intros a b oa ob Ha Hb Hsum.
  apply batch_iterate_ok_inv in Ha. destruct Ha as [Hla [Hia Hca]].
  apply batch_iterate_ok_inv in Hb. destruct Hb as [Hlb [Hib Hcb]].
  assert (Hcount : batch_count (batch_append a b) = batch_count a + batch_count b).
  { unfold batch_append, batch_set_count, batch_count at 1.
    rewrite <- !app_assoc.
    change 8%nat with (8 + 0)%nat at 1. rewrite skipn_firstn8 by exact Hla.
    cbn [skipn]. rewrite de32_le32 by lia. lia. }
  split; [|split].
  - rewrite (batch_iterate_run _ (oa ++ ob)).
    + rewrite Hcount, nlen_app, Hca, Hcb, N.eqb_refl. reflexivity.
    + unfold batch_append, batch_set_count, nlen.
      rewrite !app_length, firstn8_length, le32_length by exact Hla. lia.
    + unfold batch_append, batch_set_count. rewrite <- !app_assoc.
      change 12%nat with (8 + 4)%nat at 1. rewrite skipn_firstn8 by exact Hla.
      rewrite skipn4_le32, (iter_all_app _ oa _ Hia), Hib. reflexivity.
  - exact Hcount.
  - unfold batch_sequence, batch_append, batch_set_count.
    rewrite <- app_assoc, de64_firstn8 by (unfold nlen in Hla; lia). reflexivity.
Qed.

Theorem batch_iterate_build_wrong_count : forall seq ops c,
  wf_ops ops = true -> c mod 4294967296 <> nlen ops ->
  batch_iterate (batch_set_count (batch_build seq ops) c) = (ops, BWrongCount).
Proof.
  intros seq ops c H Hc. apply wf_ops_split in H. destruct H as [Hwf Hn].
  rewrite batch_build_layout, batch_set_count_mk, batch_iterate_mk by (exact Hwf || (apply N.mod_lt; discriminate)).
  replace (nlen ops =? c mod 4294967296) with false
    by (symmetry; apply N.eqb_neq; intros E; apply Hc; symmetry; exact E).
  reflexivity.
Qed.

(* the status is BOk only if the count matches: iterate never accepts a wrong count *)
Theorem batch_iterate_ok_count : forall b ops,
  batch_iterate b = (ops, BOk) -> nlen ops = batch_count b.
Proof. intros b ops H. apply batch_iterate_ok_inv in H. apply H. Qed.

Theorem batch_iterate_too_small : forall b,
  nlen b < 12 -> batch_iterate b = ([], BTooSmall).
Proof.
  intros b H. unfold batch_iterate, BATCH_HEADER.
  replace (nlen b <? 12) with true by (symmetry; apply N.ltb_lt; lia). reflexivity.
Qed.

Print Assumptions batch_iterate_build.
Print Assumptions batch_append_iterate.
