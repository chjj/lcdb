(* CursorProofs.v -- theory of the list cursors of Cursor.v.

   A cursor is the cursor [cur l1 r] of a split of the list, and a seek the split at the first
   element satisfying the predicate (c_seek_split, c_seek_cut).  What a seek shows is [List.find]:
   forwards on the list, backwards on its reverse.  On a strictly sorted list that is the least
   (greatest) qualifying element (find_least), next and prev are seeks too (c_next_seek,
   c_prev_seek), and the compositions of table/iterator.c are the seeks of a sorted map
   (cursor_scripts_are_map_scripts).  Last, a step-wise simulation between two iterators lifts to
   arbitrary scripts (bisim_scripts). *)
From LCDB Require Import ListFacts Base Cursor.
From Coq Require Import Sorting.Sorted.

Section Find.
Context {A : Type}.

(* The cursor of a split l1 ++ r: on the head of r (invalid when r is empty).  A seek is the
   cursor of the split at the first element satisfying P *)
Definition cur (l1 r : list A) : cursor := match r with [] => None | _ :: _ => Some (length l1) end.

Lemma c_seek_split (P : A -> bool) l :
  exists l1 r, l = l1 ++ r /\ c_seek P l = cur l1 r /\
    (forall y, In y l1 -> P y = false) /\ match r with [] => True | x :: _ => P x = true end.
Proof.
  unfold c_seek. induction l as [|a l0 IH]; [exists [], []; repeat split; intros y []|].
  destruct IH as (l1 & r & Hl & F & H1 & Hr).
  cbn [find_index]. destruct (P a) eqn:Pa; [exists [], (a :: l0); repeat split; [intros y []|exact Pa]|].
  exists (a :: l1), r. rewrite F, Hl. split; [reflexivity|]. split; [destruct r; reflexivity|].
  split; [|exact Hr]. intros y [<-|Hy]; auto.
Qed.

Lemma c_first_wf (l : list A) : c_wf l (c_first l).
Proof. destruct l; cbn; [exact I|apply Nat.lt_0_succ]. Qed.

Lemma c_last_wf (l : list A) : c_wf l (c_last l).
Proof. unfold c_last. destruct (length l) eqn:E; cbn; [exact I|]. rewrite E. apply Nat.lt_succ_diag_r. Qed.

Lemma c_seek_wf p (l : list A) : c_wf l (c_seek p l).
Proof.
  destruct (c_seek_split p l) as (l1 & [|x r] & -> & -> & _); [exact I|].
  cbn [cur c_wf]. rewrite app_length. apply Nat.lt_add_pos_r, Nat.lt_0_succ.
Qed.

Lemma c_seek_last_wf p (l : list A) : c_wf l (c_seek_last p l).
Proof.
  unfold c_seek_last. induction l as [|a r IH]; cbn [find_last_index]; [exact I|].
  destruct (find_last_index p r) as [i|]; [exact (le_n_S _ _ IH)|].
  destruct (p a); [apply Nat.lt_0_succ|exact I].
Qed.

Lemma c_next_wf (l : list A) c : c_wf l (c_next l c).
Proof.
  destruct c as [i|]; [|exact I]. unfold c_next.
  destruct (S i <? length l)%nat eqn:E; [|exact I]. apply Nat.ltb_lt. exact E.
Qed.

Lemma c_prev_wf (l : list A) c : c_wf l c -> c_wf l (c_prev l c).
Proof. destruct c as [[|i]|]; cbn; auto. apply Nat.lt_succ_l. Qed.

Lemma c_get_wf_none (l : list A) c : c_wf l c -> c_get l c = None -> c = None.
Proof.
  destruct c as [i|]; cbn; [|reflexivity]. intros Hi Hn.
  apply nth_error_None in Hn. destruct (Nat.lt_irrefl i). exact (Nat.lt_le_trans _ _ _ Hi Hn).
Qed.

Lemma c_get_in (l : list A) c x : c_get l c = Some x -> In x l.
Proof. destruct c as [i|]; cbn; [|discriminate]. apply nth_error_In. Qed.

Lemma c_get_seek p (l : list A) : c_get l (c_seek p l) = find p l.
Proof.
  unfold c_seek. induction l as [|a r IH]; cbn [find_index find]; [reflexivity|].
  destruct (p a); [reflexivity|]. rewrite <- IH. destruct (find_index p r); reflexivity.
Qed.

Lemma c_get_seek_last p (l : list A) : c_get l (c_seek_last p l) = find p (rev l).
Proof.
  induction l as [|a r IH]; [reflexivity|]. cbn [rev]. rewrite find_app, <- IH.
  pose proof (c_seek_last_wf p r) as Hwf. unfold c_seek_last in Hwf |- *. cbn [find_last_index].
  destruct (find_last_index p r) as [i|]; cbn [c_get nth_error find].
  - destruct (nth_error r i) eqn:E; [reflexivity|].
    apply nth_error_None in E. destruct (Nat.lt_irrefl i). exact (Nat.lt_le_trans _ _ _ Hwf E).
  - destruct (p a); reflexivity.
Qed.

Lemma c_seek_get (l : list A) p x : c_get l (c_seek p l) = Some x -> In x l /\ p x = true.
Proof. rewrite c_get_seek. apply find_some. Qed.

Lemma c_seek_last_get (l : list A) p x : c_get l (c_seek_last p l) = Some x -> In x l /\ p x = true.
Proof.
  rewrite c_get_seek_last. intros H. apply find_some in H. destruct H as [H Px].
  split; [apply in_rev; exact H|exact Px].
Qed.

Lemma c_seek_none p (l : list A) : c_seek p l = None <-> forall x, In x l -> p x = false.
Proof.
  rewrite <- find_none_iff, <- c_get_seek. split; [intros ->; reflexivity|apply c_get_wf_none, c_seek_wf].
Qed.

Lemma c_seek_last_none p (l : list A) : c_seek_last p l = None <-> forall x, In x l -> p x = false.
Proof.
  transitivity (find p (rev l) = None).
  - rewrite <- c_get_seek_last. split; [intros ->; reflexivity|apply c_get_wf_none, c_seek_last_wf].
  - rewrite find_none_iff. split; intros H x Hx; apply H; apply in_rev; [rewrite rev_involutive|]; exact Hx.
Qed.

Lemma c_seek_ext (p p' : A -> bool) l :
  (forall x, In x l -> p x = p' x) -> c_seek p l = c_seek p' l.
Proof.
  unfold c_seek. induction l as [|a r IH]; intros H; cbn [find_index].
  - reflexivity.
  - rewrite <- (H a (or_introl eq_refl)). rewrite IH; [reflexivity|].
    intros x Hx. apply H. right. exact Hx.
Qed.

Lemma c_seek_last_ext (p p' : A -> bool) l :
  (forall x, In x l -> p x = p' x) -> c_seek_last p l = c_seek_last p' l.
Proof.
  unfold c_seek_last. induction l as [|a r IH]; intros H; cbn [find_last_index].
  - reflexivity.
  - rewrite <- (H a (or_introl eq_refl)). rewrite IH; [reflexivity|].
    intros x Hx. apply H. right. exact Hx.
Qed.

Lemma c_first_seek (l : list A) : c_first l = c_seek (fun _ => true) l.
Proof. destruct l; reflexivity. Qed.

Lemma c_last_seek (l : list A) : c_last l = c_seek_last (fun _ => true) l.
Proof.
  unfold c_last, c_seek_last. induction l as [|a r IH]; [reflexivity|].
  cbn [length find_last_index]. rewrite <- IH. destruct (length r); reflexivity.
Qed.

(* the converse of c_seek_split: P false on a, true on b; from the end: P true on a, false on b *)
Lemma c_seek_cut (P : A -> bool) a b :
  (forall y, In y a -> P y = false) -> (forall y, In y b -> P y = true) -> c_seek P (a ++ b) = cur a b.
Proof.
  unfold c_seek. intros Ha Hb. induction a as [|x a IH]; cbn [app find_index].
  - destruct b as [|y b]; [reflexivity|]. cbn [find_index]. rewrite (Hb y (in_eq _ _)). reflexivity.
  - rewrite (Ha x (in_eq _ _)), IH by auto using in_cons. destruct b; reflexivity.
Qed.

Lemma c_seek_last_cut (P : A -> bool) a b :
  (forall y, In y a -> P y = true) -> (forall y, In y b -> P y = false) -> c_seek_last P (a ++ b) = c_last a.
Proof.
  intros Ha Hb. induction a as [|x a IH]; [exact (proj2 (c_seek_last_none P b) Hb)|].
  unfold c_seek_last in IH |- *. cbn [app find_last_index]. rewrite IH, (Ha x (in_eq _ _)) by auto using in_cons.
  unfold c_last. cbn [length]. destruct (length a); reflexivity.
Qed.

Lemma cur_next (a : list A) x b : c_next (a ++ x :: b) (Some (length a)) = cur (a ++ [x]) b.
Proof.
  unfold c_next, cur. rewrite !app_length, Nat.add_1_r. cbn [length].
  destruct b as [|y b]; cbn [length].
  - rewrite Nat.add_1_r, Nat.ltb_irrefl. reflexivity.
  - rewrite (proj2 (Nat.ltb_lt _ _)); [reflexivity|].
    rewrite Nat.add_succ_r. apply le_n_S, Nat.lt_add_pos_r, Nat.lt_0_succ.
Qed.

Lemma c_last_snoc (a : list A) x : c_last (a ++ [x]) = Some (length a).
Proof. unfold c_last. rewrite app_length, Nat.add_1_r. reflexivity. Qed.

Lemma c_prev_last {B} (v : list A) (a : list B) : c_prev v (Some (length a)) = c_last a.
Proof. unfold c_last. destruct (length a); reflexivity. Qed.

End Find.

Section Order.
Context {A : Type}.
Variable lt : A -> A -> bool.

(* x is the first p-element of l in the order lt (None: l has no p-element) *)
Definition least (p : A -> bool) (l : list A) (o : option A) : Prop :=
  match o with
  | Some x => In x l /\ p x = true /\ forall y, In y l -> p y = true -> lt y x = false
  | None => forall y, In y l -> p y = false
  end.

(* which speaks of the elements of l only *)
Lemma least_elems p l l' o : (forall x, In x l' <-> In x l) -> least p l o -> least p l' o.
Proof.
  intros H. destruct o as [x|]; cbn [least].
  - intros (Hx & Px & Hm). split; [apply H, Hx|]. split; [exact Px|]. intros y Hy. apply Hm, H, Hy.
  - intros Hn y Hy. apply Hn, H, Hy.
Qed.

Definition SrtBy (l : list A) : Prop := StronglySorted (fun a b => lt a b = true) l.

(* an element of a sorted list stands between those before it and those behind it *)
Lemma SrtBy_mid a x b :
  SrtBy (a ++ x :: b) -> (forall y, In y a -> lt y x = true) /\ (forall y, In y b -> lt x y = true).
Proof.
  intros Hs. apply SS_app in Hs. destruct Hs as (_ & Hb & Hab). apply StronglySorted_inv in Hb.
  destruct Hb as [_ Hb]. rewrite Forall_forall in Hb. split; [|exact Hb].
  intros y Hy. apply Hab; [exact Hy|left; reflexivity].
Qed.

Hypothesis lt_irrefl : forall a, lt a a = false.
Hypothesis lt_trans : forall a b c, lt a b = true -> lt b c = true -> lt a c = true.

Lemma lt_asym a b : lt a b = true -> lt b a = false.
Proof.
  intros H. destruct (lt b a) eqn:E; [|reflexivity].
  pose proof (lt_trans a b a H E) as X. rewrite lt_irrefl in X. discriminate.
Qed.

Lemma find_least l p o : SrtBy l -> (find p l = o <-> least p l o).
Proof.
  intros Hs. destruct o as [x|]; cbn [least]; [|apply find_none_iff].
  induction Hs as [|a r Hr IH Hall]; cbn [find].
  - split; [discriminate|intros ([] & _)].
  - rewrite Forall_forall in Hall. destruct (p a) eqn:Pa.
    + split.
      * intros E. injection E as <-. split; [left; reflexivity|]. split; [exact Pa|].
        intros y [<-|Hy] _; [apply lt_irrefl|apply lt_asym, Hall, Hy].
      * intros ([<-|Hx] & Px & Hmin); [reflexivity|].
        pose proof (Hmin a (or_introl eq_refl) Pa) as H. rewrite (Hall x Hx) in H. discriminate.
    + rewrite IH. split.
      * intros (Hx & Px & Hmin). split; [right; exact Hx|]. split; [exact Px|].
        intros y [<-|Hy] Py; [congruence|exact (Hmin y Hy Py)].
      * intros ([<-|Hx] & Px & Hmin); [congruence|]. split; [exact Hx|]. split; [exact Px|].
        intros y Hy. apply Hmin. right. exact Hy.
Qed.

End Order.

(* [find_least] is used here at [lt] and, for seeks from the end, at its converse *)
Section Sorted.
Context {A : Type}.
Variable lt : A -> A -> bool.
Hypothesis lt_irrefl : forall a, lt a a = false.
Hypothesis lt_trans : forall a b c, lt a b = true -> lt b c = true -> lt a c = true.

Notation SrtBy := (SrtBy lt).
Notation lt_asym := (lt_asym lt lt_irrefl lt_trans).

Lemma c_seek_least l p o : SrtBy l -> (c_get l (c_seek p l) = o <-> least lt p l o).
Proof. rewrite c_get_seek. apply find_least; assumption. Qed.

Lemma c_seek_last_greatest l p o :
  SrtBy l -> (c_get l (c_seek_last p l) = o <-> least (fun a b => lt b a) p l o).
Proof.
  intros Hs. rewrite c_get_seek_last,
    (find_least (fun a b => lt b a) lt_irrefl (fun a b c H1 H2 => lt_trans c b a H2 H1) (rev l) p o (SS_rev _ l Hs)).
  split; apply least_elems; intros x; [|symmetry]; apply in_rev.
Qed.

Lemma c_next_seek l c x :
  SrtBy l -> c_get l c = Some x -> c_next l c = c_seek (fun y => lt x y) l.
Proof.
  intros Hs G. destruct c as [i|]; [|discriminate]. destruct (nth_error_split l i G) as (a & b & -> & <-).
  destruct (SrtBy_mid lt a x b Hs) as [Ha Hb].
  rewrite cur_next. change (a ++ x :: b) with (a ++ [x] ++ b). rewrite app_assoc. symmetry.
  apply c_seek_cut; [|exact Hb]. intros y Hy. apply in_app_or in Hy.
  destruct Hy as [Hy|[<-|[]]]; [exact (lt_asym y x (Ha y Hy))|apply lt_irrefl].
Qed.

Lemma c_prev_seek l c x :
  SrtBy l -> c_get l c = Some x -> c_prev l c = c_seek_last (fun y => lt y x) l.
Proof.
  intros Hs G. destruct c as [i|]; [|discriminate]. destruct (nth_error_split l i G) as (a & b & -> & <-).
  destruct (SrtBy_mid lt a x b Hs) as [Ha Hb].
  rewrite c_prev_last. symmetry. apply c_seek_last_cut; [exact Ha|].
  intros y [<-|Hy]; [apply lt_irrefl|exact (lt_asym x y (Hb y Hy))].
Qed.

Definition up (P : A -> bool) : Prop := forall a b, lt a b = true -> P a = true -> P b = true.

(* table/iterator.c seek_lt, and the re-seek of a merger child on a switch to
   REVERSE: seek the first element at or above, then step back (or go to the last) *)
Lemma reseek_prev l G :
  SrtBy l -> up G ->
  match c_get l (c_seek G l) with
  | Some _ => c_prev l (c_seek G l)
  | None => c_last l
  end = c_seek_last (fun e => negb (G e)) l.
Proof.
  intros Hs HG. destruct (c_seek_split G l) as (a & b & Hl & -> & Ha & Hb).
  assert (Na : forall y, In y a -> negb (G y) = true) by (intros y Hy; rewrite (Ha y Hy); reflexivity).
  rewrite Hl in Hs |- *. destruct b as [|x b]; cbn [cur c_get].
  - rewrite (c_seek_last_cut _ a [] Na (fun y F => match F with end)), app_nil_r. reflexivity.
  - rewrite nth_error_mid, c_prev_last. symmetry. apply c_seek_last_cut; [exact Na|].
    intros y [<-|Hy]; [rewrite Hb; reflexivity|].
    rewrite (HG x y (proj2 (SrtBy_mid lt a x b Hs) y Hy) Hb). reflexivity.
Qed.

End Sorted.

(* On a strictly sorted list whose order the targets cut, the compositions of
   table/iterator.c are what a sorted map dictates: seek_gt = first element above
   the target, seek_le = last element not above it, seek_lt = last element below it. *)
Section MapScripts.
Context {A T : Type}.
Variable lt : A -> A -> bool.
Variable tcmp : A -> T -> comparison.
(* of two elements in order, the lower is below the target or the upper is above it *)
Hypothesis tcmp_cut : forall t a b, lt a b = true -> tcmp a t = Lt \/ tcmp b t = Gt.
Variable l : list A.
Hypothesis Hs : SrtBy lt l.

Notation C := (cursor_ops (is_ge tcmp) tcmp l).

(* a target cuts the list into the elements below it and the rest, of which only the first
   can fail to be above it; seek_ge goes to the cut *)
Inductive cut (t : T) : Prop :=
| Cut a b : l = a ++ b -> c_seek (is_ge tcmp t) l = cur a b -> (forall y, In y a -> tcmp y t = Lt) ->
    match b with [] => True | x :: b' => tcmp x t <> Lt /\ forall y, In y b' -> tcmp y t = Gt end -> cut t.

Lemma cut_at t : cut t.
Proof.
  destruct (c_seek_split (is_ge tcmp t) l) as (a & b & Hl & F & Ha & Hb). unfold is_ge in Ha, Hb.
  apply (Cut t a b Hl F).
  - intros y Hy. specialize (Ha y Hy). destruct (tcmp y t); congruence.
  - destruct b as [|x b']; [exact I|]. assert (Hx : tcmp x t <> Lt) by (destruct (tcmp x t); congruence).
    split; [exact Hx|]. intros y Hy. pose proof Hs as H. rewrite Hl in H.
    destruct (tcmp_cut t x y (proj2 (SrtBy_mid lt a x b' H) y Hy)) as [C|C]; [congruence|exact C].
Qed.

Lemma cursor_seek_gt t c : it_seek_gt C t c = c_seek (is_gt tcmp t) l.
Proof.
  unfold it_seek_gt. cbn [i_seek i_get i_cmp i_next cursor_ops].
  destruct (cut_at t) as [a b Hl -> Ha Hb].
  assert (Ia : forall y, In y a -> is_gt tcmp t y = false) by (intros y Hy; unfold is_gt; rewrite (Ha y Hy); reflexivity).
  rewrite Hl. destruct b as [|x b]; [symmetry; apply c_seek_cut; [exact Ia|intros y []]|].
  destruct Hb as [Hx Hb]. cbn [cur c_get]. rewrite nth_error_mid.
  assert (Ib : forall y, In y b -> is_gt tcmp t y = true) by (intros y Hy; unfold is_gt; rewrite (Hb y Hy); reflexivity).
  destruct (tcmp x t) eqn:E; [|congruence|]; symmetry.
  - (* the target is present: step over it *)
    rewrite (cur_next a x b). change (a ++ x :: b) with (a ++ [x] ++ b). rewrite app_assoc.
    apply c_seek_cut; [|exact Ib]. intros y Hy. apply in_app_or in Hy.
    destruct Hy as [Hy|[<-|[]]]; [exact (Ia y Hy)|unfold is_gt; rewrite E; reflexivity].
  - apply (c_seek_cut _ a (x :: b)); [exact Ia|]. intros y [<-|Hy]; [unfold is_gt; rewrite E; reflexivity|exact (Ib y Hy)].
Qed.

Lemma cursor_seek_le t c : it_seek_le C t c = c_seek_last (is_le tcmp t) l.
Proof.
  unfold it_seek_le. cbn [i_seek i_get i_cmp i_prev i_last cursor_ops].
  destruct (cut_at t) as [a b Hl -> Ha Hb].
  assert (Ia : forall y, In y a -> is_le tcmp t y = true) by (intros y Hy; unfold is_le; rewrite (Ha y Hy); reflexivity).
  rewrite Hl. destruct b as [|x b].
  { cbn [cur c_get]. rewrite (c_seek_last_cut _ a [] Ia (fun y F => match F with end)), app_nil_r. reflexivity. }
  destruct Hb as [Hx Hb]. cbn [cur c_get]. rewrite nth_error_mid.
  assert (Ib : forall y, In y b -> is_le tcmp t y = false) by (intros y Hy; unfold is_le; rewrite (Hb y Hy); reflexivity).
  destruct (tcmp x t) eqn:E; [|congruence|]; symmetry.
  - (* the target is present *)
    rewrite <- (c_last_snoc a x). change (a ++ x :: b) with (a ++ [x] ++ b). rewrite app_assoc.
    apply c_seek_last_cut; [|exact Ib]. intros y Hy. apply in_app_or in Hy.
    destruct Hy as [Hy|[<-|[]]]; [exact (Ia y Hy)|unfold is_le; rewrite E; reflexivity].
  - (* above the target: step back *)
    rewrite c_prev_last. apply c_seek_last_cut; [exact Ia|].
    intros y [<-|Hy]; [unfold is_le; rewrite E; reflexivity|exact (Ib y Hy)].
Qed.

Lemma cursor_seek_lt t c : it_seek_lt C t c = c_seek_last (is_lt tcmp t) l.
Proof.
  unfold it_seek_lt. cbn [i_seek i_get i_prev i_last cursor_ops].
  destruct (cut_at t) as [a b Hl -> Ha Hb].
  assert (E : c_seek_last (is_lt tcmp t) l = c_last a).
  { rewrite Hl. apply c_seek_last_cut; intros y Hy; unfold is_lt; [rewrite (Ha y Hy); reflexivity|].
    destruct b as [|x b]; [destruct Hy|]. destruct Hb as [Hx Hb].
    destruct Hy as [<-|Hy]; [destruct (tcmp x t); congruence|rewrite (Hb y Hy); reflexivity]. }
  rewrite E, Hl. destruct b as [|x b]; [rewrite app_nil_r; reflexivity|].
  cbn [cur c_get]. rewrite nth_error_mid. apply c_prev_last.
Qed.

Theorem cursor_scripts_are_map_scripts script : forall c,
  run_script C c script = map_script tcmp l c script.
Proof.
  induction script as [|x r IH]; intros c; [reflexivity|].
  cbn [run_script map_script].
  assert (Hstep : step_cmd C c x = map_step tcmp l c x).
  { destruct x as [| | | |t|t|t|t|t]; cbn [step_cmd map_step]; unfold observe, i_valid;
      cbn [i_first i_last i_seek i_next i_prev i_get cursor_ops]; try reflexivity.
    - destruct (c_get l c); reflexivity.
    - destruct (c_get l c); reflexivity.
    - rewrite (cursor_seek_gt t c). reflexivity.
    - rewrite (cursor_seek_le t c). reflexivity.
    - rewrite (cursor_seek_lt t c). reflexivity. }
  rewrite Hstep. destruct (map_step tcmp l c x) as [c' o]. f_equal. apply IH.
Qed.

End MapScripts.

Section Bisim.
Context {St1 St2 T O : Type}.
Variable I1 : iter_ops St1 T O.
Variable I2 : iter_ops St2 T O.
Variable R : St1 -> St2 -> Prop.

(* step-wise simulation; next / prev only from valid states (what scripts do) *)
Record bisim : Prop := {
  bs_cmp : forall o t, i_cmp I1 o t = i_cmp I2 o t;
  bs_get : forall a b, R a b -> i_get I1 a = i_get I2 b;
  bs_first : forall a b, R a b -> R (i_first I1 a) (i_first I2 b);
  bs_last : forall a b, R a b -> R (i_last I1 a) (i_last I2 b);
  bs_seek : forall t a b, R a b -> R (i_seek I1 t a) (i_seek I2 t b);
  bs_next : forall a b, R a b -> i_get I1 a <> None -> R (i_next I1 a) (i_next I2 b);
  bs_prev : forall a b, R a b -> i_get I1 a <> None -> R (i_prev I1 a) (i_prev I2 b)
}.

Hypothesis B : bisim.

Lemma bisim_step a b c :
  R a b -> R (fst (step_cmd I1 a c)) (fst (step_cmd I2 b c)) /\
           snd (step_cmd I1 a c) = snd (step_cmd I2 b c).
Proof.
  intros H.
  assert (Hfin : forall a' b', R a' b' -> R a' b' /\ observe I1 a' = observe I2 b').
  { intros a' b' H'. split; [exact H'|]. unfold observe. rewrite (bs_get B a' b' H'). reflexivity. }
  pose proof (bs_seek B) as Hseek.
  destruct c as [| | | |t|t|t|t|t]; cbn [step_cmd];
    unfold i_valid, it_seek_ge, it_seek_gt, it_seek_le, it_seek_lt.
  - apply Hfin, (bs_first B), H.
  - apply Hfin, (bs_last B), H.
  - rewrite <- (bs_get B a b H). destruct (i_get I1 a) as [o|] eqn:G.
    + apply Hfin, (bs_next B); [exact H|congruence].
    + split; [exact H|reflexivity].
  - rewrite <- (bs_get B a b H). destruct (i_get I1 a) as [o|] eqn:G.
    + apply Hfin, (bs_prev B); [exact H|congruence].
    + split; [exact H|reflexivity].
  - apply Hfin, Hseek, H.
  - apply Hfin, Hseek, H.
  - apply Hfin. pose proof (Hseek t a b H) as H1. rewrite <- (bs_get B _ _ H1).
    destruct (i_get I1 (i_seek I1 t a)) as [o|] eqn:G; [|exact H1].
    rewrite <- (bs_cmp B). destruct (i_cmp I1 o t); try exact H1.
    apply (bs_next B); [exact H1|congruence].
  - apply Hfin. pose proof (Hseek t a b H) as H1. rewrite <- (bs_get B _ _ H1).
    destruct (i_get I1 (i_seek I1 t a)) as [o|] eqn:G; [|apply (bs_last B); exact H1].
    rewrite <- (bs_cmp B). destruct (i_cmp I1 o t); try exact H1.
    apply (bs_prev B); [exact H1|congruence].
  - apply Hfin. pose proof (Hseek t a b H) as H1. rewrite <- (bs_get B _ _ H1).
    destruct (i_get I1 (i_seek I1 t a)) as [o|] eqn:G; [|apply (bs_last B); exact H1].
    apply (bs_prev B); [exact H1|congruence].
Qed.

Theorem bisim_scripts a b : R a b -> simulates I1 a I2 b.
Proof.
  intros H script. revert a b H. induction script as [|c r IH]; intros a b H.
  - reflexivity.
  - cbn [run_script]. destruct (bisim_step a b c H) as [HR Ho].
    destruct (step_cmd I1 a c) as [a' o1]. destruct (step_cmd I2 b c) as [b' o2].
    cbn [fst snd] in HR, Ho. subst o2. f_equal. apply IH. exact HR.
Qed.

Theorem bisim_run_state a b script : R a b -> R (run_state I1 a script) (run_state I2 b script).
Proof.
  revert a b. induction script as [|c r IH]; intros a b H.
  - exact H.
  - cbn [run_state]. apply IH. apply bisim_step. exact H.
Qed.

End Bisim.

Lemma bisim_refl {St T O} (I : iter_ops St T O) : bisim I I eq.
Proof. constructor; intros; subst; reflexivity. Qed.

Lemma simulates_trans {St1 St2 St3 T O} (I1 : iter_ops St1 T O) (I2 : iter_ops St2 T O)
      (I3 : iter_ops St3 T O) a b c :
  simulates I1 a I2 b -> simulates I2 b I3 c -> simulates I1 a I3 c.
Proof. intros H1 H2 script. rewrite (H1 script). apply H2. Qed.
