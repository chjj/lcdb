(* EngineStepsInv.v -- a Prop-level reading of the executable invariant inv_b, in two tiers
   as lcdb keeps its state: the version (LevInv: files and levels; RecT: recency among the
   tables) and the memtables, newer than each other and than every table;
   inv_b s = true <-> SInv s.  A step that leaves the version alone keeps the first tier as
   it is; one that changes it drops files of a level and adds files to a level
   (LevInv_filter, LevInv_add, RecT_step; the two removals and one addition of a compaction
   or move composed: edit_levels, LevInv_edit).
   What does not depend on the order stands first, outside the Section: the levels as a list
   of lists (level_files, set_level), distinct numbers (ND), the entries of the tables
   (tables), the search order of the tables (before). *)
From LCDB Require Import Base Engine EngineSpec EngineStepsBase.
From Coq Require Import Sorting.Sorted Permutation.
Require Import Lia.
Local Open Scope N_scope.

Lemma level_entries_In fs e : In e (level_entries fs) <-> exists f, In f fs /\ In e (fents f).
Proof.
  unfold level_entries. rewrite in_concat. split.
  - intros (l & H1 & H2). apply in_map_iff in H1. destruct H1 as (f & <- & Hf). eauto.
  - intros (f & H1 & H2). exists (fents f). split; auto. apply in_map; auto.
Qed.

Lemma level_entries_cons f r : level_entries (f :: r) = fents f ++ level_entries r.
Proof. reflexivity. Qed.

Lemma level_files_set_eq lv L fs : (L < length lv)%nat -> level_files (set_level lv L fs) L = fs.
Proof.
  unfold level_files. revert L. induction lv as [|x r IH]; intros L H; cbn [length] in H. lia.
  destruct L as [|L]; cbn [set_level nth]; auto. apply IH. lia.
Qed.

Lemma level_files_set_neq lv L fs i : i <> L -> level_files (set_level lv L fs) i = level_files lv i.
Proof.
  unfold level_files. revert L i. induction lv as [|x r IH]; intros L i H.
  - cbn [set_level]. reflexivity.
  - destruct L as [|L]; cbn [set_level]; destruct i as [|i]; cbn [nth]; auto. congruence.
Qed.

Lemma level_files_set lv L fs i :
  (L < length lv)%nat ->
  level_files (set_level lv L fs) i = if (i =? L)%nat then fs else level_files lv i.
Proof.
  intros H. destruct (i =? L)%nat eqn:E.
  - apply Nat.eqb_eq in E. subst. apply level_files_set_eq; auto.
  - apply Nat.eqb_neq in E. apply level_files_set_neq; auto.
Qed.

Lemma filter_level_In lv L p i f : (L < length lv)%nat ->
  (In f (level_files (set_level lv L (filter p (level_files lv L))) i) <->
   In f (level_files lv i) /\ (i = L -> p f = true)).
Proof.
  intros Hl. rewrite level_files_set by exact Hl. destruct (Nat.eqb_spec i L) as [->|E].
  - rewrite filter_In. split; [intros [H1 H2]; auto|intros [H1 H2]; auto].
  - split; [intros H; split; [exact H|intros E'; destruct (E E')]|intros [H _]; exact H].
Qed.

Lemma set_level_length lv L fs : length (set_level lv L fs) = length lv.
Proof.
  revert L. induction lv as [|x r IH]; intros L; cbn [set_level]; auto.
  destruct L; cbn [length]; auto.
Qed.

Lemma set_level_same lv L : set_level lv L (level_files lv L) = lv.
Proof.
  unfold level_files. revert L. induction lv as [|x r IH]; intros L; [destruct L; reflexivity|].
  destruct L as [|L]; cbn [set_level nth]; [reflexivity|]. f_equal. apply IH.
Qed.

Lemma set_level_twice lv i a b : set_level (set_level lv i a) i b = set_level lv i b.
Proof.
  revert i. induction lv as [|x r IH]; intros i; [reflexivity|].
  destruct i as [|i]; cbn [set_level]; [reflexivity|]. f_equal. apply IH.
Qed.

Lemma level_files_oob lv i : (length lv <= i)%nat -> level_files lv i = [].
Proof. intros H. apply nth_overflow; auto. Qed.

Lemma level_files_In_lt lv i (f : file) : In f (level_files lv i) -> (i < length lv)%nat.
Proof.
  intros H. destruct (Nat.lt_ge_cases i (length lv)); auto.
  rewrite level_files_oob in H; auto. destruct H.
Qed.

Lemma In_levels lv (fs : list file) :
  In fs lv <-> exists i, (i < length lv)%nat /\ level_files lv i = fs.
Proof.
  split.
  - intros H. destruct (In_nth _ _ [] H) as (i & H1 & H2). eauto.
  - intros (i & H1 & <-). apply nth_In; auto.
Qed.

Lemma In_skip1_levels lv (fs : list file) :
  In fs (skipn 1 lv) <-> exists i, (1 <= i)%nat /\ (i < length lv)%nat /\ level_files lv i = fs.
Proof.
  destruct lv as [|x r].
  - cbn. split. intros []. intros (i & _ & H & _). lia.
  - cbn [skipn]. rewrite In_levels. split.
    + intros (i & H1 & H2). exists (S i). cbn [length]. repeat split; auto; lia.
    + intros (i & H1 & H2 & H3). destruct i as [|i]; [lia|]. exists i.
      cbn [length] in H2. split; auto. lia.
Qed.

Lemma In_concat_levels lv (f : file) : In f (concat lv) <-> exists i, In f (level_files lv i).
Proof.
  rewrite in_concat. split.
  - intros (fs & H1 & H2). apply In_levels in H1. destruct H1 as (i & _ & <-). eauto.
  - intros (i & H). exists (level_files lv i). split; auto.
    apply In_levels. exists i. split; auto. eapply level_files_In_lt; eauto.
Qed.

Lemma nodup_nums_NoDup l : nodup_nums l = true <-> NoDup (map fnum l).
Proof.
  unfold nodup_nums. induction l as [|f r IH]; cbn [map].
  - split; auto. constructor.
  - rewrite andb_true_iff, IH, negb_true_iff. split.
    + intros [H1 H2]. constructor; auto. intros Hin. apply in_map_iff in Hin.
      destruct Hin as (g & Hg1 & Hg2).
      assert (existsb (fun g => fnum g =? fnum f) r = true).
      { apply existsb_exists. exists g. split; auto. apply N.eqb_eq. exact Hg1. }
      congruence.
    + intros H. inversion H; subst. split; auto.
      destruct (existsb (fun g => fnum g =? fnum f) r) eqn:E; auto.
      apply existsb_exists in E. destruct E as (g & Hg1 & Hg2).
      exfalso. apply H2. apply in_map_iff. exists g. split; auto. apply N.eqb_eq. exact Hg2.
Qed.

(* file numbers distinct within a level and across levels (nodup_nums, level by level) *)
Definition ND (lv : list (list file)) : Prop :=
  (forall i, NoDup (map fnum (level_files lv i))) /\
  (forall i j f g, i <> j -> In f (level_files lv i) -> In g (level_files lv j) -> fnum f <> fnum g).

Lemma NoDup_concat_ND lv : NoDup (map fnum (concat lv)) <-> ND lv.
Proof.
  unfold ND. induction lv as [|x r IH].
  - cbn [concat map]. split.
    + intros _. split. intros i. unfold level_files. destruct i; cbn; constructor.
      intros i j f g _ H. unfold level_files in H. destruct i; destruct H.
    + intros _. constructor.
  - cbn [concat]. rewrite map_app, NoDup_app_iff, IH. split.
    + intros (Hx & (Hr1 & Hr2) & Hd). split.
      * intros [|i]; unfold level_files; cbn [nth]; auto. apply Hr1.
      * intros i j f g Hij Hf Hg Hn. unfold level_files in Hf, Hg.
        destruct i as [|i], j as [|j]; cbn [nth] in Hf, Hg; try lia.
        -- apply (Hd (fnum f)). apply in_map; auto. rewrite Hn. apply in_map.
           apply In_concat_levels. eauto.
        -- apply (Hd (fnum g)). apply in_map; auto. rewrite <- Hn. apply in_map.
           apply In_concat_levels. eauto.
        -- apply (Hr2 i j f g); auto.
    + intros (H1 & H2). split; [|split].
      * apply (H1 0%nat).
      * split. intros i. apply (H1 (S i)).
        intros i j f g Hij Hf Hg. apply (H2 (S i) (S j)); auto.
      * intros n Hx Hr. apply in_map_iff in Hx. destruct Hx as (f & <- & Hf).
        apply in_map_iff in Hr. destruct Hr as (g & Hn & Hg).
        apply In_concat_levels in Hg. destruct Hg as (j & Hg).
        apply (H2 0%nat (S j) f g); auto.
Qed.

Lemma ND_set_level lv L fs' :
  ND lv -> (L < length lv)%nat -> NoDup (map fnum fs') ->
  (forall f, In f fs' ->
     In f (level_files lv L) \/ (forall j g, j <> L -> In g (level_files lv j) -> fnum g <> fnum f)) ->
  ND (set_level lv L fs').
Proof.
  intros [H1 H2] HL Hnd Hor. split.
  - intros i. destruct (Nat.eq_dec i L) as [->|Hne].
    + rewrite level_files_set_eq; auto.
    + rewrite level_files_set_neq; auto.
  - intros i j f g Hij Hf Hg.
    destruct (Nat.eq_dec i L) as [->|Hi]; destruct (Nat.eq_dec j L) as [->|Hj]; try congruence.
    + rewrite level_files_set_eq in Hf; auto. rewrite level_files_set_neq in Hg; auto.
      destruct (Hor f Hf) as [Ho|Ho].
      * apply (H2 L j f g); auto.
      * intros E. apply (Ho j g); auto.
    + rewrite level_files_set_neq in Hf; auto. rewrite level_files_set_eq in Hg; auto.
      destruct (Hor g Hg) as [Ho|Ho].
      * apply (H2 i L f g); auto.
      * apply (Ho i f); auto.
    + rewrite level_files_set_neq in Hf, Hg; auto. apply (H2 i j f g); auto.
Qed.

Definition tables (lv : list (list file)) : list entry := concat (map level_entries lv).

Lemma all_entries_eq s : all_entries s = mem s ++ imm_run s ++ tables (levels s).
Proof. reflexivity. Qed.

Lemma tables_In lv e : In e (tables lv) <-> exists i f, In f (level_files lv i) /\ In e (fents f).
Proof.
  unfold tables. rewrite in_concat. split.
  - intros (l & H1 & H2). apply in_map_iff in H1. destruct H1 as (fs & <- & H1).
    apply In_levels in H1. destruct H1 as (i & _ & <-).
    apply level_entries_In in H2. destruct H2 as (f & H2 & H3). eauto.
  - intros (i & f & H1 & H2). exists (level_entries (level_files lv i)). split.
    + apply in_map. apply In_levels. exists i. split; auto. eapply level_files_In_lt; eauto.
    + apply level_entries_In. eauto.
Qed.

Lemma all_entries_tables s e :
  In e (all_entries s) <-> (In e (mem s) \/ In e (imm_run s)) \/ In e (tables (levels s)).
Proof. rewrite all_entries_eq, !in_app_iff. symmetry. apply or_assoc. Qed.

(* the order in which ldb_version_get searches the tables: level 0 newest file (largest
   number) first, then the deeper levels in order *)
Definition before (i : nat) (f : file) (j : nat) (g : file) : Prop :=
  (i < j)%nat \/ (i = 0%nat /\ j = 0%nat /\ fnum g < fnum f).

Section SInv.
Variable ucmp : bytes -> bytes -> comparison.
Context {TO : total_order ucmp}.

Notation ueq := (Engine.ueq ucmp).
Notation ilt := (Engine.ilt ucmp).
Notation Srt := (EngineStepsBase.Srt ucmp).
Notation NO := (EngineStepsBase.NO ucmp).

(* Prop form of file_ok *)
Definition FOK (f : file) : Prop := fents f <> [] /\ Srt (fents f).

Lemma file_ok_FOK f : file_ok ucmp f = true <-> FOK f.
Proof.
  unfold file_ok, FOK. rewrite andb_true_iff, (sorted_run_Srt ucmp).
  destruct (fents f); cbn [negb]; split; intros [H1 H2]; split; auto; congruence.
Qed.

(* f lies entirely before g; FBb is the test level_sorted makes on the end keys *)
Definition FB (f g : file) : Prop :=
  forall x y, In x (fents f) -> In y (fents g) -> ilt x y = true.

Definition FBb (f g : file) : bool :=
  match flargest f, fsmallest g with Some a, Some b => ilt a b | _, _ => false end.

Lemma FOK_ends f : FOK f ->
  exists a r, fents f = a :: r /\ fsmallest f = Some a /\ flargest f = Some (last r a).
Proof.
  intros [H1 H2]. unfold fsmallest, flargest. destruct (fents f) as [|a r]; [congruence|].
  exists a, r. auto.
Qed.

Lemma FBb_FB f g : FOK f -> FOK g -> (FBb f g = true <-> FB f g).
Proof.
  intros Hf Hg. pose proof Hf as [_ Sf]. pose proof Hg as [_ Sg].
  destruct (FOK_ends f Hf) as (a & r & E1 & E2 & E3).
  destruct (FOK_ends g Hg) as (b & t & G1 & G2 & G3).
  unfold FBb, FB. rewrite E3, G2, E1, G1. rewrite E1 in Sf. rewrite G1 in Sg. split.
  - intros H x y Hx Hy. exact (Srt_ends_lt ucmp a r b t x y Sf Sg H Hx Hy).
  - intros H. apply H. apply last_In. left; auto.
Qed.

Lemma in_user_range_of f e k :
  FOK f -> In e (fents f) -> ueq (ek e) k = true -> in_user_range ucmp f k = true.
Proof.
  intros Hf He Hk. destruct (FOK_ends f Hf) as (a & r & E1 & E2 & E3).
  destruct Hf as [_ Sf]. rewrite E1 in *.
  unfold in_user_range. rewrite E2, E3. apply ueq_iff in Hk.
  apply andb_true_iff. split; apply ule_iff.
  - rewrite <- (cmp_eq_r TO _ _ (ek a) Hk). apply (ile_ukey ucmp).
    apply (Srt_hd_min ucmp a r e Sf He).
  - rewrite <- (cmp_eq_l TO _ _ (ek (last r a)) Hk). apply (ile_ukey ucmp).
    apply (Srt_last_max ucmp a r e Sf He).
Qed.

Lemma FB_trans f g h : fents g <> [] -> FB f g -> FB g h -> FB f h.
Proof.
  intros Hg H1 H2 x z Hx Hz. destruct (fents g) as [|y r] eqn:E; [congruence|].
  eapply (ilt_trans ucmp). apply (H1 x y); auto. rewrite E; left; auto.
  apply (H2 y z); auto. rewrite E; left; auto.
Qed.

Lemma level_sorted_SS fs :
  Forall FOK fs -> (level_sorted ucmp fs = true <-> StronglySorted FB fs).
Proof.
  intros HF. rewrite Forall_forall in HF. apply (adj_SS FBb FB fs).
  - intros f g Hf Hg. apply FBb_FB; auto.
  - intros f g h _ Hg _. exact (FB_trans f g h (proj1 (HF g Hg))).
Qed.

Lemma level_entries_Srt fs : Forall FOK fs -> StronglySorted FB fs -> Srt (level_entries fs).
Proof.
  induction fs as [|f r IH]; intros HF HS.
  - apply Srt_nil.
  - inversion HF; subst. inversion HS; subst. rewrite level_entries_cons. apply Srt_app.
    split; [apply H1|]. split; [auto|].
    intros x y Hx Hy. apply level_entries_In in Hy. destruct Hy as (g & Hg & Hy).
    rewrite Forall_forall in H4. apply (H4 g Hg x y); auto.
Qed.

Lemma Srt_files fs :
  Srt (level_entries fs) -> (forall f, In f fs -> fents f <> []) ->
  Forall FOK fs /\ StronglySorted FB fs.
Proof.
  induction fs as [|f r IH]; intros HS Hne.
  - split; constructor.
  - rewrite level_entries_cons in HS. apply Srt_app in HS. destruct HS as (H1 & H2 & H3).
    destruct (IH H2) as [I1 I2]. intros g Hg. apply Hne. right; auto.
    split; constructor; auto.
    + split; auto. apply Hne. left; auto.
    + apply Forall_forall. intros g Hg x y Hx Hy. apply H3; auto.
      apply level_entries_In. eauto.
Qed.

Lemma add_files_Perm fs news : Permutation (add_files ucmp fs news) (news ++ fs).
Proof.
  unfold add_files. revert fs. induction news as [|n r IH]; intros fs; cbn [fold_left app]; auto.
  eapply perm_trans. apply IH.
  eapply perm_trans. apply Permutation_app_head. apply (ins_Perm (file_before ucmp)).
  symmetry. apply Permutation_middle.
Qed.

Lemma add_files_In fs news g : In g (add_files ucmp fs news) <-> In g news \/ In g fs.
Proof.
  split; intros H.
  - apply (Permutation_in _ (add_files_Perm fs news)) in H. apply in_app_or; auto.
  - apply (Permutation_in _ (Permutation_sym (add_files_Perm fs news))). apply in_or_app; auto.
Qed.

(* disjoint in internal-key order *)
Definition FC (f g : file) : Prop := FB f g \/ FB g f.

Lemma file_before_iff f g : FOK f -> FOK g ->
  (file_before ucmp f g = true <->
   exists a b r t, fents f = a :: r /\ fents g = b :: t /\ ilt a b = true).
Proof.
  intros Hf Hg.
  destruct (FOK_ends f Hf) as (a & r & E1 & E2 & E3).
  destruct (FOK_ends g Hg) as (b & t & G1 & G2 & G3).
  unfold file_before. rewrite E2, G2. split.
  - intros H. exists a, b, r, t. auto.
  - intros (a' & b' & r' & t' & H1 & H2 & H3). congruence.
Qed.

Lemma insert_file_SS f l :
  FOK f -> Forall FOK l -> StronglySorted FB l -> (forall g, In g l -> FC f g) ->
  StronglySorted FB (insert_file ucmp f l).
Proof.
  intros Hf HF HS HC. rewrite Forall_forall in HF.
  change (insert_file ucmp f l) with (ins (file_before ucmp) f l). apply ins_SS; auto.
  - (* f and g are comparable, and file_before compares their first entries *)
    intros g Hg. pose proof (HF g Hg) as Hgk.
    destruct (FOK_ends f Hf) as (a & ra & E1 & _ & _).
    destruct (FOK_ends g Hgk) as (b & rb & G1 & _ & _).
    assert (Ha: In a (fents f)) by (rewrite E1; left; reflexivity).
    assert (Hb: In b (fents g)) by (rewrite G1; left; reflexivity).
    destruct (file_before ucmp f g) eqn:E.
    + apply file_before_iff in E; auto. destruct E as (a' & b' & r' & t' & H1 & H2 & H3).
      destruct (HC g Hg) as [H|H]; auto. exfalso.
      assert (a' = a) by congruence. assert (b' = b) by congruence. subst.
      pose proof (H b a Hb Ha) as Hba. rewrite (ilt_asym ucmp _ _ H3) in Hba. discriminate.
    + destruct (HC g Hg) as [H|H]; auto. exfalso.
      assert (E': file_before ucmp f g = true); [|congruence].
      apply file_before_iff; auto. exists a, b, ra, rb. repeat split; auto.
  - intros x y Hx _ H1 H2. exact (FB_trans f x y (proj1 (HF x Hx)) H1 H2).
Qed.

Lemma add_files_SS fs news :
  Forall FOK fs -> Forall FOK news -> StronglySorted FB fs ->
  ForallOrdPairs FC news -> (forall f g, In f news -> In g fs -> FC f g) ->
  StronglySorted FB (add_files ucmp fs news).
Proof.
  unfold add_files. revert fs. induction news as [|n r IH]; intros fs Hfs Hn HS HP HC; cbn [fold_left]; auto.
  inversion Hn; subst. inversion HP; subst. apply IH; auto.
  - apply Forall_forall. intros g Hg. apply (ins_In (file_before ucmp)) in Hg.
    destruct Hg as [Hg|Hg]; subst; auto. rewrite Forall_forall in Hfs; auto.
  - apply insert_file_SS; auto. intros g Hg. apply HC; auto. left; auto.
  - intros f g Hf Hg. apply (ins_In (file_before ucmp)) in Hg. destruct Hg as [Hg|Hg]; subst.
    + rewrite Forall_forall in H3. destruct (H3 f Hf) as [H|H]; [right|left]; auto.
    + apply HC; auto. right; auto.
Qed.

Lemma ND_add_files lv L news :
  ND lv -> (L < length lv)%nat -> NoDup (map fnum news) ->
  (forall f, In f news -> forall j g, In g (level_files lv j) -> fnum g <> fnum f) ->
  ND (set_level lv L (add_files ucmp (level_files lv L) news)).
Proof.
  intros HN HL Hnd Hnew. apply ND_set_level; auto.
  - eapply Permutation_NoDup; [symmetry; apply Permutation_map, add_files_Perm|].
    rewrite map_app. apply NoDup_app_iff. split; [exact Hnd|]. split; [apply HN|].
    intros n H1 H2. apply in_map_iff in H1. destruct H1 as (f & <- & Hf).
    apply in_map_iff in H2. destruct H2 as (g & Hgn & Hg). exact (Hnew f Hf L g Hg Hgn).
  - intros f Hf. apply add_files_In in Hf. destruct Hf as [Hf|Hf]; auto.
    right. intros j g _ Hg. exact (Hnew f Hf j g Hg).
Qed.

(* recency among the tables: a table searched earlier holds the newer entries of a user key *)
Definition RecT (lv : list (list file)) : Prop :=
  forall i f j g, In f (level_files lv i) -> In g (level_files lv j) -> before i f j g ->
                  NO (fents f) (fents g).

Lemma NO_table p lv i f : NO p (tables lv) -> In f (level_files lv i) -> NO p (fents f).
Proof. intros H Hf o m Ho Hm. apply H; auto. apply tables_In. eauto. Qed.

Lemma NO_level p fs : NO p (level_entries fs) <-> forall g, In g fs -> NO p (fents g).
Proof.
  split.
  - intros H g Hg o m Ho Hm. apply H; auto. apply level_entries_In. eauto.
  - intros H o m Ho Hm. apply level_entries_In in Hm. destruct Hm as (g & Hg & Hm). exact (H g Hg o m Ho Hm).
Qed.

(* [places s] is the two memtables followed by the runs of the tables in search order *)
Definition table_runs (lv : list (list file)) : list (list entry) :=
  map fents (sort_newest (level_files lv 0)) ++ map level_entries (skipn 1 lv).

Lemma table_runs_In lv e : In e (concat (table_runs lv)) <-> In e (tables lv).
Proof.
  unfold table_runs, tables, level_files. rewrite concat_app, in_app_iff.
  destruct lv as [|l0 deeper]; cbn [nth skipn map concat sort_newest fold_right]; [cbn [In]; tauto|].
  fold (sort_newest l0). fold (level_entries (sort_newest l0)). rewrite in_app_iff, !level_entries_In.
  assert (H : (exists f, In f (sort_newest l0) /\ In e (fents f)) <-> (exists f, In f l0 /\ In e (fents f))).
  { split; intros (f & Hf & He); exists f; split; try exact He; apply (sort_newest_In l0 f); exact Hf. }
  rewrite H. reflexivity.
Qed.

Lemma places_In s e : In e (concat (places s)) <-> In e (all_entries s).
Proof.
  change (places s) with (mem s :: imm_run s :: table_runs (levels s)).
  cbn [concat]. rewrite all_entries_eq, !in_app_iff, table_runs_In. reflexivity.
Qed.

Lemma deep_nth lv k :
  nth k (map level_entries (skipn 1 lv)) [] = level_entries (level_files lv (S k)).
Proof.
  change (@nil entry) with (level_entries []). rewrite map_nth. f_equal. unfold level_files.
  destruct lv; [destruct k|]; reflexivity.
Qed.

Lemma table_runs_RecT lv :
  NoDup (map fnum (level_files lv 0)) -> (ForallOrdPairs NO (table_runs lv) <-> RecT lv).
Proof.
  intros HND. unfold table_runs. set (S0 := sort_newest (level_files lv 0)).
  (* level 0 in search order: numbers strictly descending *)
  assert (HS: ForallOrdPairs (fun f g => fnum g < fnum f) S0).
  { pose proof (sort_newest_sorted (level_files lv 0)) as HS. apply SS_FOP in HS.
    assert (HN: ForallOrdPairs (fun f g => fnum f <> fnum g) S0).
    { apply NoDup_nums_FOP. eapply Permutation_NoDup; [|exact HND].
      apply Permutation_map. symmetry. apply sort_newest_Perm. }
    eapply FOP_impl; [|exact (FOP_conj _ _ _ HS HN)]. intros f g _ _ [H1 H2]. unfold Desc in H1. lia. }
  assert (HL: length (map level_entries (skipn 1 lv)) = (length lv - 1)%nat).
  { rewrite map_length, skipn_length. reflexivity. }
  rewrite FOP_app, FOP_map, (FOP_nth NO []). split.
  - intros (HF & HD & HX) i f j g Hf Hg [Hb|(-> & -> & Hb)].
    + pose proof (level_files_In_lt _ _ _ Hg) as Hj. destruct i as [|i].
      * (* a level-0 file and a deeper level *)
        apply (NO_level (fents f) (level_files lv j)); [|exact Hg]. apply HX.
        -- apply in_map, sort_newest_In, Hf.
        -- apply in_map, In_skip1_levels. eauto.
      * (* two deeper levels *)
        destruct j as [|j]; [lia|]. specialize (HD i j). rewrite !deep_nth, HL in HD.
        apply (NO_level (fents f) (level_files lv (S j))); [|exact Hg].
        assert (Hij: (i < j)%nat) by lia. assert (Hjl: (j < length lv - 1)%nat) by lia.
        apply (NO_sub ucmp _ _ _ _ (HD Hij Hjl)); [|apply incl_refl].
        intros o Ho. apply level_entries_In. eauto.
    + destruct (ForallOrdPairs_In (FOP_conj _ _ _ HS HF) f g) as [E|[[E1 E2]|[E1 E2]]];
        try (apply sort_newest_In; assumption); [subst; lia|exact E2|lia].
  - intros HR. split; [|split].
    + eapply FOP_impl; [|exact HS]. intros f g Hf Hg Hlt.
      apply (HR 0%nat f 0%nat g); [apply sort_newest_In, Hf|apply sort_newest_In, Hg|right; auto].
    + intros i j Hij Hj. rewrite !deep_nth. rewrite HL in Hj.
      apply NO_level. intros g Hg o m Ho Hm. apply level_entries_In in Ho. destruct Ho as (f & Hf & Ho).
      apply (HR (S i) f (S j) g Hf Hg); auto. left. lia.
    + intros x y Hx Hy. apply in_map_iff in Hx, Hy. destruct Hx as (f & <- & Hf). destruct Hy as (fs & <- & Hfs).
      apply In_skip1_levels in Hfs. destruct Hfs as (j & Hj & _ & <-). apply NO_level. intros g Hg.
      apply (HR 0%nat f j g); [apply sort_newest_In, Hf|exact Hg|left; lia].
Qed.

(* recency (places s), read in two tiers: the memtables against each other and against the
   tables, and the tables among themselves *)
Theorem places_two_tier s :
  NoDup (map fnum (level_files (levels s) 0)) ->
  (recency ucmp (places s) = true <->
   NO (mem s) (imm_run s) /\ NO (mem s) (tables (levels s)) /\ NO (imm_run s) (tables (levels s))
   /\ RecT (levels s)).
Proof.
  intros HND. rewrite (recency_FOP ucmp). change (places s) with (mem s :: imm_run s :: table_runs (levels s)).
  rewrite !FOP_cons_iff, Forall_cons_iff, !(NO_concat ucmp), (table_runs_RecT _ HND),
    !(NO_ext ucmp _ _ _ (table_runs_In (levels s))). apply and_assoc.
Qed.

(* the conjuncts of inv_b that speak of [levels] and [next_file] alone (a version of lcdb) *)
Record LevInv (lv : list (list file)) (nf : N) : Prop := {
  li_len : length lv = NUM_LEVELS;                                   (* length (levels s) =? NUM_LEVELS *)
  li_fok : forall i f, In f (level_files lv i) -> FOK f;             (* file_ok, all files *)
  li_lsort : forall i, (1 <= i)%nat -> StronglySorted FB (level_files lv i);   (* level_sorted, levels >= 1 *)
  li_num : forall i f, In f (level_files lv i) -> fnum f < nf;       (* fnum f <? next_file *)
  li_nd : ND lv                                                      (* nodup_nums (concat (levels s)) *)
}.

Lemma LevInv_lt lv nf L : LevInv lv nf -> (L < NUM_LEVELS)%nat -> (L < length lv)%nat.
Proof. intros HV HL. rewrite (li_len _ _ HV). exact HL. Qed.

(* inv_b in two tiers: the version; the memtables, newer than each other and than every table *)
Record SInv (s : state) : Prop := mkSInv {
  si_lev : LevInv (levels s) (next_file s);
  si_rect : RecT (levels s);                      (* recency (places s), see places_two_tier *)
  si_mem : Srt (mem s);                           (* sorted_run (mem s) *)
  si_imm : Srt (imm_run s);                       (* sorted_run of imm, if there is one *)
  si_mi : NO (mem s) (imm_run s);
  si_mt : NO (mem s) (tables (levels s));
  si_it : NO (imm_run s) (tables (levels s));
  si_seq : forall e, In e (all_entries s) -> es e <= last_seq s;          (* es e <=? last_seq *)
  si_snap : forall q, In q (snaps s) -> q <= last_seq s;                  (* q <=? last_seq *)
  si_snsort : StronglySorted N.le (snaps s)       (* sorted_le (snaps s) *)
}.

Lemma si_len s : SInv s -> length (levels s) = NUM_LEVELS.
Proof. intros HI. apply (si_lev s HI). Qed.
Lemma si_fok s : SInv s -> forall i f, In f (level_files (levels s) i) -> FOK f.
Proof. intros HI. apply (si_lev s HI). Qed.
Lemma si_lsort s : SInv s -> forall i, (1 <= i)%nat -> StronglySorted FB (level_files (levels s) i).
Proof. intros HI. apply (si_lev s HI). Qed.
Lemma si_num s : SInv s -> forall i f, In f (level_files (levels s) i) -> fnum f < next_file s.
Proof. intros HI. apply (si_lev s HI). Qed.
Lemma si_nd s : SInv s -> ND (levels s).
Proof. intros HI. apply (si_lev s HI). Qed.

Lemma level_lt s L : SInv s -> (L < NUM_LEVELS)%nat -> (L < length (levels s))%nat.
Proof. intros HI. exact (LevInv_lt _ _ L (si_lev s HI)). Qed.

(* the tests of inv_b on the levels, read level by level *)
Lemma forallb_levels (p : file -> bool) (P : file -> Prop) lv :
  (forall f, p f = true <-> P f) ->
  (forallb (forallb p) lv = true <-> forall i f, In f (level_files lv i) -> P f).
Proof.
  intros Hp. rewrite forallb_forall. split.
  - intros H i f Hf. assert (Hi := level_files_In_lt _ _ _ Hf).
    specialize (H (level_files lv i)). rewrite forallb_forall in H. apply Hp, H; auto.
    apply In_levels; eauto.
  - intros H fs Hfs. apply In_levels in Hfs. destruct Hfs as (i & _ & <-).
    apply forallb_forall. intros f Hf. eapply Hp, H; eauto.
Qed.

Lemma concat_levels_forall (P : file -> Prop) lv :
  (forall f, In f (concat lv) -> P f) <-> (forall i f, In f (level_files lv i) -> P f).
Proof.
  split.
  - intros H i f Hf. apply H, In_concat_levels. eauto.
  - intros H f Hf. apply In_concat_levels in Hf. destruct Hf as (i & Hf). exact (H i f Hf).
Qed.

Lemma deep_levels_sorted lv :
  (forall i f, In f (level_files lv i) -> FOK f) ->
  (forallb (level_sorted ucmp) (skipn 1 lv) = true <->
   forall i, (1 <= i)%nat -> StronglySorted FB (level_files lv i)).
Proof.
  intros HF. assert (HF': forall i, Forall FOK (level_files lv i)) by (intros i; apply Forall_forall, HF).
  rewrite forallb_forall. split.
  - intros H i Hi. destruct (Nat.lt_ge_cases i (length lv)) as [Hl|Hl].
    + apply level_sorted_SS, H, In_skip1_levels; eauto.
    + rewrite level_files_oob by exact Hl. constructor.
  - intros H fs Hfs. apply In_skip1_levels in Hfs. destruct Hfs as (i & Hi & _ & <-).
    apply level_sorted_SS; auto.
Qed.

Lemma imm_sorted_iff s :
  (match imm s with Some im => sorted_run ucmp im | None => true end) = true <-> Srt (imm_run s).
Proof.
  unfold imm_run. destruct (imm s).
  - apply (sorted_run_Srt ucmp).
  - split; auto. intros _. apply Srt_nil.
Qed.

(* each conjunct of inv_b by its reflection, in the order of inv_b; level_sorted is read
   knowing the files well formed, recency knowing the numbers distinct (so nodup_nums is
   taken out first: andb_comm) *)
Theorem inv_b_SInv s : inv_b ucmp s = true <-> SInv s.
Proof.
  unfold inv_b. etransitivity.
  { eapply andb_split. eapply andb_split.
    rewrite andb_comm. eapply andb_split; [exact (iff_trans (nodup_nums_NoDup _) (NoDup_concat_ND _))|intros HND].
    eapply andb_split. eapply andb_split. eapply andb_split. eapply andb_split.
    eapply andb_split. eapply andb_split. eapply andb_split.
    - apply Nat.eqb_eq.
    - intros _. apply (sorted_run_Srt ucmp).
    - intros _. apply imm_sorted_iff.
    - intros _. apply forallb_levels, file_ok_FOK.
    - intros [_ HF]. apply deep_levels_sorted, HF.
    - intros _. apply places_two_tier, HND.
    - intros _. apply forallb_iff. intros e. apply N.leb_le.
    - intros _. exact (iff_trans (forallb_iff _ _ _ (fun f => N.ltb_lt _ _)) (concat_levels_forall _ _)).
    - intros _. apply forallb_iff. intros q. apply N.leb_le.
    - intros _. apply sorted_le_SS. }
  split.
  - intros (((H9 & ((((((H1 & H2) & H3) & H4) & H5) & R1 & R2 & R3 & R4) & H7) & H8) & H10) & H11).
    exact (mkSInv s (Build_LevInv _ _ H1 H4 H5 H8 H9) R4 H2 H3 R1 R2 R3 H7 H10 H11).
  - intros [[H1 H4 H5 H8 H9] R4 H2 H3 R1 R2 R3 H7 H10 H11]. tauto.
Qed.

Lemma SInv_recency s : SInv s -> ForallOrdPairs NO (places s).
Proof.
  intros HI. apply (recency_FOP ucmp), places_two_tier; [apply (si_nd s HI)|].
  repeat split; apply HI.
Qed.

Lemma places_Srt s : SInv s -> Forall Srt (places s).
Proof.
  intros HI. unfold places. constructor; [apply HI|]. constructor; [apply HI|].
  apply Forall_app. split; apply Forall_map, Forall_forall.
  - intros f Hf. apply (si_fok s HI 0%nat f), (sort_newest_In _ f), Hf.
  - intros fs Hfs. apply In_skip1_levels in Hfs. destruct Hfs as (i & Hi & _ & <-).
    apply level_entries_Srt; [|apply (si_lsort s HI i Hi)].
    apply Forall_forall. intros f Hf. apply (si_fok s HI i f Hf).
Qed.

Lemma filter_split_Perm {A} (p : A -> bool) l :
  Permutation (filter p l ++ filter (fun x => negb (p x)) l) l.
Proof.
  induction l as [|a l IH]; [constructor|]. cbn [filter]. destruct (p a); cbn [negb app].
  - apply perm_skip, IH.
  - symmetry. apply Permutation_cons_app. symmetry. exact IH.
Qed.

(* The runs an iterator over the version merges -- no run for an absent immutable memtable,
   level 0 in version order, only the levels >= 1 selected by keep -- are, up to order,
   a part of [places s]. *)
Lemma places_part s (keep : list file -> bool) :
  exists rest,
    Permutation
      ((mem s :: (match imm s with Some im => [im] | None => [] end)
              ++ map fents (level_files (levels s) 0)
              ++ map level_entries (filter keep (skipn 1 (levels s)))) ++ rest)
      (places s).
Proof.
  exists ((match imm s with Some _ => [] | None => [[]] end)
          ++ map level_entries (filter (fun fs => negb (keep fs)) (skipn 1 (levels s)))).
  unfold places, imm_run. cbn [app]. apply perm_skip.
  assert (H: Permutation
               ((map fents (level_files (levels s) 0)
                 ++ map level_entries (filter keep (skipn 1 (levels s))))
                ++ map level_entries (filter (fun fs => negb (keep fs)) (skipn 1 (levels s))))
               (map fents (sort_newest (level_files (levels s) 0))
                ++ map level_entries (skipn 1 (levels s)))).
  { rewrite <- app_assoc, <- map_app. apply Permutation_app.
    - apply Permutation_map. symmetry. apply sort_newest_Perm.
    - apply Permutation_map, filter_split_Perm. }
  destruct (imm s) as [im|]; cbn [app].
  - apply perm_skip, H.
  - symmetry. apply Permutation_cons_app. symmetry. exact H.
Qed.

(* the stored entries, listed in search order, are pairwise comparable: each run is sorted,
   and of two runs the one searched first holds the newer entries of a user key *)
Lemma SInv_KD s : SInv s -> KD ucmp (all_entries s).
Proof.
  intros HI. assert (H: KD ucmp (concat (places s))).
  { apply (Cmp_KD ucmp), FOP_concat.
    - intros l Hl. apply (Srt_FOP_Cmp ucmp). exact (proj1 (Forall_forall _ _) (places_Srt s HI) l Hl).
    - eapply FOP_impl; [|exact (SInv_recency s HI)]. intros p q _ _ Hpq x y. exact (NO_Cmp ucmp p q x y Hpq). }
  intros a b Ha Hb. apply places_In in Ha, Hb. exact (H a b Ha Hb).
Qed.

Lemma add_level_In lv L news i g :
  (L < length lv)%nat ->
  (In g (level_files (set_level lv L (add_files ucmp (level_files lv L) news)) i) <->
   In g (level_files lv i) \/ (i = L /\ In g news)).
Proof.
  intros Hl. rewrite level_files_set by exact Hl. destruct (Nat.eqb_spec i L) as [->|E].
  - rewrite add_files_In. split; [intros [H|H]; auto|intros [H|[_ H]]; auto].
  - split; [auto|intros [H|[E' _]]; [exact H|destruct (E E')]].
Qed.

Lemma LevInv_filter lv nf L p :
  LevInv lv nf -> (L < NUM_LEVELS)%nat -> LevInv (set_level lv L (filter p (level_files lv L))) nf.
Proof.
  intros HV HL. pose proof (LevInv_lt lv nf L HV HL) as Hl.
  assert (Hin := fun i f => proj1 (filter_level_In lv L p i f Hl)).
  constructor.
  - rewrite set_level_length. apply HV.
  - intros i f Hf. apply (li_fok _ _ HV i f), Hin, Hf.
  - intros i Hi. rewrite level_files_set by exact Hl.
    destruct (Nat.eqb_spec i L) as [->|E]; [apply SS_filter|]; apply (li_lsort _ _ HV), Hi.
  - intros i f Hf. apply (li_num _ _ HV i f), Hin, Hf.
  - apply ND_set_level; [apply HV|exact Hl|apply NoDup_map_filter, HV|].
    intros f Hf. left. apply filter_In in Hf. apply Hf.
Qed.

(* new files: well formed, numbered apart from each other and from every file there is,
   below the new counter; in a level >= 1 disjoint from each other and from the level's files *)
Lemma LevInv_add lv nf nf' L news :
  LevInv lv nf -> (L < NUM_LEVELS)%nat ->
  (forall f, In f news -> FOK f) -> NoDup (map fnum news) ->
  (forall f, In f news ->
     fnum f < nf' /\ forall j g, In g (level_files lv j) -> fnum g <> fnum f) ->
  (forall j g, In g (level_files lv j) -> fnum g < nf') ->
  ((1 <= L)%nat ->
     ForallOrdPairs FC news /\ forall f g, In f news -> In g (level_files lv L) -> FC f g) ->
  LevInv (set_level lv L (add_files ucmp (level_files lv L) news)) nf'.
Proof.
  intros HV HL Hok Hnd Hnum Hnf Hfc. pose proof (LevInv_lt lv nf L HV HL) as Hl.
  assert (Hin := fun i g => proj1 (add_level_In lv L news i g Hl)).
  constructor.
  - rewrite set_level_length. apply HV.
  - intros i f Hf. destruct (Hin i f Hf) as [H|[_ H]]; [exact (li_fok _ _ HV i f H)|apply Hok, H].
  - intros i Hi. rewrite level_files_set by exact Hl.
    destruct (Nat.eqb_spec i L) as [->|E]; [|apply (li_lsort _ _ HV), Hi].
    destruct (Hfc Hi) as [H1 H2]. apply add_files_SS; auto.
    + apply Forall_forall. intros g Hg. exact (li_fok _ _ HV L g Hg).
    + apply Forall_forall, Hok.
    + apply (li_lsort _ _ HV L Hi).
  - intros i f Hf. destruct (Hin i f Hf) as [H|[_ H]]; [exact (Hnf i f H)|apply Hnum, H].
  - apply ND_add_files; auto; [apply HV|]. intros f Hf. apply (Hnum f Hf).
Qed.

Lemma tables_add lv L news e : (L < length lv)%nat ->
  (In e (tables (set_level lv L (add_files ucmp (level_files lv L) news))) <->
   In e (tables lv) \/ In e (level_entries news)).
Proof.
  intros Hl. rewrite !tables_In, level_entries_In. split.
  - intros (i & f & Hf & He). apply add_level_In in Hf; [|exact Hl].
    destruct Hf as [Hf|[_ Hf]]; eauto.
  - intros [(i & f & Hf & He)|(f & Hf & He)].
    + exists i, f. split; [|exact He]. apply add_level_In; auto.
    + exists L, f. split; [|exact He]. apply add_level_In; auto.
Qed.

(* A version changes by files leaving (those not kept) and new files entering level T.
   Recency among the tables then asks for three things: an old table searched before a new
   one, a new one before an old one, two new ones. *)
Lemma RecT_step lv lv' T news (keep : nat -> file -> Prop) :
  RecT lv ->
  (forall i f, In f (level_files lv' i) ->
     (In f (level_files lv i) /\ keep i f) \/ (i = T /\ In f news)) ->
  (forall i f g, In f (level_files lv i) -> keep i f -> In g news -> before i f T g ->
     NO (fents f) (fents g)) ->
  (forall f j g, In f news -> In g (level_files lv j) -> keep j g -> before T f j g ->
     NO (fents f) (fents g)) ->
  (forall f g, In f news -> In g news -> before T f T g -> NO (fents f) (fents g)) ->
  RecT lv'.
Proof.
  intros HR Hin Hp Ho Hn i f j g Hf Hg Hb. apply Hin in Hf, Hg.
  destruct Hf as [[Hf Kf]|[-> Hf]], Hg as [[Hg Kg]|[-> Hg]]; eauto.
Qed.

(* a version edit: files leave levels L and T, new files enter level T *)
Definition edit_levels (lv : list (list file)) (L T : nat) (p0 p1 : file -> bool) (news : list file) :=
  set_level (set_level lv L (filter p0 (level_files lv L))) T
            (add_files ucmp (filter p1 (level_files lv T)) news).

Definition edit_keep (L T : nat) (p0 p1 : file -> bool) (i : nat) (f : file) : Prop :=
  (i = L -> p0 f = true) /\ (i = T -> p1 f = true).

Section EditLevels.
Variables (lv : list (list file)) (nf nf' : N) (L T : nat) (p0 p1 : file -> bool) (news : list file).
Hypothesis HV : LevInv lv nf.
Hypothesis HL : (L < NUM_LEVELS)%nat.
Hypothesis HT : (T < NUM_LEVELS)%nat.
Hypothesis HLT : L <> T.

(* the two removals alone *)
Let lvr := set_level (set_level lv L (filter p0 (level_files lv L))) T (filter p1 (level_files lv T)).

Lemma edit_levels_eq :
  edit_levels lv L T p0 p1 news = set_level lvr T (add_files ucmp (level_files lvr T) news).
Proof.
  unfold lvr. rewrite set_level_twice, level_files_set_eq; [reflexivity|].
  rewrite set_level_length. exact (LevInv_lt lv nf T HV HT).
Qed.

Lemma lvr_In i f : In f (level_files lvr i) <-> In f (level_files lv i) /\ edit_keep L T p0 p1 i f.
Proof.
  pose proof (LevInv_lt lv nf L HV HL) as Hl. pose proof (LevInv_lt lv nf T HV HT) as Ht.
  unfold lvr. rewrite <- (level_files_set_neq lv L (filter p0 (level_files lv L)) T (not_eq_sym HLT)).
  rewrite filter_level_In, filter_level_In by (rewrite ?set_level_length; assumption). apply and_assoc.
Qed.

Lemma lvr_LevInv : LevInv lvr nf.
Proof.
  unfold lvr. rewrite <- (level_files_set_neq lv L (filter p0 (level_files lv L)) T (not_eq_sym HLT)).
  apply LevInv_filter; [apply LevInv_filter|]; assumption.
Qed.

Lemma edit_levels_In i f :
  In f (level_files (edit_levels lv L T p0 p1 news) i) <->
  (In f (level_files lv i) /\ edit_keep L T p0 p1 i f) \/ (i = T /\ In f news).
Proof.
  rewrite edit_levels_eq, add_level_In, lvr_In; [reflexivity|].
  exact (LevInv_lt lvr nf T lvr_LevInv HT).
Qed.

Lemma LevInv_edit :
  (forall f, In f news -> FOK f) -> NoDup (map fnum news) ->
  (forall f, In f news -> fnum f < nf' /\
     forall j g, In g (level_files lv j) -> edit_keep L T p0 p1 j g -> fnum g <> fnum f) ->
  nf <= nf' ->
  ((1 <= T)%nat -> ForallOrdPairs FC news /\
     forall f g, In f news -> In g (level_files lv T) -> p1 g = true -> FC f g) ->
  LevInv (edit_levels lv L T p0 p1 news) nf'.
Proof.
  intros Hok Hnd Hnum Hnf Hfc. rewrite edit_levels_eq.
  apply (LevInv_add lvr nf nf' T news lvr_LevInv HT Hok Hnd).
  - intros f Hf. split; [apply Hnum, Hf|]. intros j g Hg. apply lvr_In in Hg. apply (proj2 (Hnum f Hf) j g); apply Hg.
  - intros j g Hg. apply lvr_In in Hg. pose proof (li_num _ _ HV j g (proj1 Hg)). lia.
  - intros H1. destruct (Hfc H1) as [H2 H3]. split; [exact H2|].
    intros f g Hf Hg. apply lvr_In in Hg. apply (H3 f g Hf); apply Hg; reflexivity.
Qed.

End EditLevels.

End SInv.
