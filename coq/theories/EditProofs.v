(* EditProofs.v -- proofs about Edit.v: ldb_edit_import (ldb_edit_export e) returns
   the canonical form of e (its deleted files as the sorted set they are read into) for every
   well-formed edit; the canonical form is a fixed point; unknown tags and levels are refused;
   the export of an edit whose strings are bytes is bytes.  What one import step does on each
   kind of item: step_comparator, step_u64 (the four varint64 fields), step_compact,
   step_deleted, step_newfile; that the item's export is bytes: export_scalar_wf ...
   export_newfile_wf, and for the comparator inline in edit_export_wf_bytes. *)
From LCDB Require Import BaseProofs VarintProofs MetaLemmas Edit.
From Coq Require Import Sorted.
Local Open Scope N_scope.

Lemma level_read_shrinks : forall l v r,
  level_read l = Some (v, r) -> (length r < length l)%nat.
Proof.
  unfold level_read. intros l v r H.
  destruct (varint32_read l) as [[n b]|] eqn:Hv; [|discriminate H].
  destruct (EDIT_NUM_LEVELS <=? n); [discriminate H|].
  injection H as _ Hr. subst r. apply varint_read_loop_shrinks in Hv. exact Hv.
Qed.

Lemma import_step_shrinks : forall input e rest e',
  import_step input e = Some (rest, e') -> (length rest < length input)%nat.
Proof.
  unfold import_step. intros input e rest e' H.
  destruct (varint32_read input) as [[tag r]|] eqn:Ht; [|discriminate H].
  apply varint_read_loop_shrinks in Ht.
  repeat match type of H with
  | (if ?c then _ else _) = _ => destruct c
  | match slice_read ?x with _ => _ end = _ =>
      let E := fresh "E" in
      destruct (slice_read x) as [[? ?]|] eqn:E; [apply slice_read_shrinks in E|discriminate H]
  | match varint64_read ?x with _ => _ end = _ =>
      let E := fresh "E" in
      destruct (varint64_read x) as [[? ?]|] eqn:E; [apply varint_read_loop_shrinks in E|discriminate H]
  | match level_read ?x with _ => _ end = _ =>
      let E := fresh "E" in
      destruct (level_read x) as [[? ?]|] eqn:E; [apply level_read_shrinks in E|discriminate H]
  end;
  try discriminate H;
  injection H as Hr _; subst rest; lia.
Qed.

Lemma import_loop_nil : forall f e, import_loop f [] e = Some e.
Proof. intros [|f] e; reflexivity. Qed.

Lemma import_loop_fuel : forall f1 f2 input e,
  (length input <= f1)%nat -> (length input <= f2)%nat ->
  import_loop f1 input e = import_loop f2 input e.
Proof.
  induction f1 as [|f1 IH]; intros f2 input e H1 H2.
  - destruct input; [|cbn [length] in H1; lia].
    rewrite !import_loop_nil. reflexivity.
  - destruct input as [|x t]; [rewrite !import_loop_nil; reflexivity|].
    destruct f2 as [|f2]; [cbn [length] in H2; lia|].
    cbn [import_loop].
    destruct (import_step (x :: t) e) as [[rest e']|] eqn:Hs; [|reflexivity].
    apply import_step_shrinks in Hs. cbn [length] in *.
    apply IH; lia.
Qed.

(* the loop without fuel: as much as the input is long *)
Definition import_all (input : bytes) (e : edit) : option edit :=
  import_loop (length input) input e.

Lemma edit_import_all : forall src, edit_import src = import_all src edit_empty.
Proof. reflexivity. Qed.

Lemma import_all_nil : forall e, import_all [] e = Some e.
Proof. reflexivity. Qed.

Lemma import_all_step : forall input e rest e',
  import_step input e = Some (rest, e') -> import_all input e = import_all rest e'.
Proof.
  intros input e rest e' Hs. unfold import_all.
  destruct input as [|x t].
  - unfold import_step in Hs. cbn in Hs. discriminate Hs.
  - cbn [length import_loop]. rewrite Hs.
    apply import_step_shrinks in Hs. cbn [length] in Hs.
    apply import_loop_fuel; lia.
Qed.

Lemma import_all_fail : forall input e,
  input <> [] -> import_step input e = None -> import_all input e = None.
Proof.
  intros input e Hne Hs. unfold import_all.
  destruct input as [|x t]; [contradiction|].
  cbn [length import_loop]. rewrite Hs. reflexivity.
Qed.

(* One record.  Every lemma has the form
     import_step (<export of one item> ++ rest) e = Some (rest, <setter> e <item>). *)

(* Decode the tag just written and select its branch of [import_step]. *)
Ltac step_start :=
  unfold import_step;
  rewrite varint32_read_write by reflexivity;
  cbv beta iota;
  unfold TAG_COMPARATOR, TAG_LOG_NUMBER, TAG_NEXT_FILE_NUMBER, TAG_LAST_SEQUENCE,
         TAG_COMPACT_POINTER, TAG_DELETED_FILE, TAG_NEW_FILE, TAG_PREV_LOG_NUMBER;
  cbn [N.eqb Pos.eqb].

Lemma wf_u64_lt : forall n, wf_u64 n = true -> n < 18446744073709551616.
Proof. intros n. apply N.ltb_lt. Qed.

Lemma wf_level_lt : forall l, wf_level l = true -> l < EDIT_NUM_LEVELS.
Proof. intros l. apply N.ltb_lt. Qed.

Lemma wf_key_bounds : forall k, wf_key k = true -> (nlen k <? 8) = false /\ nlen k < 4294967296.
Proof.
  intros k H. unfold wf_key in H. apply andb_true_iff in H. destruct H as [H1 H2].
  apply N.leb_le in H1. apply N.ltb_lt in H2. split; [apply N.ltb_ge|]; assumption.
Qed.

Lemma level_read_write : forall lvl rest,
  lvl < EDIT_NUM_LEVELS -> level_read (varint32_write lvl ++ rest) = Some (lvl, rest).
Proof.
  intros lvl rest H. unfold level_read.
  rewrite varint32_read_write by (unfold EDIT_NUM_LEVELS in H; lia). cbv beta iota.
  apply N.leb_gt in H. rewrite H. reflexivity.
Qed.

Lemma step_comparator : forall c rest e,
  wf_str c = true ->
  import_step ((varint32_write TAG_COMPARATOR ++ slice_write c) ++ rest) e
  = Some (rest, edit_set_comparator e c).
Proof.
  intros c rest e H. apply N.ltb_lt in H. rewrite <- app_assoc.
  step_start. rewrite slice_read_write by exact H. reflexivity.
Qed.

(* the four tags whose payload is one varint64 *)
Definition u64_fields : list (N * (edit -> N -> edit)) :=
  [(TAG_LOG_NUMBER, edit_set_log_number); (TAG_PREV_LOG_NUMBER, edit_set_prev_log_number);
   (TAG_NEXT_FILE_NUMBER, edit_set_next_file); (TAG_LAST_SEQUENCE, edit_set_last_sequence)].

Lemma step_u64 : forall tag set n rest e,
  In (tag, set) u64_fields -> wf_u64 n = true ->
  import_step (export_scalar tag (Some n) ++ rest) e = Some (rest, set e n).
Proof.
  intros tag set n rest e Hin H. apply wf_u64_lt in H.
  cbn [export_scalar]. rewrite <- app_assoc.
  destruct Hin as [Hf|[Hf|[Hf|[Hf|[]]]]]; injection Hf as <- <-;
    step_start; rewrite varint64_read_write by exact H; reflexivity.
Qed.

Lemma step_compact : forall p rest e,
  wf_level (fst p) && wf_key (snd p) = true ->
  import_step (export_compact p ++ rest) e
  = Some (rest, edit_set_compact_pointer e (fst p) (snd p)).
Proof.
  intros [lvl k] rest e H. cbn [fst snd] in *.
  apply andb_true_iff in H. destruct H as [Hl Hk].
  apply wf_level_lt in Hl. apply wf_key_bounds in Hk. destruct Hk as [Hk8 Hk32].
  unfold export_compact. cbn [fst snd]. rewrite <- !app_assoc.
  step_start. rewrite level_read_write by exact Hl. cbv beta iota.
  rewrite slice_read_write by exact Hk32. cbv beta iota.
  rewrite Hk8. reflexivity.
Qed.

Lemma step_deleted : forall p rest e,
  wf_level (fst p) && wf_u64 (snd p) = true ->
  import_step (export_deleted p ++ rest) e
  = Some (rest, edit_remove_file e (fst p) (snd p)).
Proof.
  intros [lvl n] rest e H. cbn [fst snd] in *.
  apply andb_true_iff in H. destruct H as [Hl Hn].
  apply wf_level_lt in Hl. apply wf_u64_lt in Hn.
  unfold export_deleted. cbn [fst snd]. rewrite <- !app_assoc.
  step_start. rewrite level_read_write by exact Hl. cbv beta iota.
  rewrite varint64_read_write by exact Hn. reflexivity.
Qed.

Lemma step_newfile : forall f rest e,
  wf_newfile f = true ->
  import_step (export_newfile f ++ rest) e = Some (rest, edit_add_file e f).
Proof.
  intros [lvl num sz sm lg] rest e H. unfold wf_newfile in H.
  cbn [nf_level nf_number nf_size nf_smallest nf_largest] in H.
  rewrite !andb_true_iff in H. destruct H as [[[[Hl Hn] Hz] Hs] Hg].
  apply wf_level_lt in Hl. apply wf_u64_lt in Hn. apply wf_u64_lt in Hz.
  apply wf_key_bounds in Hs. destruct Hs as [Hs8 Hs32].
  apply wf_key_bounds in Hg. destruct Hg as [Hg8 Hg32].
  unfold export_newfile. cbn [nf_level nf_number nf_size nf_smallest nf_largest].
  rewrite <- !app_assoc.
  step_start. rewrite level_read_write by exact Hl. cbv beta iota.
  rewrite varint64_read_write by exact Hn. cbv beta iota.
  rewrite varint64_read_write by exact Hz. cbv beta iota.
  rewrite slice_read_write by exact Hs32. cbv beta iota.
  rewrite slice_read_write by exact Hg32. cbv beta iota.
  rewrite Hs8, Hg8. reflexivity.
Qed.

Section Items.
  Context {A : Type} (wf : A -> bool) (exp : A -> bytes) (upd : edit -> A -> edit).
  Hypothesis step : forall x rest e,
    wf x = true -> import_step (exp x ++ rest) e = Some (rest, upd e x).

  (* [build] is the edit as a function of the one field that [upd] writes *)
  Lemma import_option : forall (build : option A -> edit) v rest,
    (forall x, upd (build None) x = build (Some x)) ->
    match v with Some x => wf x | None => true end = true ->
    import_all (match v with Some x => exp x | None => [] end ++ rest) (build None) =
    import_all rest (build v).
  Proof.
    intros build [x|] rest Hb Hv.
    - rewrite <- Hb. apply import_all_step, step, Hv.
    - reflexivity.
  Qed.

  Lemma import_list : forall {B} (build : B -> edit) (g : B -> A -> B) l rest b,
    (forall b x, upd (build b) x = build (g b x)) ->
    forallb wf l = true ->
    import_all (flat_map exp l ++ rest) (build b) = import_all rest (build (fold_left g l b)).
  Proof.
    intros B build g l rest b Hb. revert rest b.
    induction l as [|x l IH]; intros rest b H.
    - reflexivity.
    - cbn [forallb] in H. apply andb_true_iff in H. destruct H as [Hx Hl].
      cbn [flat_map fold_left]. rewrite <- app_assoc.
      rewrite (import_all_step _ _ _ _ (step x _ _ Hx)), Hb.
      apply IH, Hl.
  Qed.
End Items.

Lemma import_scalar : forall tag set (build : option N -> edit) v rest,
  In (tag, set) u64_fields -> (forall n, set (build None) n = build (Some n)) ->
  wf_opt_u64 v = true ->
  import_all (export_scalar tag v ++ rest) (build None) = import_all rest (build v).
Proof.
  intros tag set build v rest Hin.
  apply (import_option wf_u64 (fun n => export_scalar tag (Some n)) set).
  intros n r e0. apply step_u64, Hin.
Qed.

Definition fe_lt (a b : N * N) : Prop := fe_compare a b = Lt.

Lemma fe_compare_eq : forall a b, fe_compare a b = Eq -> a = b.
Proof.
  intros [a1 a2] [b1 b2]. unfold fe_compare. cbn [fst snd].
  destruct (N.compare a1 b1) eqn:H1; try discriminate.
  intros H2. apply N.compare_eq_iff in H1. apply N.compare_eq_iff in H2. subst. reflexivity.
Qed.

(* fe_compare is the lexicographic product of level and number *)
Lemma fe_compare_order : order fe_compare.
Proof. exact (lex_order N.compare fst _ N_order (order_on snd _ N_order)). Qed.

Lemma fe_compare_refl : forall a, fe_compare a a = Eq.
Proof. exact (cmp_refl fe_compare_order). Qed.

Definition fe_sorted (l : list (N * N)) : Prop := StronglySorted fe_lt l.

(* set_insert is MetaLemmas.set_put at fe_compare, canon_deleted l = set_put_all l [] *)
Lemma set_insert_sorted : forall x l, fe_sorted l -> fe_sorted (set_insert x l).
Proof. exact (set_put_sorted fe_compare fe_compare_order). Qed.

Lemma canon_deleted_sorted : forall l, fe_sorted (canon_deleted l).
Proof.
  intros l. apply (set_put_all_sorted fe_compare fe_compare_order l []). constructor.
Qed.

(* a sorted list is determined by its members (SS_ext), and inserting adds nothing else *)
Lemma canon_deleted_id : forall l, fe_sorted l -> canon_deleted l = l.
Proof.
  intros l H. apply (SS_ext fe_lt); [| |apply canon_deleted_sorted|exact H|].
  - intros a Ha. unfold fe_lt in Ha. rewrite fe_compare_refl in Ha. discriminate Ha.
  - exact (cmp_lt_trans fe_compare_order).
  - intros z. change (canon_deleted l) with (set_put_all fe_compare l []).
    rewrite set_put_all_In; [cbn [In]; tauto|]. intros x y _ _. apply fe_compare_eq.
Qed.

Lemma canon_deleted_idem : forall l, canon_deleted (canon_deleted l) = canon_deleted l.
Proof. intros l. apply canon_deleted_id. apply canon_deleted_sorted. Qed.

Lemma canon_deleted_wf : forall (P : N * N -> bool) l,
  forallb P l = true -> forallb P (canon_deleted l) = true.
Proof.
  intros P l. rewrite !forallb_forall, <- !Forall_forall. intros H.
  apply (set_put_all_Forall fe_compare); [exact H|constructor].
Qed.

(* The export is a concatenation of eight sections; the import consumes them one by
   one, each setter filling its own field of the initially empty edit. *)
Theorem edit_import_export : forall e,
  wf_edit e = true -> edit_import (edit_export e) = Some (edit_canon e).
Proof.
  intros [c lg pl nf ls cps del new] H.
  unfold wf_edit in H. rewrite !andb_true_iff in H.
  destruct H as [[[[[[[Hc Hlg] Hpl] Hnf] Hls] Hcps] Hdel] Hnew].
  rewrite edit_import_all. unfold edit_export, edit_canon, edit_empty.
  cbn [e_comparator e_log_number e_prev_log_number e_next_file_number e_last_sequence
       e_compact_pointers e_deleted_files e_new_files] in *.
  rewrite (import_option wf_str _ edit_set_comparator step_comparator
             (fun v => mkEdit v None None None None [] [] [])) by (exact Hc || reflexivity).
  rewrite (import_scalar _ edit_set_log_number (fun v => mkEdit c v None None None [] [] []))
    by (exact Hlg || reflexivity || (simpl; auto)).
  rewrite (import_scalar _ edit_set_prev_log_number (fun v => mkEdit c lg v None None [] [] []))
    by (exact Hpl || reflexivity || (simpl; auto)).
  rewrite (import_scalar _ edit_set_next_file (fun v => mkEdit c lg pl v None [] [] []))
    by (exact Hnf || reflexivity || (simpl; auto)).
  rewrite (import_scalar _ edit_set_last_sequence (fun v => mkEdit c lg pl nf v [] [] []))
    by (exact Hls || reflexivity || (simpl; auto)).
  rewrite (import_list _ _ _ step_compact (fun v => mkEdit c lg pl nf ls v [] [])
             (fun s p => s ++ [p])) by (exact Hcps || (intros s []; reflexivity)).
  rewrite fold_snoc.
  rewrite (import_list _ _ _ step_deleted (fun v => mkEdit c lg pl nf ls cps v [])
             (fun s p => set_insert p s))
    by ((apply canon_deleted_wf; exact Hdel) || (intros s []; reflexivity)).
  rewrite <- (app_nil_r (flat_map export_newfile new)).
  rewrite (import_list _ _ _ step_newfile (fun v => mkEdit c lg pl nf ls cps _ v)
             (fun s f => s ++ [f])) by (exact Hnew || reflexivity).
  rewrite fold_snoc, import_all_nil.
  fold (canon_deleted (canon_deleted del)). rewrite canon_deleted_idem. reflexivity.
Qed.

Theorem edit_canon_id : forall e,
  fe_sorted (e_deleted_files e) -> edit_canon e = e.
Proof.
  intros [c lg pl nf ls cps del new] H. unfold edit_canon.
  f_equal. apply canon_deleted_id, H.
Qed.

Theorem edit_canon_idem : forall e, edit_canon (edit_canon e) = edit_canon e.
Proof.
  intros e. apply edit_canon_id. unfold edit_canon.
  cbn [e_deleted_files]. apply canon_deleted_sorted.
Qed.

(* export depends only on the canonical form, so export . import . export = export *)
Theorem edit_export_canon : forall e, edit_export (edit_canon e) = edit_export e.
Proof.
  intros e. unfold edit_export, edit_canon.
  cbn [e_comparator e_log_number e_prev_log_number e_next_file_number e_last_sequence
       e_compact_pointers e_deleted_files e_new_files].
  rewrite canon_deleted_idem. reflexivity.
Qed.

Theorem edit_roundtrip_export : forall e,
  wf_edit e = true -> edit_roundtrip (edit_export e) = Some (edit_export e).
Proof.
  intros e H. unfold edit_roundtrip. rewrite edit_import_export by exact H.
  rewrite edit_export_canon. reflexivity.
Qed.

(* the API setters keep the deleted set sorted, so edits built through them are canonical *)
Theorem edit_remove_file_sorted : forall e l n,
  fe_sorted (e_deleted_files e) -> fe_sorted (e_deleted_files (edit_remove_file e l n)).
Proof.
  intros e l n H. unfold edit_remove_file. cbn [e_deleted_files].
  apply set_insert_sorted. exact H.
Qed.

Theorem edit_import_bad_tag : forall tag rest,
  tag < 128 -> tag <> 1 -> tag <> 2 -> tag <> 3 -> tag <> 4 -> tag <> 5 -> tag <> 6 ->
  tag <> 7 -> tag <> 9 ->
  edit_import (tag :: rest) = None.
Proof.
  intros tag rest Hlt H1 H2 H3 H4 H5 H6 H7 H9.
  rewrite edit_import_all. apply import_all_fail; [discriminate|].
  unfold import_step. rewrite varint32_read_small by exact Hlt. cbv beta iota.
  unfold TAG_COMPARATOR, TAG_LOG_NUMBER, TAG_NEXT_FILE_NUMBER, TAG_LAST_SEQUENCE,
         TAG_COMPACT_POINTER, TAG_DELETED_FILE, TAG_NEW_FILE, TAG_PREV_LOG_NUMBER.
  repeat match goal with
  | |- context [tag =? ?k] => replace (tag =? k) with false by (symmetry; apply N.eqb_neq; assumption)
  end.
  reflexivity.
Qed.

Theorem level_read_bad_level : forall lvl rest,
  EDIT_NUM_LEVELS <= lvl -> lvl < 4294967296 -> level_read (varint32_write lvl ++ rest) = None.
Proof.
  intros lvl rest H1 H2. unfold level_read. rewrite varint32_read_write by exact H2.
  cbv beta iota. replace (EDIT_NUM_LEVELS <=? lvl) with true by (symmetry; apply N.leb_le; lia).
  reflexivity.
Qed.

(* The exported bytes of an edit are bytes: the log round trip (read_write_roundtrip_events)
   is stated for records that are byte strings. *)
Definition wfb_edit (e : edit) : Prop :=
  match e_comparator e with Some c => wf_bytes c = true | None => True end /\
  Forall (fun p : N * bytes => wf_bytes (snd p) = true) (e_compact_pointers e) /\
  Forall (fun f => wf_bytes (nf_smallest f) = true /\ wf_bytes (nf_largest f) = true) (e_new_files e).

Lemma level_write_wf : forall l, wf_level l = true -> wf_bytes (varint32_write l) = true.
Proof. intros l H. apply varint32_write_wf. apply N.ltb_lt in H. apply (N.lt_trans _ _ _ H). reflexivity. Qed.

Lemma export_scalar_wf : forall t v, t < 4294967296 -> wf_bytes (export_scalar t v) = true.
Proof.
  intros t [n|] Ht; cbn [export_scalar]; [|reflexivity].
  rewrite wf_bytes_app_eq, varint64_write_wf_gen, varint32_write_wf by exact Ht. reflexivity.
Qed.

Lemma export_compact_wf : forall p,
  wf_level (fst p) && wf_key (snd p) = true -> wf_bytes (snd p) = true ->
  wf_bytes (export_compact p) = true.
Proof.
  intros p H Hb. apply andb_true_iff in H. destruct H as [Hl Hkey]. unfold export_compact.
  rewrite !wf_bytes_app_eq, (varint32_write_wf TAG_COMPACT_POINTER eq_refl), (level_write_wf _ Hl), slice_write_wf;
    [reflexivity|apply wf_key_bounds; exact Hkey|exact Hb].
Qed.

Lemma export_deleted_wf : forall p, wf_level (fst p) = true -> wf_bytes (export_deleted p) = true.
Proof.
  intros p Hl. unfold export_deleted.
  rewrite !wf_bytes_app_eq, (varint32_write_wf TAG_DELETED_FILE eq_refl), (level_write_wf _ Hl), varint64_write_wf_gen;
    reflexivity.
Qed.

Lemma export_newfile_wf : forall f,
  wf_newfile f = true -> wf_bytes (nf_smallest f) = true -> wf_bytes (nf_largest f) = true ->
  wf_bytes (export_newfile f) = true.
Proof.
  intros f H Hbs Hbl. unfold wf_newfile in H. rewrite !andb_true_iff in H.
  destruct H as [[[[Hl _] _] Hks] Hkl]. unfold export_newfile.
  rewrite !wf_bytes_app_eq, (varint32_write_wf TAG_NEW_FILE eq_refl), (level_write_wf _ Hl), !varint64_write_wf_gen,
    !slice_write_wf;
    [reflexivity|apply wf_key_bounds; exact Hkl|exact Hbl|apply wf_key_bounds; exact Hks|exact Hbs].
Qed.

Lemma edit_export_wf_bytes : forall e,
  wf_edit e = true -> wfb_edit e -> wf_bytes (edit_export e) = true.
Proof.
  intros e H (Hbc & Hbk & Hbn). unfold wf_edit in H. rewrite !andb_true_iff in H.
  destruct H as [[[[[[[Hc _] _] _] _] Hcps] Hdel] Hnew].
  rewrite forallb_forall in Hcps, Hnew. rewrite Forall_forall in Hbk, Hbn.
  unfold edit_export. repeat (apply wf_bytes_app; split); try (apply export_scalar_wf; reflexivity).
  - destruct (e_comparator e) as [c|]; [|reflexivity].
    rewrite wf_bytes_app_eq, (varint32_write_wf TAG_COMPARATOR eq_refl), slice_write_wf;
      [reflexivity|apply N.ltb_lt; exact Hc|exact Hbc].
  - apply wf_bytes_flat_map. intros p Hp. apply export_compact_wf; [apply Hcps|apply Hbk]; exact Hp.
  - apply wf_bytes_flat_map. intros p Hp. apply export_deleted_wf.
    pose proof (canon_deleted_wf _ _ Hdel) as Hd. rewrite forallb_forall in Hd.
    specialize (Hd p Hp). apply andb_true_iff in Hd. apply Hd.
  - apply wf_bytes_flat_map. intros f Hf. apply export_newfile_wf; [apply Hnew; exact Hf|apply Hbn; exact Hf..].
Qed.

Print Assumptions edit_import_export.
