(* FilterProofs.v -- proofs about Trie.v and Filter.v:
   - the trie is a map (get/set laws), tcells lists its cells;
   - bloom_no_false_negative: for ANY hash function, a key that was added is matched;
   - bloom_match never returns OOB (memory safety of bloom_match on arbitrary bytes),
     nor does the filter block reader (filter_init, filter_matches). *)
From LCDB Require Import Base Varint Block Trie Filter BaseProofs VarintProofs BlockProofs.
From Coq Require Import Lia.
Local Open Scope N_scope.

Lemma tget_pos_leaf : forall p, tget_pos p TLeaf = 0.
Proof. destruct p; reflexivity. Qed.

Lemma tget_pos_set_same : forall p x t, tget_pos p (tset_pos p x t) = x.
Proof.
  induction p; intros x t; destruct t; cbn [tset_pos tget_pos]; auto.
Qed.

Lemma tget_pos_set_other : forall p q x t, p <> q -> tget_pos p (tset_pos q x t) = tget_pos p t.
Proof.
  induction p; intros q x t Hne; destruct q; destruct t; cbn [tset_pos tget_pos];
    try rewrite tget_pos_leaf; try reflexivity; try congruence;
    try (rewrite IHp by congruence; try rewrite tget_pos_leaf; reflexivity).
Qed.

Lemma tget_set_same : forall i x t, tget i (tset i x t) = x.
Proof. intros. unfold tget, tset. apply tget_pos_set_same. Qed.

Lemma tget_set_other : forall i j x t, i <> j -> tget i (tset j x t) = tget i t.
Proof.
  intros i j x t H. unfold tget, tset. apply tget_pos_set_other.
  intro E. apply H. rewrite <- (N.pos_pred_succ i), E. apply N.pos_pred_succ.
Qed.

Lemma tcells_length : forall n s t, length (tcells n s t) = n.
Proof. induction n; intros; cbn [tcells length]; auto. Qed.

Lemma tcells_nth : forall n s t i, (i < n)%nat ->
  nth_error (tcells n s t) i = Some (tget (s + N.of_nat i) t).
Proof.
  induction n; intros s t i Hi; [lia|].
  destruct i; cbn [tcells nth_error].
  - f_equal. f_equal. lia.
  - rewrite IHn by lia. f_equal. f_equal. lia.
Qed.

Definition bit_set (t : trie) (pos : N) : Prop :=
  N.testbit (tget (pos / 8) t) (pos mod 8) = true.

Definition set_bit (t : trie) (pos : N) : trie :=
  tset (pos / 8) (N.lor (tget (pos / 8) t) (2 ^ (pos mod 8))) t.

Lemma set_bit_same : forall t p, bit_set (set_bit t p) p.
Proof.
  intros. unfold bit_set, set_bit. rewrite tget_set_same.
  rewrite N.lor_spec, N.pow2_bits_true. apply orb_true_r.
Qed.

Lemma set_bit_mono : forall t p q, bit_set t p -> bit_set (set_bit t q) p.
Proof.
  intros t p q H. unfold bit_set, set_bit in *.
  destruct (N.eq_dec (p / 8) (q / 8)) as [E|E].
  - rewrite E, tget_set_same, N.lor_spec. rewrite <- E, H. reflexivity.
  - rewrite tget_set_other by exact E. exact H.
Qed.

Lemma bloom_add_loop_step : forall k nbits h delta t,
  bloom_add_loop (S k) nbits h delta t =
  bloom_add_loop k nbits ((h + delta) mod two32) delta (set_bit t (h mod nbits)).
Proof. reflexivity. Qed.

Lemma bloom_add_loop_mono : forall k nbits h delta t p,
  bit_set t p -> bit_set (bloom_add_loop k nbits h delta t) p.
Proof.
  induction k; intros; [exact H|].
  rewrite bloom_add_loop_step. apply IHk. apply set_bit_mono. exact H.
Qed.

Fixpoint probes_set (k : nat) (nbits h delta : N) (t : trie) : Prop :=
  match k with
  | O => True
  | S k' => bit_set t (h mod nbits) /\ probes_set k' nbits ((h + delta) mod two32) delta t
  end.

Lemma probes_set_mono : forall k nbits h delta t t',
  (forall p, bit_set t p -> bit_set t' p) ->
  probes_set k nbits h delta t -> probes_set k nbits h delta t'.
Proof.
  induction k; intros; cbn [probes_set] in *; auto.
  destruct H0. split; eauto.
Qed.

Lemma bloom_add_loop_sets : forall k nbits h delta t,
  probes_set k nbits h delta (bloom_add_loop k nbits h delta t).
Proof.
  induction k; intros; [exact I|].
  rewrite bloom_add_loop_step. cbn [probes_set]. split.
  - apply bloom_add_loop_mono. apply set_bit_same.
  - apply IHk.
Qed.

Lemma bloom_k_bounds : forall bits, 1 <= bloom_k bits <= 30.
Proof.
  intros. unfold bloom_k. generalize (bits * 69 / 100). intros k.
  destruct (N.ltb_spec k 1) as [E1|E1]; [lia|].
  destruct (N.ltb_spec 30 k) as [E2|E2]; lia.
Qed.

Lemma bloom_bytes_pos : forall bits n, 8 <= bloom_bytes bits n.
Proof.
  intros. unfold bloom_bytes. apply N.div_le_lower_bound; [discriminate|].
  destruct (N.ltb_spec (n * bits) 64) as [E|E]; lia.
Qed.

(* the byte a probe looks at lies inside the bit array *)
Lemma probe_byte_lt : forall h nbits n, 0 < nbits -> nbits <= n * 8 -> h mod nbits / 8 < n.
Proof.
  intros h nbits n Hpos Hle. apply N.div_lt_upper_bound; [discriminate|].
  pose proof (N.mod_lt h nbits). lia.
Qed.

Lemma bloom_match_loop_true : forall k cells tail nbytes t h delta,
  cells = tcells (N.to_nat nbytes) 0 t ->
  0 < nbytes ->
  probes_set k (nbytes * 8) h delta t ->
  bloom_match_loop k (cells ++ tail) (nbytes * 8) h delta = Ok true.
Proof.
  induction k; intros cells tail nbytes t h delta Hc Hpos Hp; [reflexivity|].
  cbn [bloom_match_loop]. cbn [probes_set] in Hp. destruct Hp as [Hb Hp]. unfold bit_set in Hb.
  pose proof (probe_byte_lt h (nbytes * 8) nbytes ltac:(lia) (N.le_refl _)) as Hlt.
  set (pos := h mod (nbytes * 8)) in *. set (q := pos / 8) in *. clearbody q.
  rewrite nth_error_app1 by (rewrite Hc, tcells_length; lia).
  rewrite Hc, tcells_nth by lia.
  rewrite N2Nat.id, N.add_0_l, Hb.
  rewrite <- Hc. eapply IHk; eauto.
Qed.

Lemma bloom_match_loop_safe : forall k filter nbits h delta,
  nbits <= nlen filter * 8 -> 0 < nbits ->
  bloom_match_loop k filter nbits h delta <> OOB.
Proof.
  induction k; intros filter nbits h delta Hle Hpos; cbn [bloom_match_loop]; [discriminate|].
  destruct (nth_error filter (N.to_nat (h mod nbits / 8))) eqn:E.
  - destruct (N.testbit n (h mod nbits mod 8)); [apply IHk; auto|discriminate].
  - apply nth_error_None in E. pose proof (probe_byte_lt h nbits _ Hpos Hle). unfold nlen in *. lia.
Qed.

Section BloomAny.
Variable hashf : bytes -> N.

Lemma fold_bloom_add_mono : forall keys k nbits t p,
  bit_set t p -> bit_set (fold_left (bloom_add hashf k nbits) keys t) p.
Proof.
  induction keys; intros; cbn [fold_left]; auto.
  apply IHkeys. apply bloom_add_loop_mono. exact H.
Qed.

Lemma fold_bloom_add_sets : forall keys k nbits t key,
  In key keys ->
  probes_set (N.to_nat k) nbits (hashf key) (bloom_delta (hashf key))
             (fold_left (bloom_add hashf k nbits) keys t).
Proof.
  induction keys; intros k nbits t key Hin; [destruct Hin|].
  cbn [fold_left]. destruct Hin as [->|Hin].
  - eapply probes_set_mono.
    + intros p Hp. apply fold_bloom_add_mono. exact Hp.
    + unfold bloom_add. apply bloom_add_loop_sets.
  - apply IHkeys. exact Hin.
Qed.

(* C16: no false negatives, for any hash function *)
Theorem bloom_no_false_negative : forall bits keys key,
  In key keys ->
  bloom_match_with hashf (bloom_build_with hashf bits keys) key = Ok true.
Proof.
  intros bits keys key Hin.
  unfold bloom_match_with, bloom_build_with.
  set (k := bloom_k bits).
  set (nbytes := bloom_bytes bits (nlen keys)).
  set (t := fold_left (bloom_add hashf k (nbytes * 8)) keys TLeaf).
  pose proof (bloom_k_bounds bits) as Hk. fold k in Hk.
  pose proof (bloom_bytes_pos bits (nlen keys)) as Hn. fold nbytes in Hn.
  clearbody k nbytes.
  assert (Hlen : nlen (tcells (N.to_nat nbytes) 0 t ++ [k]) = nbytes + 1).
  { unfold nlen. rewrite app_length, tcells_length. cbn [length]. lia. }
  rewrite Hlen.
  destruct (N.ltb_spec (nbytes + 1) 2) as [E|E]; [lia|].
  replace (nbytes + 1 - 1) with nbytes by lia.
  rewrite nth_error_app2 by (rewrite tcells_length; lia).
  rewrite tcells_length, Nat.sub_diag. cbn [nth_error].
  destruct (N.ltb_spec 30 k) as [E2|E2]; [lia|].
  eapply bloom_match_loop_true; [reflexivity|lia|].
  subst t. apply fold_bloom_add_sets. exact Hin.
Qed.

(* C16: bloom_match is total and memory safe on arbitrary filter bytes *)
Theorem bloom_match_safe : forall filter key, bloom_match_with hashf filter key <> OOB.
Proof.
  intros. unfold bloom_match_with.
  destruct (N.ltb_spec (nlen filter) 2) as [E|E]; [discriminate|].
  destruct (nth_error filter (N.to_nat (nlen filter - 1))) eqn:E1.
  - destruct (30 <? n); [discriminate|].
    apply bloom_match_loop_safe; lia.
  - apply nth_error_None in E1. unfold nlen in *. lia.
Qed.

End BloomAny.

Corollary bloom_build_match : forall bits keys key,
  In key keys -> bloom_match (bloom_build bits keys) key = Ok true.
Proof. intros. apply bloom_no_false_negative. exact H. Qed.

Corollary user_policy_sound : forall bits keys key,
  In key keys -> user_fmatch (user_fbuild bits keys) key = Ok true.
Proof. intros. apply bloom_build_match. exact H. Qed.

Corollary internal_policy_sound : forall bits keys key,
  In key keys -> internal_fmatch (internal_fbuild bits keys) key = Ok true.
Proof.
  intros. unfold internal_fmatch, internal_fbuild. apply bloom_build_match.
  apply in_map. exact H.
Qed.

Definition fr_ok (fr : freader) : Prop :=
  fr_size fr = nlen (fr_data fr) /\
  (fr_num fr = 0 \/ fr_offset fr + 4 * fr_num fr + 5 <= fr_size fr).

Lemma filter_init_ok : forall contents, yields (filter_init contents) fr_ok.
Proof.
  intros contents. unfold filter_init.
  destruct (N.ltb_spec (nlen contents) 5) as [E|E]; [split; [|left]; reflexivity|].
  destruct (nth_error contents (N.to_nat (nlen contents - 1))) eqn:E1.
  2:{ apply nth_error_None in E1. unfold nlen in *. lia. }
  apply (yields_bind (read32_ok contents (nlen contents) (nlen contents - 5) eq_refl ltac:(lia))).
  intros lw _.
  destruct (N.ltb_spec (nlen contents - 5) lw) as [E2|E2]; [split; [|left]; reflexivity|].
  split; [reflexivity|right]. cbn [fr_offset fr_num fr_size]. lia.
Qed.

Section FilterSafety.
Variable fmatch : bytes -> bytes -> res bool.
Hypothesis fmatch_safe : forall f k, fmatch f k <> OOB.

Lemma filter_matches_safe : forall fr off key, fr_ok fr -> safe (filter_matches fmatch fr off key).
Proof.
  intros fr off key [Hs Hn]. unfold filter_matches.
  generalize (off / 2 ^ fr_base_lg fr). intros index.
  destruct (N.ltb_spec index (fr_num fr)) as [E|E]; [|exact I].
  destruct Hn as [Hz|Hn]; [lia|].
  apply (yields_bind (read32_ok (fr_data fr) (fr_size fr) (fr_offset fr + index * 4) Hs ltac:(lia))).
  intros st _.
  apply (yields_bind (read32_ok (fr_data fr) (fr_size fr) (fr_offset fr + index * 4 + 4) Hs ltac:(lia))).
  intros lim _.
  destruct ((st <=? lim) && (lim <=? fr_offset fr)) eqn:E2.
  - apply andb_true_iff in E2. rewrite !N.leb_le in E2.
    rewrite slice_ok by (auto; lia). apply safe_iff, fmatch_safe.
  - destruct (st =? lim); exact I.
Qed.

(* C16: filter_matches on arbitrary filter-block bytes never returns OOB *)
Theorem filter_block_matches_safe : forall blockbytes off key,
  filter_block_matches fmatch blockbytes off key <> OOB.
Proof.
  intros. apply safe_iff. unfold filter_block_matches.
  apply (yields_bind (filter_init_ok blockbytes)). intros fr Hok.
  apply filter_matches_safe. exact Hok.
Qed.

End FilterSafety.

Lemma user_fmatch_safe : forall f k, user_fmatch f k <> OOB.
Proof. intros. apply bloom_match_safe. Qed.
Lemma internal_fmatch_safe : forall f k, internal_fmatch f k <> OOB.
Proof. intros. apply bloom_match_safe. Qed.
