(* GcProofs.v -- the garbage collector of Gc.v keeps exactly the needed names (property C13):
   gc_keeps_needed and gc_exact say so for one collection, gc_run_exact for a run of them;
   gc_parsed is gc_exact at a name that parses.  The theorems about tables (which GcEngine.v
   uses) and gc_monotone are read off them here, those about logs, descriptors, fixed and
   foreign names and about runs in Properties_C13b.v; gc_idempotent is a fact about [filter].
   [gc] is ldb_remove_obsolete_files with bg_error == LDB_OK (src/db_impl.c:655 returns at once
   otherwise), and [dir] is the listing taken under the mutex (:669), not the directory at
   unlink time: the unlinks run with the mutex released (:718). *)
From Coq Require Import List NArith Bool Lia.
From LCDB Require Import ListFacts Base Filename FilenameProofs Gc.
Import ListNotations.
Local Open Scope N_scope.

Lemma memN_In : forall n l, memN n l = true <-> In n l.
Proof. exact (existsb_eqb_In N.eqb N.eqb_eq). Qed.

Lemma memN_false : forall n l, memN n l = false <-> ~ In n l.
Proof.
  intros n l. rewrite <- memN_In. destruct (memN n l); split; intros H; congruence.
Qed.

Theorem gc_keeps_needed : forall st name, gc_keeps st name = true <-> needed st name.
Proof.
  intros st name. unfold gc_keeps, needed.
  destruct (parse_filename name) as [[t n]|]; [|tauto].
  destruct t; cbn [keep_file]; try tauto.
  - rewrite orb_true_iff, N.leb_le, N.eqb_eq. tauto.
  - apply memN_In.
  - apply N.leb_le.
  - apply memN_In.
Qed.

Theorem gc_removes_unneeded : forall st name, gc_keeps st name = false <-> ~ needed st name.
Proof.
  intros st name. rewrite <- gc_keeps_needed.
  destruct (gc_keeps st name); split; intros H; congruence.
Qed.

Theorem gc_exact : forall st dir name,
  (In name (gc st dir) <-> In name dir /\ needed st name) /\
  (In name (gc_removed st dir) <-> In name dir /\ ~ needed st name).
Proof.
  intros st dir name. unfold gc, gc_removed. rewrite !filter_In. split.
  - rewrite gc_keeps_needed. tauto.
  - rewrite negb_true_iff, gc_removes_unneeded. tauto.
Qed.

Theorem gc_sublist : forall st dir name, In name (gc st dir) -> In name dir.
Proof. intros st dir name H. apply (gc_exact st dir name) in H. tauto. Qed.

Theorem gc_idempotent : forall st dir, gc st (gc st dir) = gc st dir /\ gc_removed st (gc st dir) = [].
Proof. intros st dir. unfold gc, gc_removed. split; [apply filter_idem|apply filter_false].
  intros y Hy. apply filter_In in Hy. rewrite (proj2 Hy). reflexivity.
Qed.

(* file numbers are uint64 (the bound under which the name parsers round-trip) *)
Definition U64 : N := 18446744073709551616.

(* what [needed] asks of a name that parses as type [t], number [n] *)
Definition wanted (st : gc_state) (t : ftype) (n : N) : Prop :=
  match t with
  | FTable | FTemp => In n (g_live st)
  | FLog => g_log st <= n \/ n = g_prevlog st
  | FDesc => g_manifest st <= n
  | _ => True
  end.

(* the fate of a database file name: every theorem per file type below is this at the name's parse *)
Lemma gc_parsed : forall st dir name t n, parse_filename name = Some (t, n) ->
  (wanted st t n -> In name dir -> In name (gc st dir)) /\
  (~ wanted st t n -> ~ In name (gc st dir) /\ (In name dir -> In name (gc_removed st dir))).
Proof.
  intros st dir name t n Hp.
  assert (Hn : needed st name <-> wanted st t n) by (unfold needed; rewrite Hp; destruct t; reflexivity).
  destruct (gc_exact st dir name). tauto.
Qed.

Lemma In_live_of : forall n pending pinned,
  In n (live_of pending pinned) <-> In n pending \/ exists v, In v pinned /\ In n v.
Proof.
  intros n pending pinned. unfold live_of. rewrite in_app_iff, in_concat.
  split; (intros [H|H]; [left; exact H|right]); destruct H as [v [Hv Hn]]; exists v; tauto.
Qed.

(* tables: kept iff referenced by a pinned version or a pending output *)
Theorem gc_keeps_pinned_tables : forall st pending pinned v n dir,
  g_live st = live_of pending pinned -> In v pinned -> In n v -> n < U64 ->
  (In (table_name n) dir -> In (table_name n) (gc st dir)) /\
  (In (sstable_name n) dir -> In (sstable_name n) (gc st dir)).
Proof.
  intros st pending pinned v n dir Hl Hv Hn Hlt.
  assert (Hlive : In n (g_live st)) by (rewrite Hl; apply In_live_of; right; exists v; tauto).
  split.
  - exact (proj1 (gc_parsed st dir _ _ _ (parse_table_name n Hlt)) Hlive).
  - exact (proj1 (gc_parsed st dir _ _ _ (parse_sstable_name n Hlt)) Hlive).
Qed.

Theorem gc_keeps_pending_outputs : forall st pending pinned n dir,
  g_live st = live_of pending pinned -> In n pending -> n < U64 ->
  (In (table_name n) dir -> In (table_name n) (gc st dir)) /\
  (In (temp_name n) dir -> In (temp_name n) (gc st dir)).
Proof.
  intros st pending pinned n dir Hl Hp Hlt.
  assert (Hlive : In n (g_live st)) by (rewrite Hl; apply In_live_of; left; exact Hp).
  split.
  - exact (proj1 (gc_parsed st dir _ _ _ (parse_table_name n Hlt)) Hlive).
  - exact (proj1 (gc_parsed st dir _ _ _ (parse_temp_name n Hlt)) Hlive).
Qed.

Theorem gc_removes_unreferenced_tables : forall st pending pinned n dir,
  g_live st = live_of pending pinned -> ~ In n pending ->
  (forall v, In v pinned -> ~ In n v) -> n < U64 ->
  ~ In (table_name n) (gc st dir) /\ ~ In (sstable_name n) (gc st dir) /\
  (In (table_name n) dir -> In (table_name n) (gc_removed st dir)).
Proof.
  intros st pending pinned n dir Hl Hp Hv Hlt.
  assert (Hdead : ~ In n (g_live st)).
  { rewrite Hl, In_live_of. intros [H|[v [H1 H2]]]; [exact (Hp H)|exact (Hv v H1 H2)]. }
  destruct (proj2 (gc_parsed st dir _ _ _ (parse_table_name n Hlt)) Hdead).
  destruct (proj2 (gc_parsed st dir _ _ _ (parse_sstable_name n Hlt)) Hdead). auto.
Qed.

Theorem gc_monotone : forall st st' dir name,
  (forall n, In n (g_live st) -> In n (g_live st')) ->
  g_log st' <= g_log st -> g_prevlog st' = g_prevlog st -> g_manifest st' <= g_manifest st ->
  In name (gc st dir) -> In name (gc st' dir).
Proof.
  intros st st' dir name Hl Hlog Hprev Hman H.
  apply (gc_exact st dir) in H. destruct H as [Hin Hn]. apply (gc_exact st' dir). split; [exact Hin|].
  unfold needed in *. destruct (parse_filename name) as [[t n]|]; [|exact I].
  destruct t; auto; try lia; try (rewrite Hprev; lia).
Qed.

(* a run of collections, each on the listing the previous one left *)
Fixpoint gc_run (sts : list gc_state) (dir : list bytes) : list bytes :=
  match sts with
  | [] => dir
  | st :: r => gc_run r (gc st dir)
  end.

Theorem gc_run_exact : forall sts dir name,
  In name (gc_run sts dir) <-> In name dir /\ forall st, In st sts -> needed st name.
Proof.
  induction sts as [|st r IH]; intros dir name; cbn [gc_run In]; [tauto|].
  rewrite IH, (proj1 (gc_exact st dir name)). split.
  - intros [[Hin Hn] Hr]. split; [exact Hin|]. intros st' [<-|H]; auto.
  - intros [Hin Hn]. split; [split; [exact Hin|apply Hn; left; reflexivity]|].
    intros st' H. apply Hn. right. exact H.
Qed.

(* non-vacuity: a directory in which something is removed for each reason and something kept for
   each reason but one: no log is kept as prev_log_number (g_prevlog = 0, log_name 0 not listed) *)
Example gc_example :
  let st := {| g_live := [5; 9]; g_log := 8; g_prevlog := 0; g_manifest := 7 |} in
  let dir := [current_name; lock_name; info_name; table_name 5; table_name 6; sstable_name 9; log_name 8;
              log_name 4; desc_name 7; desc_name 2; temp_name 9; temp_name 3; [104; 105]] in
  gc st dir = [current_name; lock_name; info_name; table_name 5; sstable_name 9; log_name 8; desc_name 7;
               temp_name 9; [104; 105]] /\
  gc_removed st dir = [table_name 6; log_name 4; desc_name 2; temp_name 3].
Proof. vm_compute. split; reflexivity. Qed.
