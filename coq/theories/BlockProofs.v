(* BlockProofs.v -- proofs about Block.v:
   C16: memory safety of the block iterator: no operation of any script on any
   byte string ever returns OOB;
   what the decoders do on an entry the builder wrote (decode_header / decode_entry on
   encode_entry, the step of parse_next_key over an encoded entry), and what each loop of the
   iterator does on any block (advance_ridx, prev_restart, the scanning loop parse_while):
   the safety theorems here and the simulation in BlockSeekProofs rest on the same lemmas.
   The layout of a built block and block_entries_build are in BlockSeekProofs. *)
From LCDB Require Import Base Varint Block BaseProofs VarintProofs.
From Coq Require Import Lia.
Local Open Scope N_scope.

Lemma nlen_length : forall (A : Type) (l : list A), nlen l = N.of_nat (length l).
Proof. reflexivity. Qed.

Lemma shared_len_le : forall a b, shared_len a b <= nlen a /\ shared_len a b <= nlen b.
Proof.
  induction a; intros b; destruct b; cbn [shared_len]; try (rewrite ?nlen_cons; lia).
  destruct (a =? n); [|rewrite !nlen_cons; lia].
  specialize (IHa b). rewrite !nlen_cons. lia.
Qed.

Lemma take_n_succ_cons : forall n (x : N) (l : bytes), take_n (N.succ n) (x :: l) = x :: take_n n l.
Proof. intros. unfold take_n. rewrite N2Nat.inj_succ. reflexivity. Qed.

Lemma shared_len_prefix : forall a b,
  take_n (shared_len a b) a = take_n (shared_len a b) b.
Proof.
  induction a; intros b; destruct b; cbn [shared_len]; try reflexivity.
  destruct (a =? n) eqn:E; [|reflexivity].
  apply N.eqb_eq in E. subst. rewrite !take_n_succ_cons. f_equal. apply IHa.
Qed.

Lemma varint32_write_nonempty : forall x, 1 <= nlen (varint32_write x).
Proof. intros. rewrite varint32_write_length_gen. apply varint32_size_bound. Qed.

Definition hdr_bytes (s ns vl : N) : bytes :=
  varint32_write s ++ varint32_write ns ++ varint32_write vl.

Lemma hdr_bytes_length : forall s ns vl, 3 <= nlen (hdr_bytes s ns vl) <= 15.
Proof.
  intros. unfold hdr_bytes. rewrite !nlen_app, !varint32_write_length_gen.
  pose proof (varint32_size_bound s). pose proof (varint32_size_bound ns).
  pose proof (varint32_size_bound vl). lia.
Qed.

(* the three lengths at the head of an entry *)
Definition read3 (l : bytes) : option (N * N * N * bytes) :=
  match varint32_read l with
  | None => None
  | Some (s, l1) =>
    match varint32_read l1 with
    | None => None
    | Some (ns, l2) =>
      match varint32_read l2 with
      | None => None
      | Some (vl, l3) => Some (s, ns, vl, l3)
      end
    end
  end.

(* three bytes below 128 are three varints: the fast path of both decoders is an optimisation only *)
Lemma read3_small : forall a b c l, a < 128 -> b < 128 -> c < 128 ->
  read3 (a :: b :: c :: l) = Some (a, b, c, l).
Proof.
  intros a b c l Ha Hb Hc. unfold read3.
  rewrite (varint32_read_small a) by exact Ha. cbv beta iota.
  rewrite (varint32_read_small b) by exact Hb. cbv beta iota.
  rewrite (varint32_read_small c) by exact Hc. reflexivity.
Qed.

Lemma read3_hdr : forall s ns vl tail,
  s < 4294967296 -> ns < 4294967296 -> vl < 4294967296 ->
  read3 (hdr_bytes s ns vl ++ tail) = Some (s, ns, vl, tail).
Proof.
  intros s ns vl tail Hs Hns Hvl. unfold read3, hdr_bytes. rewrite <- !app_assoc.
  rewrite varint32_read_write by exact Hs.
  rewrite varint32_read_write by exact Hns.
  rewrite varint32_read_write by exact Hvl. reflexivity.
Qed.

Lemma small3 : forall a b c, (a <? 128) && (b <? 128) && (c <? 128) = true -> a < 128 /\ b < 128 /\ c < 128.
Proof.
  intros a b c H. apply andb_prop in H. destruct H as [H Hc]. apply andb_prop in H. destruct H as [Ha Hb].
  apply N.ltb_lt in Ha, Hb, Hc. auto.
Qed.

Lemma decode_header_eq : forall l, 3 <= nlen l ->
  decode_header l = match read3 l with
                    | None => None
                    | Some (s, ns, vl, l3) => if nlen l3 <? ns + vl then None else Some (s, ns, vl, l3)
                    end.
Proof.
  intros l Hl. destruct l as [|a [|b [|c r]]]; try (cbn in Hl; lia).
  unfold decode_header.
  destruct ((a <? 128) && (b <? 128) && (c <? 128)) eqn:Hs.
  - destruct (small3 a b c Hs) as (Ha & Hb & Hc). rewrite read3_small by assumption. reflexivity.
  - unfold read3. destruct (varint32_read (a :: b :: c :: r)) as [[s l1]|]; [|reflexivity].
    destruct (varint32_read l1) as [[ns l2]|]; [|reflexivity].
    destruct (varint32_read l2) as [[vl l3]|]; reflexivity.
Qed.

Fixpoint enc_entries (interval counter : N) (last : bytes) (es : list entry) : bytes :=
  match es with
  | [] => []
  | (k, v) :: es' =>
      let restart := negb (counter <? interval) in
      let shared := if restart then 0 else shared_len last k in
      encode_entry shared k v
      ++ enc_entries interval ((if restart then 0 else counter) + 1) k es'
  end.

Definition wf_entry (e : entry) : Prop :=
  nlen (fst e) < 4294967296 /\ nlen (snd e) < 4294967296.

(* the restart count, at most one per entry plus the first, is stored as a le32 *)
Definition wf_entries (es : list entry) : Prop :=
  Forall wf_entry es /\ nlen es + 1 < 4294967296.

(* the stored form of an entry whose lengths fit 32 bits *)
Lemma encode_entry_wf : forall sh k v,
  wf_entry (k, v) -> sh <= nlen k ->
  encode_entry sh k v = hdr_bytes sh (nlen k - sh) (nlen v) ++ drop_n sh k ++ v.
Proof.
  intros sh k v [Hk Hv] Hsh. cbn [fst snd] in Hk, Hv.
  unfold encode_entry, hdr_bytes, two32. rewrite !N.mod_small, <- !app_assoc by lia. reflexivity.
Qed.

Lemma encode_entry_wf_len : forall sh k v,
  wf_entry (k, v) -> sh <= nlen k ->
  nlen (encode_entry sh k v) = nlen (hdr_bytes sh (nlen k - sh) (nlen v)) + (nlen k - sh) + nlen v.
Proof. intros. rewrite encode_entry_wf by assumption. rewrite !nlen_app, nlen_drop. lia. Qed.

Lemma encode_entry_nonempty : forall s k v, exists a t, encode_entry s k v = a :: t.
Proof.
  intros. unfold encode_entry. pose proof (varint32_write_nonempty (s mod two32)).
  destruct (varint32_write (s mod two32)) as [|a t]; [cbn in *; lia|].
  eexists; eexists; reflexivity.
Qed.

(* what the builder shares with the previous key: nothing at a restart point *)
Lemma shared_choice : forall (restart : bool) last k,
  let sh := if restart then 0 else shared_len last k in
  sh <= nlen k /\ sh <= nlen last /\ take_n sh last = take_n sh k.
Proof.
  intros [|] last k; cbv zeta.
  - split; [lia|]. split; [lia|reflexivity].
  - destruct (shared_len_le last k). split; [assumption|]. split; [assumption|apply shared_len_prefix].
Qed.

Lemma key_rebuild : forall sh (last k r : bytes),
  take_n sh last = take_n sh k ->
  take_n sh last ++ take_n (nlen k - sh) (drop_n sh k ++ r) = k.
Proof.
  intros sh last k r Hpre.
  rewrite take_n_app_exact by (rewrite nlen_drop; reflexivity).
  rewrite Hpre. apply take_drop.
Qed.

Lemma ge8_andb : forall (isint : bool) n, (isint = true -> 8 <= n) -> isint && (n <? 8) = false.
Proof. intros [|] n H; [|reflexivity]. specialize (H eq_refl). cbn [andb]. apply N.ltb_ge. exact H. Qed.

Lemma decode_header_entry : forall sh k v tail,
  wf_entry (k, v) -> sh <= nlen k ->
  decode_header (encode_entry sh k v ++ tail)
  = Some (sh, nlen k - sh, nlen v, drop_n sh k ++ v ++ tail).
Proof.
  intros sh k v tail Hwf Hsh. rewrite encode_entry_wf, <- !app_assoc by assumption.
  destruct Hwf as [Hk Hv]. cbn [fst snd] in Hk, Hv.
  rewrite decode_header_eq by (rewrite nlen_app; pose proof (hdr_bytes_length sh (nlen k - sh) (nlen v)); lia).
  rewrite read3_hdr by lia.
  replace (_ <? _) with false by (symmetry; apply N.ltb_ge; rewrite !nlen_app, nlen_drop; lia).
  reflexivity.
Qed.

Definition keys_ge8 (isint : bool) (es : list entry) : Prop :=
  isint = true -> Forall (fun e => 8 <= nlen (fst e)) es.

Lemma keys_ge8_cons : forall isint e es, keys_ge8 isint (e :: es) ->
  (isint = true -> 8 <= nlen (fst e)) /\ keys_ge8 isint es.
Proof. intros isint e es H. split; intros Hi; specialize (H Hi); inversion H; assumption. Qed.

Lemma entries_loop_enc : forall isint es interval counter last fuel,
  Forall wf_entry es -> keys_ge8 isint es ->
  (length es <= fuel)%nat ->
  entries_loop fuel isint last (enc_entries interval counter last es) = Some es.
Proof.
  intros isint.
  induction es as [|[k v] es IH]; intros interval counter last fuel Hwf H8 Hfuel.
  - destruct fuel; reflexivity.
  - inversion Hwf as [|? ? Hkv Hwf']; subst.
    apply keys_ge8_cons in H8. destruct H8 as [Hk8 H8]. apply (ge8_andb isint (nlen k)) in Hk8.
    cbn [enc_entries]. cbn [length] in Hfuel.
    destruct fuel as [|fuel]; [lia|].
    destruct (shared_choice (negb (counter <? interval)) last k) as (Hsh_k & Hsh_l & Hpre).
    set (shared := if negb (counter <? interval) then 0 else shared_len last k) in *.
    destruct (encode_entry_nonempty shared k v) as [a [t Hne]].
    destruct (encode_entry shared k v ++ _) as [|a' t'] eqn:Hcons; [rewrite Hne in Hcons; discriminate|].
    cbn [entries_loop]. rewrite <- Hcons. clear Hcons Hne.
    rewrite decode_header_entry by assumption.
    replace (nlen last <? shared) with false by (symmetry; apply N.ltb_ge; lia).
    replace (shared + (nlen k - shared)) with (nlen k) by lia.
    rewrite Hk8. cbv zeta.
    rewrite key_rebuild by assumption.
    rewrite (drop_n_app_exact (drop_n shared k)) by (rewrite nlen_drop; reflexivity).
    rewrite take_n_nlen_app, drop_n_nlen_app.
    rewrite IH by (auto; lia). reflexivity.
Qed.

Lemma enc_entries_length : forall es interval counter last,
  (length es <= length (enc_entries interval counter last es))%nat.
Proof.
  induction es as [|[k v] es IH]; intros; cbn [enc_entries length]; [lia|].
  rewrite app_length.
  destruct (encode_entry_nonempty (if negb (counter <? interval) then 0 else shared_len last k) k v)
    as [a [t ->]]. cbn [length].
  specialize (IH interval ((if negb (counter <? interval) then 0 else counter) + 1) k). lia.
Qed.

Lemma flat_map_le32_length : forall l, nlen (flat_map le32 l) = 4 * nlen l.
Proof.
  induction l; [reflexivity|].
  cbn [flat_map]. rewrite nlen_app, IHl, nlen_cons, nlen_le32. lia.
Qed.

Lemma de32_flat_map_nth : forall rs tail j x,
  nth_error rs j = Some x -> x < 4294967296 ->
  de32 (drop_n (N.of_nat j * 4) (flat_map le32 rs ++ tail)) = Some x.
Proof.
  intros rs tail j x Hn Hx.
  destruct (nth_error_split _ _ Hn) as (l1 & l2 & -> & Hl).
  rewrite flat_map_app. cbn [flat_map]. rewrite <- !app_assoc.
  rewrite drop_n_app_exact by (rewrite flat_map_le32_length; unfold nlen; lia).
  apply de32_le32. exact Hx.
Qed.

(* the restart array and its length, as bb_finish appends them *)
Definition restart_trailer (rs : list N) : bytes := flat_map le32 rs ++ le32 (nlen rs).

Lemma restart_trailer_length : forall rs, nlen (restart_trailer rs) = 4 * nlen rs + 4.
Proof. intros. unfold restart_trailer. rewrite nlen_app, flat_map_le32_length, nlen_le32. reflexivity. Qed.

(* reading a byte string of the shape produced by bb_finish *)
Section BuiltShape.
Variable area : bytes.
Variable rs : list N.

Lemma built_size : nlen (area ++ restart_trailer rs) = nlen area + 4 * nlen rs + 4.
Proof. rewrite nlen_app, restart_trailer_length. lia. Qed.

Lemma built_count_fits : (nlen (area ++ restart_trailer rs) - 4) / 4 <? nlen rs = false.
Proof. apply N.ltb_ge, N.div_le_lower_bound; [discriminate|]. rewrite built_size. lia. Qed.

Lemma built_restarts : nlen (area ++ restart_trailer rs) - (1 + nlen rs) * 4 = nlen area.
Proof. rewrite built_size. lia. Qed.

Hypothesis Hn1 : 1 <= nlen rs.
Hypothesis Hn32 : nlen rs < 4294967296.

Lemma built_count :
  de32 (drop_n (nlen (area ++ restart_trailer rs) - 4) (area ++ restart_trailer rs)) = Some (nlen rs).
Proof.
  replace (nlen (area ++ restart_trailer rs) - 4) with (nlen (area ++ flat_map le32 rs))
    by (rewrite built_size, nlen_app, flat_map_le32_length; lia).
  unfold restart_trailer. rewrite app_assoc, drop_n_nlen_app, <- (app_nil_r (le32 (nlen rs))).
  apply de32_le32. exact Hn32.
Qed.

Definition built_iter : biter :=
  let b := area ++ restart_trailer rs in
  mk_biter b false (nlen area) (nlen rs) (restart_trailer rs) (nlen area) (nlen rs) [] 0 0 b b SOk.

Lemma block_open_built :
  exists blk, block_init (area ++ restart_trailer rs) = Ok blk /\ biter_create blk = Ok built_iter.
Proof.
  pose proof built_size as Hsize.
  assert (Hread : read32 (area ++ restart_trailer rs) (nlen (area ++ restart_trailer rs))
                         (nlen (area ++ restart_trailer rs) - 4) = Ok (nlen rs)).
  { unfold read32. rewrite built_count.
    replace (nlen (area ++ restart_trailer rs) <? nlen (area ++ restart_trailer rs) - 4 + 4)
      with false by (symmetry; apply N.ltb_ge; lia). reflexivity. }
  eexists. split.
  - unfold block_init. rewrite Hread. cbn [rbind]. rewrite built_count_fits.
    replace (nlen (area ++ restart_trailer rs) <? 4) with false by (symmetry; apply N.ltb_ge; lia). reflexivity.
  - unfold biter_create. cbn [blk_size blk_data blk_len blk_restarts]. rewrite Hread. cbn [rbind].
    replace (nlen (area ++ restart_trailer rs) <? 4) with false by (symmetry; apply N.ltb_ge; lia).
    replace (nlen rs =? 0) with false by (symmetry; apply N.eqb_neq; lia).
    rewrite built_restarts, drop_n_nlen_app. reflexivity.
Qed.

Lemma block_entries_layout : forall isint,
  block_entries_gen isint (area ++ restart_trailer rs) = entries_loop (S (length area)) isint [] area.
Proof.
  intros isint. unfold block_entries_gen.
  rewrite built_count, built_count_fits, built_restarts, take_n_nlen_app.
  pose proof built_size as Hsize.
  replace (nlen (area ++ restart_trailer rs) <? 4) with false by (symmetry; apply N.ltb_ge; lia).
  replace (nlen rs =? 0) with false by (symmetry; apply N.eqb_neq; lia). reflexivity.
Qed.

End BuiltShape.

(* [yields r Q]: the checked computation [r] made no access out of bounds, and its result
   satisfies [Q].  Safety of a decoder is derived along its text: [yields_bind] at each
   [<~], the lemma of the accessor at each checked access, conversion at each [Ok]. *)
Definition yields {A} (r : res A) (Q : A -> Prop) : Prop :=
  match r with Ok a => Q a | OOB => False end.

Definition safe {A} (r : res A) : Prop := yields r (fun _ => True).

Lemma yields_bind : forall {A B} {P : A -> Prop} {r : res A} {f : A -> res B} {Q : B -> Prop},
  yields r P -> (forall a, P a -> yields (f a) Q) -> yields (a <~ r ;; f a) Q.
Proof. intros A B P [a|] f Q H K; [exact (K a H)|destruct H]. Qed.

Lemma yields_mono : forall {A} {P : A -> Prop} {r : res A} (Q : A -> Prop),
  yields r P -> (forall a, P a -> Q a) -> yields r Q.
Proof. intros A P [a|] Q H K; [exact (K a H)|destruct H]. Qed.

Lemma yields_inv : forall {A} {r : res A} {Q : A -> Prop}, yields r Q -> exists a, r = Ok a /\ Q a.
Proof. intros A [a|] Q H; [exists a; auto|destruct H]. Qed.

Lemma yields_intro : forall {A} {r : res A} {Q : A -> Prop}, (exists a, r = Ok a /\ Q a) -> yields r Q.
Proof. intros A r Q (a & -> & H). exact H. Qed.

Lemma safe_iff : forall {A} (r : res A), safe r <-> r <> OOB.
Proof. intros A [a|]; split; intros H; [discriminate|exact I|destruct H|congruence]. Qed.

Lemma de32_some : forall l, 4 <= nlen l -> exists v, de32 l = Some v.
Proof.
  intros l H. destruct l as [|a [|b [|c [|d r]]]]; unfold nlen in H; cbn [length] in H; try lia.
  eexists. reflexivity.
Qed.

Lemma take_exact_ok : forall sub len, len <= nlen sub -> take_exact sub len = Ok (take_n len sub).
Proof.
  intros. unfold take_exact. rewrite nlen_take_n_le by assumption.
  rewrite N.eqb_refl. reflexivity.
Qed.

Lemma read32_ok : forall data size off,
  size = nlen data -> off + 4 <= size -> safe (read32 data size off).
Proof.
  intros data size off Hs Ho. unfold read32.
  replace (size <? off + 4) with false by (symmetry; apply N.ltb_ge; lia).
  destruct (de32_some (drop_n off data)) as [v ->]; [rewrite nlen_drop; lia|exact I].
Qed.

Lemma slice_ok : forall data size off len,
  size = nlen data -> off + len <= size ->
  slice data size off len = Ok (take_n len (drop_n off data)).
Proof.
  intros data size off len Hs Hle. unfold slice.
  replace (size <? off + len) with false by (symmetry; apply N.ltb_ge; lia).
  rewrite nlen_take, nlen_drop, N.min_l by lia. rewrite N.eqb_refl. reflexivity.
Qed.

(* inside the block ([limit - p <= nlen sub]) the window of up to 15 bytes is there, and
   decode_entry reads the three lengths from it *)
Lemma decode_entry_eq : forall sub p limit,
  p + 3 <= limit -> limit - p <= nlen sub ->
  decode_entry sub p limit =
  let wlen := N.min (limit - p) 15 in
  match read3 (take_n wlen sub) with
  | None => Ok None
  | Some (s, ns, vl, w3) =>
      if limit - p - (wlen - nlen w3) <? ns + vl then Ok None
      else Ok (Some (s, ns, vl, wlen - nlen w3, drop_n (wlen - nlen w3) sub))
  end.
Proof.
  intros sub p limit Hp Hlen. unfold decode_entry. cbv zeta.
  replace (limit <? p) with false by (symmetry; apply N.ltb_ge; lia).
  replace (limit - p <? 3) with false by (symmetry; apply N.ltb_ge; lia).
  set (wlen := N.min (limit - p) 15).
  assert (Hw : 3 <= wlen /\ wlen <= nlen sub) by (subst wlen; lia). clearbody wlen.
  destruct sub as [|a [|b [|c rest]]]; try (cbn in Hlen; lia).
  destruct ((a <? 128) && (b <? 128) && (c <? 128)) eqn:Hs.
  - destruct (small3 a b c Hs) as (Ha & Hb & Hc).
    replace (take_n wlen (a :: b :: c :: rest)) with (a :: b :: c :: take_n (wlen - 3) rest)
      by (symmetry; apply (take_app_ge _ wlen [a; b; c] rest), Hw).
    rewrite read3_small by assumption. rewrite !nlen_cons in Hw.
    rewrite nlen_take_n_le by lia.
    replace (wlen - (wlen - 3)) with 3 by lia. reflexivity.
  - rewrite nlen_take_n_le by apply Hw. rewrite N.eqb_refl. cbn [negb].
    unfold read3. destruct (varint32_read (take_n wlen (a :: b :: c :: rest))) as [[s l1]|]; [|reflexivity].
    destruct (varint32_read l1) as [[ns l2]|]; [|reflexivity].
    destruct (varint32_read l2) as [[vl l3]|]; reflexivity.
Qed.

Lemma decode_entry_ok : forall sub p limit,
  limit - p <= nlen sub ->
  yields (decode_entry sub p limit) (fun r =>
    match r with
    | None => True
    | Some (s, ns, vl, used, krest) =>
        krest = drop_n used sub /\ p + used + ns + vl <= limit
    end).
Proof.
  intros sub p limit Hlen.
  destruct (N.ltb_spec limit (p + 3)) as [Hshort|Hp].
  { unfold decode_entry. destruct (limit <? p); [exact I|].
    replace (limit - p <? 3) with true by (symmetry; apply N.ltb_lt; lia). exact I. }
  rewrite decode_entry_eq by assumption. cbv zeta.
  pose proof (N.le_min_l (limit - p) 15) as Hw.
  destruct (read3 _) as [[[[s ns] vl] w3]|]; [|exact I].
  destruct (N.ltb_spec (limit - p - (N.min (limit - p) 15 - nlen w3)) (ns + vl)) as [E5|E5]; [exact I|].
  split; [reflexivity|lia].
Qed.

(* the iterator's decoder on a stored entry, anywhere inside a block *)
Lemma decode_entry_entry : forall sh k v rest p limit,
  wf_entry (k, v) -> sh <= nlen k ->
  p + nlen (encode_entry sh k v) <= limit -> limit - p <= nlen (encode_entry sh k v ++ rest) ->
  decode_entry (encode_entry sh k v ++ rest) p limit =
  Ok (Some (sh, nlen k - sh, nlen v, nlen (hdr_bytes sh (nlen k - sh) (nlen v)), drop_n sh k ++ v ++ rest)).
Proof.
  intros sh k v rest p limit Hwf Hsh Hlim Hsub.
  rewrite encode_entry_wf_len in Hlim by assumption.
  rewrite encode_entry_wf, <- !app_assoc in * by assumption.
  destruct Hwf as [Hk Hv]. cbn [fst snd] in Hk, Hv.
  pose proof (hdr_bytes_length sh (nlen k - sh) (nlen v)) as Hh.
  set (tail := drop_n sh k ++ v ++ rest) in *.
  assert (Ht : nlen tail = nlen k - sh + nlen v + nlen rest)
    by (unfold tail; rewrite !nlen_app, nlen_drop; apply N.add_assoc).
  clearbody tail.
  rewrite decode_entry_eq by (exact Hsub || lia). cbv zeta. rewrite nlen_app in Hsub.
  set (wlen := N.min (limit - p) 15).
  assert (Hw : nlen (hdr_bytes sh (nlen k - sh) (nlen v)) <= wlen /\ wlen <= limit - p /\
               wlen <= nlen (hdr_bytes sh (nlen k - sh) (nlen v)) + nlen tail) by (subst wlen; lia).
  clearbody wlen.
  rewrite take_app_ge by apply Hw. rewrite read3_hdr by lia.
  rewrite nlen_take_n_le by lia.
  replace (wlen - (wlen - _)) with (nlen (hdr_bytes sh (nlen k - sh) (nlen v))) by lia.
  replace (_ <? _) with false by (symmetry; apply N.ltb_ge; lia).
  rewrite drop_n_nlen_app. reflexivity.
Qed.

(* the count and the restart array fill the block after bi_restarts; the three cached
   suffixes of Block.biter are the drops at bi_restarts, bi_voff and bi_voff + bi_vlen;
   [binv] adds the empty iterator, on which every operation is a no-op *)
Definition binv1 (it : biter) : Prop :=
  bi_restarts it + 4 * bi_num it + 4 = nlen (bi_data it) /\
  bi_rarr it = drop_n (bi_restarts it) (bi_data it) /\
  bi_ridx it <= bi_num it /\
  bi_vrest it = drop_n (bi_voff it) (bi_data it) /\
  bi_next it = drop_n (bi_voff it + bi_vlen it) (bi_data it) /\
  bi_voff it + bi_vlen it <= bi_restarts it.

Definition binv (it : biter) : Prop := bi_empty it = true \/ binv1 it.

Lemma biter_empty_inv : forall st, binv (biter_empty st).
Proof. intros. left. reflexivity. Qed.

Lemma get_restart_point_ok : forall it idx,
  binv1 it -> idx <= bi_num it ->
  exists off, get_restart_point it idx = Ok off /\ off <= bi_restarts it.
Proof.
  intros it idx (H1 & H2 & _) Hidx. unfold get_restart_point.
  destruct (de32_some (drop_n (idx * 4) (bi_rarr it))) as [v Hv].
  { rewrite H2, !nlen_drop. lia. }
  rewrite Hv. eexists. split; [reflexivity|].
  destruct (N.ltb_spec (bi_restarts it) v); lia.
Qed.

Lemma seek_to_restart_point_ok : forall it idx,
  binv1 it -> idx <= bi_num it -> yields (seek_to_restart_point it idx) binv1.
Proof.
  intros it idx Hinv Hidx. unfold seek_to_restart_point.
  destruct (get_restart_point_ok it idx Hinv Hidx) as [off [-> Hoff]].
  destruct Hinv as (H1 & H2 & H3 & H4 & H5 & H6).
  unfold binv1. cbn [rbind yields bi_data bi_restarts bi_num bi_rarr bi_ridx bi_vrest bi_voff bi_vlen bi_next].
  rewrite N.add_0_r. repeat split; auto.
Qed.

Lemma set_pos_inv : forall it cur ridx, binv1 it -> ridx <= bi_num it -> binv1 (set_pos it cur ridx).
Proof.
  intros it cur ridx (H1 & H2 & H3 & H4 & H5 & H6) Hr. unfold binv1, set_pos.
  cbn [bi_data bi_restarts bi_num bi_rarr bi_ridx bi_vrest bi_voff bi_vlen bi_next]. repeat split; auto.
Qed.

Lemma biter_corrupt_inv : forall it, binv1 it -> binv1 (biter_corrupt it).
Proof.
  intros it (H1 & H2 & H3 & H4 & H5 & H6). unfold binv1, biter_corrupt.
  cbn [bi_data bi_restarts bi_num bi_rarr bi_ridx bi_vrest bi_voff bi_vlen bi_next].
  repeat split; auto; try lia.
Qed.

Lemma set_ridx_self : forall it, set_ridx it (bi_ridx it) = it.
Proof. intros. destruct it. reflexivity. Qed.

Lemma set_ridx_twice : forall it a b, set_ridx (set_ridx it a) b = set_ridx it b.
Proof. intros. destruct it. reflexivity. Qed.

(* the state parse_next_key enters when it has decoded the entry (k, v) whose value
   starts at [voff] and is followed by [rest]; the restart index is still to be advanced *)
Definition enter_entry (it : biter) (k : bytes) (voff : N) (v rest : bytes) : biter :=
  mk_biter (bi_data it) (bi_empty it) (bi_restarts it) (bi_num it) (bi_rarr it)
           (next_entry_offset it) (bi_ridx it) k voff (nlen v) (v ++ rest) rest (bi_status it).

Lemma enter_entry_inv : forall it k voff v rest,
  binv1 it -> drop_n voff (bi_data it) = v ++ rest -> voff + nlen v <= bi_restarts it ->
  binv1 (enter_entry it k voff v rest).
Proof.
  intros it k voff v rest (H1 & H2 & H3 & H4 & H5 & H6) Hv Hle. unfold binv1, enter_entry.
  cbn [bi_data bi_restarts bi_num bi_rarr bi_ridx bi_vrest bi_voff bi_vlen bi_next].
  repeat split; auto. symmetry. apply drop_n_suffix. exact Hv.
Qed.

(* The iterator stands before the stored form of (k, v), which shares [sh] bytes with
   the current key.  parse_next_key decodes it and enters the entry; what remains is the
   adjustment of the restart index. *)
Lemma parse_next_key_entry : forall isint it sh k v rest,
  binv1 it -> wf_entry (k, v) -> (isint = true -> 8 <= nlen k) ->
  sh <= nlen k -> sh <= nlen (bi_key it) -> take_n sh (bi_key it) = take_n sh k ->
  bi_next it = encode_entry sh k v ++ rest ->
  next_entry_offset it + nlen (encode_entry sh k v) <= bi_restarts it ->
  let voff := next_entry_offset it + nlen (hdr_bytes sh (nlen k - sh) (nlen v)) + (nlen k - sh) in
  binv1 (enter_entry it k voff v rest) /\
  parse_next_key isint it =
  (it2 <~ advance_ridx (bi_data it) (enter_entry it k voff v rest) ;; Ok (it2, true)).
Proof.
  intros isint it sh k v rest Hinv Hwf K8 Hsh Hkey Hpre Hnext Hoff voff.
  pose proof Hinv as (I1 & _ & _ & _ & I5 & _).
  pose proof (encode_entry_wf_len sh k v Hwf Hsh) as Hlen.
  pose proof (hdr_bytes_length sh (nlen k - sh) (nlen v)) as Hh.
  split.
  - apply enter_entry_inv; [exact Hinv| |unfold voff; lia].
    replace voff with (next_entry_offset it + nlen (hdr_bytes sh (nlen k - sh) (nlen v) ++ drop_n sh k))
      by (rewrite nlen_app, nlen_drop; apply N.add_assoc).
    apply drop_n_suffix. unfold next_entry_offset.
    rewrite <- I5, Hnext, (encode_entry_wf sh k v Hwf Hsh), <- !app_assoc. reflexivity.
  - unfold parse_next_key.
    replace (bi_restarts it <=? next_entry_offset it) with false by (symmetry; apply N.leb_gt; lia).
    rewrite Hnext, (decode_entry_entry sh k v rest _ _ Hwf Hsh Hoff)
      by (rewrite <- Hnext, I5, nlen_drop; unfold next_entry_offset; lia).
    cbn [rbind].
    replace (nlen (bi_key it) <? sh) with false by (symmetry; apply N.ltb_ge; exact Hkey).
    replace (sh + (nlen k - sh)) with (nlen k) by lia.
    rewrite (ge8_andb _ _ K8).
    rewrite take_exact_ok by (rewrite nlen_app, nlen_drop; apply N.le_add_r). cbn [rbind].
    rewrite key_rebuild by assumption.
    rewrite (drop_n_app_exact (drop_n sh k)) by (rewrite nlen_drop; reflexivity).
    rewrite drop_n_nlen_app. reflexivity.
Qed.

Lemma parse_next_key_end : forall isint it,
  bi_restarts it <= next_entry_offset it ->
  parse_next_key isint it = Ok (set_pos it (bi_restarts it) (bi_num it), false).
Proof.
  intros isint it H. unfold parse_next_key.
  replace (bi_restarts it <=? next_entry_offset it) with true by (symmetry; apply N.leb_le; lia). reflexivity.
Qed.

(* the restart index moves up only to restart points that lie before the current entry *)
Lemma advance_ridx_spec : forall fuel it,
  binv1 it -> exists r, advance_ridx fuel it = Ok (set_ridx it r) /\ r <= bi_num it /\
    (r = bi_ridx it \/
     r < bi_num it /\ exists off, get_restart_point it r = Ok off /\ off < bi_cur it).
Proof.
  induction fuel as [|x fuel IH]; intros it Hinv; cbn [advance_ridx];
    pose proof Hinv as (_ & _ & H3 & _).
  - exists (bi_ridx it). rewrite set_ridx_self. auto.
  - destruct (N.ltb_spec (bi_ridx it + 1) (bi_num it)) as [E|E];
      [|exists (bi_ridx it); rewrite set_ridx_self; auto].
    destruct (get_restart_point_ok it (bi_ridx it + 1) Hinv ltac:(lia)) as [rp [Hrp _]].
    rewrite Hrp. cbn [rbind].
    destruct (N.ltb_spec rp (bi_cur it)) as [E2|E2];
      [|exists (bi_ridx it); rewrite set_ridx_self; auto].
    destruct (IH (set_ridx it (bi_ridx it + 1))) as [r (A & B & C)].
    { apply set_pos_inv; [exact Hinv|lia]. }
    exists r. rewrite A, set_ridx_twice. split; [reflexivity|]. split; [exact B|]. right.
    destruct C as [->|C]; [|exact C]. split; [exact E|]. exists rp. auto.
Qed.

Lemma advance_ridx_key : forall fuel it it', advance_ridx fuel it = Ok it' -> bi_key it' = bi_key it.
Proof.
  induction fuel as [|x fuel IH]; intros it it'; cbn [advance_ridx]; [intros [= <-]; reflexivity|].
  destruct (bi_ridx it + 1 <? bi_num it); [|intros [= <-]; reflexivity].
  destruct (get_restart_point it (bi_ridx it + 1)) as [rp|]; cbn [rbind]; [|discriminate].
  destruct (rp <? bi_cur it); [|intros [= <-]; reflexivity].
  intros H. exact (IH _ _ H).
Qed.

(* the restart index moves down to a restart point before [original]; the search gives up
   at restart point 0 (or when the fuel is spent) *)
Lemma prev_restart_spec : forall fuel original it,
  binv1 it ->
  exists r, prev_restart fuel original it = Ok r /\
    match r with
    | Some it1 => exists r1 off, it1 = set_ridx it r1 /\ r1 <= bi_ridx it /\
                    get_restart_point it r1 = Ok off /\ off < original
    | None => exists r1 off, get_restart_point it r1 = Ok off /\ original <= off /\
                (r1 = 0 \/ nlen fuel < bi_ridx it)
    end.
Proof.
  induction fuel as [|x fuel IH]; intros original it Hinv; cbn [prev_restart];
    pose proof Hinv as (_ & _ & H3 & _);
    destruct (get_restart_point_ok it (bi_ridx it) Hinv H3) as [rp [Hrp _]]; rewrite Hrp; cbn [rbind];
    (destruct (N.leb_spec original rp) as [E1|E1];
      [|exists (Some it); split; [reflexivity|]; exists (bi_ridx it), rp;
        rewrite set_ridx_self; auto using N.le_refl]).
  - exists None. split; [destruct (bi_ridx it =? 0); reflexivity|].
    exists (bi_ridx it), rp. split; [exact Hrp|]. split; [exact E1|]. rewrite nlen_nil. lia.
  - destruct (N.eqb_spec (bi_ridx it) 0) as [E0|E0].
    + exists None. split; [reflexivity|]. exists (bi_ridx it), rp. auto.
    + destruct (IH original (set_ridx it (bi_ridx it - 1))) as [r [A B]].
      { apply set_pos_inv; [exact Hinv|lia]. }
      exists r. split; [exact A|]. cbn [set_ridx set_pos bi_ridx] in B.
      destruct r as [it1|].
      * destruct B as (r1 & off & B1 & B2 & B3). exists r1, off.
        rewrite set_ridx_twice in B1. split; [exact B1|]. split; [lia|exact B3].
      * destruct B as (r1 & off & B1 & B2 & B3). exists r1, off.
        split; [exact B1|]. split; [exact B2|]. rewrite nlen_cons. lia.
Qed.

Section Loops.
Variable cmp : bytes -> bytes -> comparison.
Variable is_internal : bool.

(* The one scanning loop of the iterator: parse entries while the entry just parsed
   satisfies [c].  scan_until (Last, Prev) runs it while the entry ends before a bound,
   seek_linear (Seek) while its key is below the target. *)
Fixpoint parse_while (c : biter -> bool) (fuel : bytes) (it : biter) : res biter :=
  '(it', ok) <~ parse_next_key is_internal it ;;
  if ok && c it' then
    match fuel with
    | [] => Ok it'
    | _ :: fuel' => parse_while c fuel' it'
    end
  else Ok it'.

Definition ends_before (bound : N) (it : biter) : bool := next_entry_offset it <? bound.
Definition key_below (target : bytes) (it : biter) : bool :=
  match cmp (bi_key it) target with Lt => true | _ => false end.

Lemma scan_until_while : forall fuel bound it,
  scan_until is_internal fuel bound it = parse_while (ends_before bound) fuel it.
Proof.
  induction fuel as [|x fuel IH]; intros; cbn [scan_until parse_while]; [reflexivity|].
  destruct (parse_next_key is_internal it) as [[it' ok]|]; cbn [rbind]; [|reflexivity].
  unfold ends_before at 1. destruct (ok && _); [apply IH|reflexivity].
Qed.

Lemma seek_linear_while : forall fuel target it,
  seek_linear cmp is_internal fuel target it = parse_while (key_below target) fuel it.
Proof.
  induction fuel as [|x fuel IH]; intros; cbn [seek_linear parse_while];
    (destruct (parse_next_key is_internal it) as [[it' [|]]|]; cbn [rbind negb andb]; [|reflexivity..]);
    unfold key_below at 1; destruct (cmp (bi_key it') target); try reflexivity.
  apply IH.
Qed.

End Loops.

(* the probe of the binary search lies above lo and not above hi *)
Lemma bsearch_mid : forall lo hi, lo < hi -> lo < (lo + hi + 1) / 2 <= hi.
Proof. intros lo hi H. lia. Qed.

Section SafetyWithComparator.
Variable is_internal : bool.

Lemma parse_next_key_ok : forall it,
  binv1 it -> yields (parse_next_key is_internal it) (fun r => binv1 (fst r)).
Proof.
  intros it Hinv. unfold parse_next_key.
  destruct (N.leb_spec (bi_restarts it) (next_entry_offset it)) as [E|E].
  { apply set_pos_inv; [exact Hinv|lia]. }
  pose proof Hinv as (H1 & H2 & H3 & H4 & H5 & H6).
  pose proof (biter_corrupt_inv it Hinv) as Hcorrupt.
  unfold next_entry_offset in *.
  apply (yields_bind (decode_entry_ok (bi_next it) (bi_voff it + bi_vlen it) (bi_restarts it)
                        ltac:(rewrite H5, nlen_drop; lia))).
  intros [[[[[s ns] vl] used] krest]|] Hr; [|exact Hcorrupt].
  destruct Hr as [Hk Hb].
  destruct (nlen (bi_key it) <? s); [exact Hcorrupt|].
  destruct (is_internal && (s + ns <? 8)); [exact Hcorrupt|].
  rewrite take_exact_ok by (rewrite Hk, H5, !nlen_drop; lia).
  cbn [rbind].
  match goal with |- context [advance_ridx ?f ?i] => set (it1 := i) end.
  assert (Hinv1 : binv1 it1).
  { unfold binv1, it1.
    cbn [bi_data bi_restarts bi_num bi_rarr bi_ridx bi_vrest bi_voff bi_vlen bi_next].
    repeat split; auto;
      try (rewrite Hk, H5, !drop_n_drop_n; f_equal; lia); try lia. }
  destruct (advance_ridx_spec (bi_data it) it1 Hinv1) as [r (-> & Hr & _)].
  apply set_pos_inv; assumption.
Qed.

Lemma parse_while_ok : forall c fuel it,
  binv1 it -> yields (parse_while is_internal c fuel it) binv1.
Proof.
  induction fuel as [|x fuel IH]; intros it Hinv; cbn [parse_while];
    apply (yields_bind (parse_next_key_ok it Hinv)); intros [it1 b] B;
    destruct (b && c it1); auto.
Qed.

(* every operation does nothing on the empty iterator *)
Lemma unless_empty : forall (r : res biter) it,
  (binv1 it -> yields r binv1) -> binv it ->
  yields (if bi_empty it then Ok it else r) binv.
Proof.
  intros r it Hg Hinv. destruct (bi_empty it) eqn:E; [exact Hinv|].
  destruct Hinv as [H|H]; [congruence|]. exact (yields_mono binv (Hg H) (fun _ B => or_intror B)).
Qed.

Lemma biter_next_ok : forall it, binv it -> yields (biter_next is_internal it) binv.
Proof.
  intros it. unfold biter_next. apply unless_empty. intros H1.
  apply (yields_bind (parse_next_key_ok it H1)). intros [it1 b] B. exact B.
Qed.

Lemma biter_first_ok : forall it, binv it -> yields (biter_first is_internal it) binv.
Proof.
  intros it. unfold biter_first. apply unless_empty. intros H1.
  apply (yields_bind (seek_to_restart_point_ok it 0 H1 ltac:(lia))). intros it0 B0.
  apply (yields_bind (parse_next_key_ok it0 B0)). intros [it1 b] B. exact B.
Qed.

Lemma biter_last_ok : forall it, binv it -> yields (biter_last is_internal it) binv.
Proof.
  intros it. unfold biter_last. apply unless_empty. intros H1.
  apply (yields_bind (seek_to_restart_point_ok it (bi_num it - 1) H1 ltac:(lia))). intros it0 B0.
  rewrite scan_until_while. apply parse_while_ok, B0.
Qed.

Lemma biter_prev_ok : forall it, binv it -> yields (biter_prev is_internal it) binv.
Proof.
  intros it. unfold biter_prev. apply unless_empty. intros H1. pose proof H1 as (_ & _ & H3 & _).
  destruct (prev_restart_spec (bi_data it) (bi_cur it) it H1) as [r [-> Hr]]. cbn [rbind].
  destruct r as [it1|]; [|apply set_pos_inv; [exact H1|lia]].
  destruct Hr as (r1 & off & -> & Hr1 & _).
  apply (yields_bind (seek_to_restart_point_ok (set_ridx it r1) r1
           (set_pos_inv it _ r1 H1 ltac:(lia)) ltac:(cbn [set_ridx set_pos bi_num]; lia))).
  intros it2 B2. rewrite scan_until_while. apply parse_while_ok, B2.
Qed.

(* The probe reads its key as parse_next_key does after seek_to_restart_point: block.c has the
   decoding twice, and here the two are the same. *)
Lemma probe_parse : forall A (bad : res A) (K : bytes -> res A) it mid it2 ok,
  (it1 <~ seek_to_restart_point it mid ;; parse_next_key is_internal it1) = Ok (it2, ok) ->
  (region_offset <~ get_restart_point it mid ;;
   d <~ decode_entry (drop_n region_offset (bi_data it)) region_offset (bi_restarts it) ;;
   match d with
   | None => bad
   | Some (shared, non_shared, _, _, krest) =>
       if negb (shared =? 0) then bad
       else if is_internal && (non_shared <? 8) then bad
       else mid_key <~ take_exact krest non_shared ;; K mid_key
   end) = if ok then K (bi_key it2) else bad.
Proof.
  intros A bad K it mid it2 ok. unfold seek_to_restart_point.
  destruct (get_restart_point it mid) as [off|]; cbn [rbind]; [|discriminate].
  unfold parse_next_key, next_entry_offset.
  cbn [bi_data bi_empty bi_restarts bi_num bi_rarr bi_cur bi_ridx bi_key bi_voff bi_vlen bi_vrest bi_next bi_status].
  rewrite N.add_0_r.
  destruct (N.leb_spec (bi_restarts it) off) as [E|E].
  { intros [= <- <-]. unfold decode_entry.
    destruct (bi_restarts it <? off); [reflexivity|].
    replace (bi_restarts it - off <? 3) with true by (symmetry; apply N.ltb_lt; lia). reflexivity. }
  destruct (decode_entry (drop_n off (bi_data it)) off (bi_restarts it)) as [[[[[[s ns] vl] hdr] krest]|]|];
    cbn [rbind]; [|intros [= <- <-]; reflexivity|discriminate].
  destruct s as [|s]; [|intros [= <- <-]; reflexivity].
  cbn [nlen length N.of_nat N.ltb N.compare N.eqb negb N.add].
  destruct (is_internal && (ns <? 8)); [intros [= <- <-]; reflexivity|].
  destruct (take_exact krest ns) as [delta|]; cbn [rbind]; [|discriminate].
  destruct (advance_ridx _ _) as [it3|] eqn:Ha; cbn [rbind]; [|discriminate].
  intros [= <- <-]. rewrite (advance_ridx_key _ _ _ Ha). reflexivity.
Qed.

Variable cmp : bytes -> bytes -> comparison.

Lemma seek_bsearch_ok : forall fuel target it lo hi,
  binv1 it -> lo <= bi_num it -> hi <= bi_num it ->
  yields (seek_bsearch cmp is_internal fuel target it lo hi)
         (fun r => match r with inl _ => True | inr l => l <= bi_num it end).
Proof.
  induction fuel as [|fuel IH]; intros target it lo hi Hinv Hlo Hhi; cbn [seek_bsearch].
  - destruct (lo <? hi); exact Hlo.
  - destruct (N.ltb_spec lo hi) as [E|E]; [|exact Hlo].
    destruct (bsearch_mid lo hi E) as [_ Hmid]. set (mid := (lo + hi + 1) / 2) in *. clearbody mid.
    apply (fun H => N.le_trans _ _ _ H Hhi) in Hmid.
    destruct (yields_inv (yields_bind (seek_to_restart_point_ok it mid Hinv Hmid) parse_next_key_ok))
      as [[it2 ok] [Hp _]].
    rewrite (probe_parse _ _ _ it mid it2 ok Hp).
    destruct ok; [|exact I]. destruct (cmp (bi_key it2) target); apply IH; auto; lia.
Qed.

Lemma biter_seek_ok : forall target it,
  binv it -> yields (biter_seek cmp is_internal target it) binv.
Proof.
  intros target it. unfold biter_seek. apply unless_empty. intros H1.
  pose proof (biter_corrupt_inv it H1) as Hcorrupt.
  destruct (is_internal && (nlen target <? 8)); [exact Hcorrupt|].
  set (ckc := if biter_valid it then cmp (bi_key it) target else Eq).
  destruct (biter_valid it && match ckc with Eq => true | _ => false end); [exact H1|].
  pose proof H1 as (_ & _ & H3 & _).
  apply (yields_bind (seek_bsearch_ok 64 target it
              (match ckc with Lt => bi_ridx it | _ => 0 end)
              (match ckc with Gt => bi_ridx it | _ => bi_num it - 1 end) H1
              ltac:(destruct ckc; lia) ltac:(destruct ckc; lia))).
  intros [u|lft] Hr; [exact Hcorrupt|].
  apply (@yields_bind _ _ binv1).
  - destruct ((lft =? bi_ridx it) && match ckc with Lt => true | _ => false end);
      [exact H1|exact (seek_to_restart_point_ok it lft H1 Hr)].
  - intros it1 B1. rewrite seek_linear_while. apply parse_while_ok, B1.
Qed.

Lemma biter_observe_ok : forall it, binv it -> safe (biter_observe it).
Proof.
  intros it Hinv. unfold biter_observe.
  destruct (biter_valid it) eqn:V; [|exact I].
  unfold biter_valid in V. destruct Hinv as [E|(H1 & _ & _ & H4 & _ & H6)]; [rewrite E in V; discriminate|].
  unfold biter_value. rewrite take_exact_ok by (rewrite H4, nlen_drop; lia). exact I.
Qed.

Lemma biter_value_valid_ok : forall it, binv it -> biter_valid it = true -> safe (biter_value it).
Proof.
  intros it Hinv V. pose proof (biter_observe_ok it Hinv) as Ho.
  unfold biter_observe in Ho. rewrite V in Ho.
  destruct (biter_value it); exact Ho.
Qed.

Lemma biter_step_ok : forall op it, binv it -> yields (biter_step cmp is_internal op it) binv.
Proof.
  intros op it Hinv. destruct op; cbn [biter_step].
  - apply biter_first_ok; exact Hinv.
  - apply biter_last_ok; exact Hinv.
  - apply biter_seek_ok; exact Hinv.
  - destruct (biter_valid it); [apply biter_next_ok|]; exact Hinv.
  - destruct (biter_valid it); [apply biter_prev_ok|]; exact Hinv.
Qed.

Lemma biter_run_ok : forall ops it, binv it -> safe (biter_run cmp is_internal ops it).
Proof.
  induction ops as [|op ops IH]; intros it Hinv; cbn [biter_run]; [exact I|].
  apply (yields_bind (biter_step_ok op it Hinv)). intros it1 B.
  apply (yields_bind (biter_observe_ok it1 B)). intros o _.
  apply (yields_bind (IH it1 B)). intros [os it2] _. exact I.
Qed.

End SafetyWithComparator.

(* a block on which ldb_blockiter_create is safe and gives a sound iterator *)
Definition blk_ok (blk : block) : Prop := yields (biter_create blk) binv.

Lemma block_init_ok : forall b, yields (block_init b) (fun blk => blk_ok blk /\ blk_data blk = b).
Proof.
  intros b. unfold block_init, blk_ok, biter_create.
  destruct (N.ltb_spec (nlen b) 4) as [E|E]; [split; [left|]; reflexivity|].
  destruct (de32_some (drop_n (nlen b - 4) b)) as [n Hn]; [rewrite nlen_drop; lia|].
  unfold read32. replace (nlen b <? nlen b - 4 + 4) with false by (symmetry; apply N.ltb_ge; lia).
  rewrite Hn. cbn [rbind].
  destruct (N.ltb_spec ((nlen b - 4) / 4) n) as [E2|E2]; [split; [left|]; reflexivity|].
  split; [|reflexivity]. cbn [yields blk_size blk_data blk_len blk_restarts].
  replace (nlen b <? 4) with false by (symmetry; apply N.ltb_ge; lia).
  replace (nlen b <? nlen b - 4 + 4) with false by (symmetry; apply N.ltb_ge; lia).
  rewrite Hn. cbn [rbind].
  destruct (N.eqb_spec n 0) as [E0|E0]; [left; reflexivity|]. right. unfold binv1.
  cbn [bi_data bi_restarts bi_num bi_rarr bi_ridx bi_vrest bi_voff bi_vlen bi_next].
  repeat split; try reflexivity; lia.
Qed.

(* C16: the block iterator never reads outside the block: for ALL byte strings,
   comparators and scripts the model never returns OOB *)
Theorem block_run_safe : forall cmp is_internal b ops, block_run cmp is_internal b ops <> OOB.
Proof.
  intros cmp is_internal b ops. apply safe_iff. unfold block_run.
  apply (yields_bind (block_init_ok b)). intros blk [Hok _].
  apply (yields_bind Hok). intros it Hinv.
  apply (yields_bind (biter_run_ok is_internal cmp ops it Hinv)). intros [os it'] _. exact I.
Qed.
