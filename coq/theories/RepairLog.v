(* RepairLog.v -- model of the record loop of convert_log_to_table (src/repair.c):

     while (ldb_reader_read_record(&reader, &record, &scratch)) {
       if (record.size < 12) { report "log record too small"; continue; }
       ldb_batch_set_contents(&batch, &record);
       rc = ldb_batch_insert_into(&batch, mem);
       if (rc == LDB_OK) counter += ldb_batch_count(&batch);
       else { log "ignoring"; rc = LDB_OK;  /* Keep going with rest of file. */ }
     }

   The memtable receives, record by record, the operations ldb_batch_insert_into hands to it
   BEFORE it fails (if it fails), numbered from the record's own sequence; a record that does
   not parse affects nothing but itself.  The records are those the reader delivers, and
   src/repair.c:290 creates it with checksumming off (ldb_reader_init(..., 0, 0)): a record
   with damaged bytes that is still framed is among them.
   Property C19 ("repair recovers all surviving data"). *)
From Coq Require Import List NArith Bool Lia.
From LCDB Require Import Base Batch BatchProofs.
Import ListNotations.
Local Open Scope N_scope.

(* what one record contributes to the salvage memtable *)
Definition record_entries (r : bytes) : list (N * bop) :=
  if nlen r <? BATCH_HEADER then [] else fst (batch_insert_into r).

Definition record_ok (r : bytes) : bool :=
  negb (nlen r <? BATCH_HEADER) &&
  match snd (batch_insert_into r) with BOk => true | _ => false end.

(* the whole log: records in file order *)
Definition salvage (rs : list bytes) : list (N * bop) := flat_map record_entries rs.

(* a record that does not parse affects nothing but itself *)
Theorem salvage_local : forall pre bad post,
  salvage (pre ++ bad :: post) = salvage pre ++ record_entries bad ++ salvage post.
Proof.
  intros pre bad post. unfold salvage. rewrite flat_map_app. cbn [flat_map]. reflexivity.
Qed.

(* whatever a record contributes is salvaged, whatever surrounds it *)
Lemma salvage_incl : forall r rs e, In r rs -> In e (record_entries r) -> In e (salvage rs).
Proof. intros r rs e Hr He. unfold salvage. apply in_flat_map. exists r. split; assumption. Qed.

Lemma batch_build_length : forall seq ops, BATCH_HEADER <= nlen (batch_build seq ops).
Proof.
  intros seq ops. rewrite batch_build_layout. unfold nlen. rewrite hdr_length. unfold BATCH_HEADER. lia.
Qed.

(* an intact record = a batch as the writer built it: all of its operations arrive, numbered from its sequence *)
Theorem record_entries_intact : forall seq ops,
  wf_ops ops = true -> seq < 18446744073709551616 ->
  record_entries (batch_build seq ops) = number_ops seq ops /\ record_ok (batch_build seq ops) = true.
Proof.
  intros seq ops Hwf Hs. unfold record_entries, record_ok, batch_insert_into.
  pose proof (batch_build_length seq ops) as Hl.
  replace (nlen (batch_build seq ops) <? BATCH_HEADER) with false by (symmetry; apply N.ltb_ge; exact Hl).
  rewrite batch_iterate_build by exact Hwf. rewrite batch_sequence_build by exact Hs.
  cbn [fst snd negb andb]. split; reflexivity.
Qed.

(* every intact record is salvaged completely, wherever a damaged record sits *)
Theorem salvage_keeps_intact_records : forall pre post bad,
  (forall r, In r (pre ++ post) -> exists seq ops, wf_ops ops = true /\ seq < 18446744073709551616 /\ r = batch_build seq ops) ->
  forall seq ops, wf_ops ops = true -> seq < 18446744073709551616 ->
  In (batch_build seq ops) (pre ++ post) ->
  forall e, In e (number_ops seq ops) -> In e (salvage (pre ++ bad :: post)).
Proof.
  intros pre post bad _ seq ops Hwf Hs Hin e He.
  apply (salvage_incl (batch_build seq ops)).
  - apply in_app_iff in Hin. apply in_app_iff. destruct Hin; [left|right; right]; assumption.
  - rewrite (proj1 (record_entries_intact seq ops Hwf Hs)). exact He.
Qed.

Lemma number_ops_length : forall ops seq, length (number_ops seq ops) = length ops.
Proof. induction ops as [|o r IH]; intros seq; cbn [number_ops length]; [reflexivity|]. rewrite IH. reflexivity. Qed.

(* a record too short for a header contributes nothing; any other record contributes the
   operations batch_iterate hands over (all of them, or those before the failure), numbered from
   the record's own sequence *)
Theorem record_entries_short : forall r, nlen r < BATCH_HEADER -> record_entries r = [].
Proof. intros r H. unfold record_entries. apply N.ltb_lt in H. rewrite H. reflexivity. Qed.

Theorem record_entries_numbered : forall r, BATCH_HEADER <= nlen r ->
  record_entries r = number_ops (batch_sequence r) (batch_ops r).
Proof.
  intros r H. unfold record_entries, batch_insert_into, batch_ops.
  replace (nlen r <? BATCH_HEADER) with false by (symmetry; apply N.ltb_ge; exact H).
  destruct (batch_iterate r) as [ops st]. reflexivity.
Qed.
