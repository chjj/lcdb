(* VarintProofs.v -- proofs about Varint.v: varint32/64 write/read round trips,
   sizes, well-formedness, reader consumption, length-prefixed slices. *)
From LCDB Require Import Base Varint BaseProofs.
From Coq Require Import ZifyNat ZifyN.
Local Open Scope N_scope.

Lemma two32_pow : two32 = 2 ^ 32.
Proof. reflexivity. Qed.
Lemma two64_pow : two64 = 2 ^ 64.
Proof. reflexivity. Qed.

(* 128^k with a nat exponent: convenient for fuel inductions. *)
Fixpoint pow128 (k : nat) : N :=
  match k with O => 1 | S k' => 128 * pow128 k' end.

Lemma pow128_pos : forall k, 0 < pow128 k.
Proof. induction k as [|k IH]; cbn [pow128]; lia. Qed.

Lemma pow128_5 : pow128 5 = 34359738368.
Proof. reflexivity. Qed.
Lemma pow128_10 : pow128 10 = 1180591620717411303424.
Proof. reflexivity. Qed.

Lemma varint_write_fuel_small : forall f x, x < 128 -> varint_write_fuel f x = [x].
Proof.
  intros [|f] x H; cbn [varint_write_fuel].
  - rewrite N.mod_small by exact H. reflexivity.
  - apply N.ltb_lt in H. rewrite H. reflexivity.
Qed.

Lemma varint_write_fuel_mono : forall f f' x,
  x < pow128 (S f) -> (f <= f')%nat ->
  varint_write_fuel f x = varint_write_fuel f' x.
Proof.
  induction f as [|f IH]; intros f' x Hx Hle.
  - cbn [pow128] in Hx. rewrite !varint_write_fuel_small by lia. reflexivity.
  - destruct f' as [|f']; [lia|].
    cbn [varint_write_fuel].
    destruct (x <? 128); [reflexivity|].
    f_equal. apply IH; [|lia]. apply N.div_lt_upper_bound; [discriminate|exact Hx].
Qed.

Lemma div_ltb : forall x a b, a <> 0 -> (x / a <? b) = (x <? a * b).
Proof.
  intros x a b Ha. destruct (x <? a * b) eqn:E.
  - apply N.ltb_lt in E. apply N.ltb_lt, N.div_lt_upper_bound; assumption.
  - apply N.ltb_ge in E. apply N.ltb_ge, N.div_le_lower_bound; assumption.
Qed.

(* The loop tests x/128/../128 < 128 where the C case split tests x < 128^k:
   bring the loop's output to the form of the case split. *)
Lemma varint32_write_fuel4 : forall x,
  x < 4294967296 -> varint32_write x = varint_write_fuel 4 x.
Proof.
  intros x Hx. unfold varint32_write. cbn [varint_write_fuel].
  rewrite !N.div_div, !div_ltb by discriminate.
  change (128 * 128) with 16384. change (16384 * 128) with 2097152.
  change (2097152 * 128) with 268435456.
  rewrite (N.mod_small (x / 268435456) 128) by (apply N.div_lt_upper_bound; lia).
  destruct (x <? 128); [reflexivity|].
  destruct (x <? 16384); [reflexivity|].
  destruct (x <? 2097152); [reflexivity|].
  destruct (x <? 268435456); reflexivity.
Qed.

Lemma varint32_write_eq_varint64 : forall x,
  x < 4294967296 -> varint32_write x = varint64_write x.
Proof.
  intros x Hx. rewrite varint32_write_fuel4 by exact Hx.
  unfold varint64_write. apply varint_write_fuel_mono; [|lia].
  rewrite pow128_5. lia.
Qed.

Lemma varint32_write_length_gen : forall x,
  nlen (varint32_write x) = varint32_size x.
Proof.
  intros x. unfold varint32_write, varint32_size.
  destruct (x <? 128); [reflexivity|].
  destruct (x <? 16384); [reflexivity|].
  destruct (x <? 2097152); [reflexivity|].
  destruct (x <? 268435456); reflexivity.
Qed.

Lemma varint32_size_bound : forall x, 1 <= varint32_size x <= 5.
Proof.
  intros x. unfold varint32_size.
  destruct (x <? 128); [lia|].
  destruct (x <? 16384); [lia|].
  destruct (x <? 2097152); [lia|].
  destruct (x <? 268435456); lia.
Qed.

Lemma varint32_write_length : forall x,
  x < 4294967296 -> nlen (varint32_write x) = varint32_size x.
Proof. intros x _. apply varint32_write_length_gen. Qed.

Lemma varint_write_fuel_length : forall f x,
  nlen (varint_write_fuel f x) = varint64_size_fuel f x.
Proof.
  induction f as [|f IH]; intros x; cbn [varint_write_fuel varint64_size_fuel].
  - reflexivity.
  - destruct (x <? 128); [reflexivity|].
    rewrite nlen_cons, IH. reflexivity.
Qed.

Lemma varint64_size_fuel_bound : forall f x,
  1 <= varint64_size_fuel f x <= N.of_nat (S f).
Proof.
  induction f as [|f IH]; intros x; cbn [varint64_size_fuel].
  - lia.
  - destruct (x <? 128); [lia|]. specialize (IH (x / 128)). lia.
Qed.

Lemma varint64_write_length_gen : forall x,
  nlen (varint64_write x) = varint64_size x.
Proof. intros x. apply varint_write_fuel_length. Qed.

Lemma varint64_write_length : forall x,
  x < 18446744073709551616 -> nlen (varint64_write x) = varint64_size x.
Proof. intros x _. apply varint64_write_length_gen. Qed.

Lemma varint64_write_fuel9 : forall x,
  x < 18446744073709551616 -> varint64_write x = varint_write_fuel 9 x.
Proof.
  intros x Hx. unfold varint64_write. symmetry.
  apply varint_write_fuel_mono; [|lia]. rewrite pow128_10. lia.
Qed.

Lemma varint64_write_length_le : forall x,
  x < 18446744073709551616 -> 1 <= nlen (varint64_write x) <= 10.
Proof.
  intros x Hx. rewrite varint64_write_fuel9 by exact Hx.
  rewrite varint_write_fuel_length.
  pose proof (varint64_size_fuel_bound 9 x) as Hb. lia.
Qed.

Lemma varint64_size_le : forall x,
  x < 18446744073709551616 -> 1 <= varint64_size x <= 10.
Proof.
  intros x Hx. rewrite <- varint64_write_length_gen.
  apply varint64_write_length_le. exact Hx.
Qed.

Lemma varint32_size_eq_varint64 : forall x,
  x < 4294967296 -> varint32_size x = varint64_size x.
Proof.
  intros x Hx. rewrite <- varint32_write_length_gen, <- varint64_write_length_gen.
  rewrite varint32_write_eq_varint64 by exact Hx. reflexivity.
Qed.

Lemma varint_write_fuel_wf : forall f x, wf_bytes (varint_write_fuel f x) = true.
Proof.
  induction f as [|f IH]; intros x; cbn [varint_write_fuel].
  - apply wf_bytes_cons. split; [lia|reflexivity].
  - destruct (x <? 128) eqn:Hlt.
    + apply N.ltb_lt in Hlt. apply wf_bytes_cons. split; [lia|reflexivity].
    + apply wf_bytes_cons. split; [lia|apply IH].
Qed.

Lemma varint64_write_wf_gen : forall x, wf_bytes (varint64_write x) = true.
Proof. intros x. apply varint_write_fuel_wf. Qed.

Lemma varint64_write_wf : forall x,
  x < 18446744073709551616 -> wf_bytes (varint64_write x) = true.
Proof. intros x _. apply varint64_write_wf_gen. Qed.

Lemma varint32_write_wf : forall x,
  x < 4294967296 -> wf_bytes (varint32_write x) = true.
Proof.
  intros x Hx. rewrite varint32_write_eq_varint64 by exact Hx.
  apply varint64_write_wf_gen.
Qed.

Lemma varint_read_loop_cons : forall k width mult acc b rest,
  varint_read_loop (S k) width mult acc (b :: rest) =
  if 128 <=? b
  then varint_read_loop k width (mult * 128)
         (acc + ((b mod 128) * mult) mod width) rest
  else Some (acc + (b * mult) mod width, rest).
Proof. reflexivity. Qed.

Lemma varint_read_loop_last : forall k width mult acc x rest,
  x < 128 -> x * mult < width ->
  varint_read_loop (S k) width mult acc (x :: rest) = Some (acc + x * mult, rest).
Proof.
  intros k width mult acc x rest Hx Hw. rewrite varint_read_loop_cons.
  apply N.leb_gt in Hx. rewrite Hx, N.mod_small by exact Hw. reflexivity.
Qed.

(* The low digit with its continuation bit, and the rest one position up. *)
Lemma varint_digit : forall x mult width,
  x * mult < width ->
  x / 128 * (mult * 128) <= x * mult /\
  ((x mod 128 + 128) mod 128 * mult) mod width + x / 128 * (mult * 128) = x * mult.
Proof.
  intros x mult width Hw.
  assert (Hx : x * mult = x mod 128 * mult + x / 128 * (mult * 128)).
  { rewrite (N.div_mod x 128) at 1 by discriminate. ring. }
  destruct (digit_step 128 (x mod 128) 1) as [E _]; [apply N.mod_lt; discriminate|].
  change (x mod 128 + 128) with (x mod 128 + 128 * 1). rewrite E.
  split; [rewrite Hx; apply N.le_add_l|].
  rewrite N.mod_small; [symmetry; exact Hx|].
  apply N.le_lt_trans with (2 := Hw). rewrite Hx. apply N.le_add_r.
Qed.

Lemma varint_read_loop_write : forall k f width mult acc x rest,
  x < pow128 (S k) -> (k <= f)%nat -> x * mult < width ->
  varint_read_loop (S k) width mult acc (varint_write_fuel f x ++ rest)
  = Some (acc + x * mult, rest).
Proof.
  induction k as [|k IH]; intros f width mult acc x rest Hx Hkf Hw;
    destruct (N.lt_ge_cases x 128) as [Hlt|Hge].
  - rewrite varint_write_fuel_small by exact Hlt. apply varint_read_loop_last; assumption.
  - cbn [pow128] in Hx. lia.
  - rewrite varint_write_fuel_small by exact Hlt. apply varint_read_loop_last; assumption.
  - destruct f as [|f]; [lia|].
    destruct (varint_digit x mult width Hw) as [Hhi Hsum].
    cbn [varint_write_fuel]. apply N.ltb_ge in Hge. rewrite Hge.
    rewrite <- app_comm_cons, varint_read_loop_cons.
    replace (128 <=? x mod 128 + 128) with true by (symmetry; apply N.leb_le; clear; lia).
    rewrite IH.
    + rewrite <- N.add_assoc, Hsum. reflexivity.
    + apply N.div_lt_upper_bound; [discriminate|exact Hx].
    + clear - Hkf. lia.
    + exact (N.le_lt_trans _ _ _ Hhi Hw).
Qed.

Theorem varint32_read_write : forall x rest,
  x < 4294967296 -> varint32_read (varint32_write x ++ rest) = Some (x, rest).
Proof.
  intros x rest Hx. rewrite varint32_write_fuel4 by exact Hx.
  unfold varint32_read.
  rewrite (varint_read_loop_write 4 4 two32 1 0 x rest).
  - f_equal. f_equal. lia.
  - rewrite pow128_5. lia.
  - lia.
  - unfold two32. lia.
Qed.

Theorem varint64_read_write : forall x rest,
  x < 18446744073709551616 -> varint64_read (varint64_write x ++ rest) = Some (x, rest).
Proof.
  intros x rest Hx. unfold varint64_read, varint64_write.
  rewrite (varint_read_loop_write 9 10 two64 1 0 x rest).
  - f_equal. f_equal. lia.
  - rewrite pow128_10. lia.
  - lia.
  - unfold two64. lia.
Qed.

Lemma varint32_write_small : forall x, x < 128 -> varint32_write x = [x].
Proof. intros. unfold varint32_write. replace (x <? 128) with true by (symmetry; apply N.ltb_lt; lia). reflexivity. Qed.

Lemma varint32_read_small : forall a l, a < 128 -> varint32_read (a :: l) = Some (a, l).
Proof.
  intros a l Ha. rewrite <- (varint32_read_write a l) by lia.
  rewrite varint32_write_small by exact Ha. reflexivity.
Qed.

Lemma varint_read_loop_consumes : forall k width mult acc l v rest,
  varint_read_loop k width mult acc l = Some (v, rest) ->
  exists pre, l = pre ++ rest /\ (1 <= length pre <= k)%nat.
Proof.
  induction k as [|k IH]; intros width mult acc l v rest Hrd;
    cbn [varint_read_loop] in Hrd; [discriminate Hrd|].
  destruct l as [|b l']; [discriminate Hrd|].
  destruct (128 <=? b) eqn:Hb.
  - apply IH in Hrd. destruct Hrd as [pre [Heq Hlen]].
    exists (b :: pre). split.
    + rewrite Heq. reflexivity.
    + cbn [length]. lia.
  - injection Hrd as Hv Hrest. subst l'.
    exists [b]. split; [reflexivity|]. cbn [length]. lia.
Qed.

(* the value when the last byte [b] is read: what was accumulated stays below [mult], and the
   truncated contribution of [b] is a multiple of [mult] below the width [mult * m] *)
Lemma last_contrib_bound : forall acc b mult m,
  0 < m -> acc < mult ->
  acc + (b * mult) mod (mult * m) < mult * m.
Proof.
  intros acc b mult m Hm Hacc.
  rewrite (N.mul_comm b mult), N.mul_mod_distr_l by lia.
  apply digit_lt; [exact Hacc|apply N.mod_lt; lia].
Qed.

(* [width] = 128^k * c with [k] iterations to go: 2^32 = 128^4 * 16 and
   2^64 = 128^9 * 2 for the two readers. *)
Lemma varint_read_loop_bound : forall k width mult acc c l v rest,
  0 < c -> width = mult * (pow128 k * c) -> acc < mult ->
  varint_read_loop (S k) width mult acc l = Some (v, rest) ->
  v < width.
Proof.
  induction k as [|k IH]; intros width mult acc c l v rest Hc Hw Hacc Hrd;
    cbn [varint_read_loop] in Hrd;
    (destruct l as [|b l']; [discriminate Hrd|]);
    destruct (128 <=? b) eqn:Hb.
  - discriminate Hrd.
  - injection Hrd as Hv Hrest. subst v. rewrite Hw.
    apply last_contrib_bound; try assumption.
    pose proof (pow128_pos 0) as Hp. apply N.mul_pos_pos; assumption.
  - eapply (IH width (mult * 128) _ c); [exact Hc | | | exact Hrd].
    + rewrite Hw. cbn [pow128]. ring.
    + assert (Hwpos : width <> 0).
      { rewrite Hw. pose proof (pow128_pos (S k)).
        apply N.neq_mul_0. split; [lia|]. apply N.neq_mul_0. split; lia. }
      eapply N.le_lt_trans; [apply N.add_le_mono_l, N.mod_le, Hwpos|].
      rewrite (N.mul_comm _ mult). apply digit_lt; [exact Hacc|apply N.mod_lt; discriminate].
  - injection Hrd as Hv Hrest. subst v. rewrite Hw.
    apply last_contrib_bound; try assumption.
    pose proof (pow128_pos (S k)) as Hp. apply N.mul_pos_pos; assumption.
Qed.

Theorem varint32_read_spec_gen : forall l v rest,
  varint32_read l = Some (v, rest) ->
  v < 4294967296 /\
  exists pre, l = pre ++ rest /\ (1 <= length pre <= 5)%nat.
Proof.
  intros l v rest Hrd. unfold varint32_read in Hrd. split.
  - change 4294967296 with two32.
    apply (varint_read_loop_bound 4 two32 1 0 16 l v rest); try lia.
    + reflexivity.
    + exact Hrd.
  - eapply varint_read_loop_consumes. exact Hrd.
Qed.

Theorem varint64_read_spec_gen : forall l v rest,
  varint64_read l = Some (v, rest) ->
  v < 18446744073709551616 /\
  exists pre, l = pre ++ rest /\ (1 <= length pre <= 10)%nat.
Proof.
  intros l v rest Hrd. unfold varint64_read in Hrd. split.
  - change 18446744073709551616 with two64.
    apply (varint_read_loop_bound 9 two64 1 0 2 l v rest); try lia.
    + reflexivity.
    + exact Hrd.
  - eapply varint_read_loop_consumes. exact Hrd.
Qed.

(* The [_gen] forms under a [wf_bytes] premise that the proofs discard; Properties_C18.v
   states the [_gen] forms. *)
Theorem varint32_read_spec : forall l v rest,
  wf_bytes l = true ->
  varint32_read l = Some (v, rest) ->
  v < 4294967296 /\
  exists pre, l = pre ++ rest /\ (1 <= length pre <= 5)%nat.
Proof. intros l v rest _ Hrd. apply varint32_read_spec_gen. exact Hrd. Qed.

Theorem varint64_read_spec : forall l v rest,
  wf_bytes l = true ->
  varint64_read l = Some (v, rest) ->
  v < 18446744073709551616 /\
  exists pre, l = pre ++ rest /\ (1 <= length pre <= 10)%nat.
Proof. intros l v rest _ Hrd. apply varint64_read_spec_gen. exact Hrd. Qed.

Lemma varint32_read_rest_wf : forall l v rest,
  wf_bytes l = true -> varint32_read l = Some (v, rest) -> wf_bytes rest = true.
Proof.
  intros l v rest Hwf Hrd. apply varint32_read_spec_gen in Hrd.
  destruct Hrd as [_ [pre [Heq _]]]. subst l.
  apply wf_bytes_app in Hwf. apply Hwf.
Qed.

Lemma varint64_read_rest_wf : forall l v rest,
  wf_bytes l = true -> varint64_read l = Some (v, rest) -> wf_bytes rest = true.
Proof.
  intros l v rest Hwf Hrd. apply varint64_read_spec_gen in Hrd.
  destruct Hrd as [_ [pre [Heq _]]]. subst l.
  apply wf_bytes_app in Hwf. apply Hwf.
Qed.

Theorem slice_read_write : forall s rest,
  nlen s < 4294967296 -> slice_read (slice_write s ++ rest) = Some (s, rest).
Proof.
  intros s rest Hlen. unfold slice_read, slice_write.
  rewrite <- app_assoc.
  rewrite varint32_read_write by exact Hlen.
  rewrite nlen_app. replace (nlen s + nlen rest <? nlen s) with false by (symmetry; apply N.ltb_ge; lia).
  rewrite take_n_nlen_app, drop_n_nlen_app. reflexivity.
Qed.

Lemma slice_write_wf : forall s, nlen s < 4294967296 -> wf_bytes s = true -> wf_bytes (slice_write s) = true.
Proof.
  intros s0 Hl Hs. unfold slice_write. rewrite wf_bytes_app_eq, Hs, varint32_write_wf by exact Hl. reflexivity.
Qed.

Corollary varint32_read_write_pow : forall x rest,
  x < 2 ^ 32 -> varint32_read (varint32_write x ++ rest) = Some (x, rest).
Proof. exact varint32_read_write. Qed.

Corollary varint64_read_write_pow : forall x rest,
  x < 2 ^ 64 -> varint64_read (varint64_write x ++ rest) = Some (x, rest).
Proof. exact varint64_read_write. Qed.

Corollary slice_read_write_pow : forall s rest,
  nlen s < 2 ^ 32 -> slice_read (slice_write s ++ rest) = Some (s, rest).
Proof. exact slice_read_write. Qed.

Print Assumptions varint32_read_write.
Print Assumptions varint64_read_write.
Print Assumptions varint64_read_spec.
Print Assumptions slice_read_write.
