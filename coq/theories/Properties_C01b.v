(* Properties_C01b.v -- C01, the selection side: lcdb's OWN compaction input selection
   (Policy.v: exact replicas of ldb_versions_compact_range, ldb_versions_pick_compaction,
   ldb_versions_setup_other_inputs, add_boundary_inputs, ldb_version_get_overlapping_inputs,
   ldb_version_pick_level_for_memtable_output; tied to the code by K2: every compaction observed
   on the real library must be among the replica's predictions, checks/k2lib.py policy_inputs)
   always satisfies the input-side guards under which the model's compaction / move / flush
   steps are proved correct (EngineSteps.step_preserves_inv, step_preserves_views; Properties_C01
   states the consequence for whole runs).  The general theorems are in PolicyProofs.v (every
   selection is SelOK; a SelOK selection is an enabled step), PolicyBoundary.v, PolicyOverlap.v,
   PolicyFlush.v; here they are put together for the selections lcdb makes. *)
From LCDB Require Import Base Engine EngineSpec Policy PolicyOverlap PolicyBoundary PolicyFlush PolicyProofs.
Local Open Scope N_scope.

(* the restart loop of get_overlapping_inputs and the while(search) loop of
   add_boundary_inputs terminate within the fuel of the replicas: more fuel changes nothing *)
Theorem C01_overlapping_inputs_fuel : forall ucmp, total_order ucmp ->
  forall lvl0 fs ub ue k, Forall (EngineStepsInv.FOK ucmp) fs ->
  ov_loop ucmp (ov_fuel fs + k) lvl0 fs ub ue = overlapping_inputs ucmp lvl0 fs ub ue.
Proof. intros ucmp TO. exact (@overlapping_inputs_fuel ucmp TO). Qed.
Print Assumptions C01_overlapping_inputs_fuel.

Theorem C01_boundary_loop_fuel : forall ucmp, total_order ucmp ->
  forall fs key k, Forall (EngineStepsInv.FOK ucmp) fs ->
  boundary_loop ucmp (S (length fs) + k) fs key = boundary_loop ucmp (S (length fs)) fs key.
Proof. intros ucmp TO. exact (@boundary_loop_fuel ucmp TO). Qed.
Print Assumptions C01_boundary_loop_fuel.

(* every non-empty selection of a manual compaction (any range, any truncation point [keep],
   expanded or not) and of an automatic compaction (any seed file, expanded or not) satisfies
   the input-side conjuncts of Engine.compaction_guard *)
Theorem C01_policy_satisfies_guards : forall ucmp, total_order ucmp -> forall s L,
  inv_b ucmp s = true -> (S L < NUM_LEVELS)%nat ->
  let guards (c : compaction) :=
    let lv := levels s in
    let i0 := fst (compaction_inputs s c) in
    let merged := compaction_merged ucmp s c in
    all_in (c_in0 c) (level_files lv (c_level c)) = true /\
    all_in (c_in1 c) (level_files lv (S (c_level c))) = true /\
    newer_outside ucmp (level_entries (remove_files (level_files lv (c_level c)) (c_in0 c))) (level_entries i0) = true /\
    forallb (file_disjoint_from ucmp merged) (remove_files (level_files lv (S (c_level c))) (c_in1 c)) = true /\
    newer_outside ucmp (level_entries (remove_files (level_files lv (S (c_level c))) (c_in1 c))) merged = true in
  (forall b e keep expand cuts outs nf,
     fst (manual_inputs ucmp s L b e keep expand) <> [] ->
     guards (to_compaction L (manual_inputs ucmp s L b e keep expand) cuts outs nf)) /\
  (forall seed expand cuts outs nf,
     fst (picked_inputs ucmp s L seed expand) <> [] ->
     guards (to_compaction L (picked_inputs ucmp s L seed expand) cuts outs nf)).
Proof. intros ucmp TO. exact (@policy_satisfies_guards ucmp TO). Qed.
Print Assumptions C01_policy_satisfies_guards.

(* with fresh, increasing output numbers, positive cuts and as many output numbers as output
   runs, the selected compaction is an enabled step of the model *)
Theorem C01_policy_step_exists : forall ucmp, total_order ucmp -> forall s L,
  inv_b ucmp s = true -> (S L < NUM_LEVELS)%nat ->
  forall sel, (exists b e keep expand, sel = manual_inputs ucmp s L b e keep expand) \/
              (exists seed expand, sel = picked_inputs ucmp s L seed expand) ->
  fst sel <> [] ->
  forall cuts outs nf,
  let c := to_compaction L sel cuts outs nf in
  forallb (fresh_num s) (c_outs c) && strictly_increasing (c_outs c)
    && forallb (fun n => n <? c_nf c) (c_outs c) && (next_file s <=? c_nf c)
    && forallb (fun n => (0 <? n)%nat) (c_cuts c) = true ->
  length outs = length (split_at cuts (compaction_kept ucmp s c)) ->
  compaction_guard ucmp s c = true /\ do_compact ucmp s c <> None.
Proof.
  intros ucmp TO s L HI HL [i0 i1] Hsel Hne cuts outs nf.
  apply (SelOK_compact ucmp); auto. exact (selected_SelOK ucmp s L _ HI Hsel).
Qed.
Print Assumptions C01_policy_step_exists.

(* ... and that step keeps the invariant and every readable view *)
Theorem C01_policy_compaction_correct : forall ucmp, total_order ucmp -> forall s L,
  inv_b ucmp s = true -> (S L < NUM_LEVELS)%nat ->
  forall sel, (exists b e keep expand, sel = manual_inputs ucmp s L b e keep expand) \/
              (exists seed expand, sel = picked_inputs ucmp s L seed expand) ->
  fst sel <> [] ->
  forall cuts outs nf,
  let c := to_compaction L sel cuts outs nf in
  output_guards s c = true ->
  length outs = length (split_at cuts (compaction_kept ucmp s c)) ->
  exists s', step ucmp s (OCompact c) = Some s' /\ inv_b ucmp s' = true /\
             forall k q, readable s q -> view ucmp s' k q = view ucmp s k q.
Proof.
  intros ucmp TO s L HI HL sel Hsel Hne cuts outs nf c HO Hlen.
  apply (enabled_step_correct ucmp); cbn; auto.
  apply (C01_policy_step_exists ucmp TO s L HI HL sel Hsel Hne cuts outs nf HO Hlen).
Qed.
Print Assumptions C01_policy_compaction_correct.

(* a selection of one level-L file and no level-(L+1) input may be moved (of
   ldb_compaction_is_trivial_move only this shape is used, not the grandparent test) *)
Theorem C01_policy_trivial_move : forall ucmp, total_order ucmp -> forall s L,
  inv_b ucmp s = true -> (S L < NUM_LEVELS)%nat ->
  forall sel, (exists b e keep expand, sel = manual_inputs ucmp s L b e keep expand) \/
              (exists seed expand, sel = picked_inputs ucmp s L seed expand) ->
  forall f gp, sel = ([f], []) -> is_trivial_move sel gp = true ->
  move_guard ucmp s L (fnum f) = true /\ do_move ucmp s L (fnum f) <> None.
Proof.
  intros ucmp TO s L HI HL sel Hsel f gp E _. pose proof (selected_SelOK ucmp s L sel HI Hsel) as HS. rewrite E in HS.
  exact (SelOK_move ucmp s (proj1 (EngineStepsInv.inv_b_SInv ucmp s) HI) L f HL HS).
Qed.
Print Assumptions C01_policy_trivial_move.

(* the level ldb_version_pick_level_for_memtable_output chooses for a flushed memtable
   (any outcome [gp] of the grandparent-bytes test) satisfies the flush guard *)
Theorem C01_flush_policy_ok : forall ucmp, total_order ucmp -> forall s e0 r gp,
  inv_b ucmp s = true -> imm s = Some (e0 :: r) ->
  flush_level_ok ucmp (levels s) (e0 :: r)
    (pick_level_for_memtable_output ucmp (levels s) (ek e0) (ek (last r e0)) gp) = true.
Proof. intros ucmp TO s e0 r gp HI _. exact (@flush_policy_ok ucmp TO s e0 r gp HI). Qed.
Print Assumptions C01_flush_policy_ok.
