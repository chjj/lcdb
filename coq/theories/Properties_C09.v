(* Properties_C09.v -- C09 "no deadlock, lost wake-up or stuck call under any schedule", for the concurrency model Lts.v
   (writer queue with per-writer condition variables and group commit, make_room_for_write stalls, background call,
   manual compaction, flush request, close).  Model-level statements under the atomicity assumptions (A1)-(A6) of Lts.v;
   the tie to the implementation is checks/c09.py (watchdog over sampled schedules of the real pthread build). *)
From Coq Require Import List NArith Bool Arith.
Import ListNotations.
From LCDB Require Import Lts LtsProofs.

(* Deadlock freedom: in every reachable state in which some client thread is inside a call (or the background thread has
   work), a step is enabled that is neither the start of a new call nor a spurious wake-up. *)
Theorem C09_no_deadlock : forall th s, reachable th s -> busy s ->
  exists l, progress_label l = true /\ enabled s l.
Proof. exact no_deadlock. Qed.
Print Assumptions C09_no_deadlock.

(* Every thread in a wait set has a pending waker: a writer waits on its own condition variable only while it is queued
   and not the head (a done writer is never waiting); a thread waits on background_work_finished only while a background
   call is scheduled or running. *)
Theorem C09_waker_obligation : forall th s, reachable th s -> waker_obligation s.
Proof. exact waker_invariant. Qed.
Print Assumptions C09_waker_obligation.

(* ... and the wakers deliver: every background call ends with a broadcast after which nobody waits for background work, *)
Theorem C09_background_call_ends_with_broadcast : forall s e s', lts_step s (BgFinish e) = Some s' ->
  forall t, waits_bg (l_pc s' t) = false.
Proof. exact bg_call_ends_with_broadcast. Qed.
Print Assumptions C09_background_call_ends_with_broadcast.

(* recording a background error broadcasts too, *)
Theorem C09_background_error_is_broadcast : forall s s', lts_step s BgFail = Some s' ->
  forall t, waits_bg (l_pc s' t) = false.
Proof. exact bg_error_is_broadcast. Qed.
Print Assumptions C09_background_error_is_broadcast.

(* and after a publish step a thread that is no longer in the queue is neither waiting on its condition variable nor
   re-checking the queue.  (The statement says no more than that; it holds after any step, LtsProofs.outside_queue_awake.) *)
Theorem C09_publish_wakes_group : forall th s t s', reachable th s -> lts_step s (WLeaderPublish t) = Some s' ->
  forall x, in_queue (l_queue s) x = true -> in_queue (l_queue s') x = false -> l_pc s' x <> PWaitCv /\ l_pc s' x <> PCheck.
Proof. exact publish_wakes_group. Qed.
Print Assumptions C09_publish_wakes_group.
