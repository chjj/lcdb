(* Properties_C13b.v -- theorems for property C13, collector part: the model of
   ldb_remove_obsolete_files (Gc.v) unlinks exactly the names nobody needs.
   The general facts (gc_exact, gc_parsed, gc_run_exact) and the proofs about tables are in
   GcProofs.v and GcEngine.v; what they say of each kind of name is read off here. *)
From Coq Require Import List NArith.
From LCDB Require Import Base Filename Engine EngineSpec EngineTop Gc GcProofs GcEngine.
Import ListNotations.
Local Open Scope N_scope.

(* the keep decision is `needed`, on every name *)
Theorem C13_keep_iff_needed : forall st name, gc_keeps st name = true <-> needed st name.
Proof. exact gc_keeps_needed. Qed.
Print Assumptions C13_keep_iff_needed.

(* exactly: survivors are the needed entries of the listing, unlinked are the others *)
Theorem C13_collection_exact : forall st dir name,
  (In name (gc st dir) <-> In name dir /\ needed st name) /\
  (In name (gc_removed st dir) <-> In name dir /\ ~ needed st name).
Proof. exact gc_exact. Qed.
Print Assumptions C13_collection_exact.

Theorem C13_collection_partitions : forall st dir name,
  In name dir -> (In name (gc st dir) /\ ~ In name (gc_removed st dir)) \/
                 (~ In name (gc st dir) /\ In name (gc_removed st dir)).
Proof.
  intros st dir name Hin.
  destruct (gc_exact st dir name) as [H1 H2].
  destruct (gc_keeps st name) eqn:E.
  - left. apply gc_keeps_needed in E. split; [apply H1; tauto|]. intros H. apply H2 in H. tauto.
  - right. apply gc_removes_unneeded in E. split; [|apply H2; tauto]. intros H. apply H1 in H. tauto.
Qed.
Print Assumptions C13_collection_partitions.

Theorem C13_collection_idempotent : forall st dir,
  gc st (gc st dir) = gc st dir /\ gc_removed st (gc st dir) = [].
Proof. exact gc_idempotent. Qed.
Print Assumptions C13_collection_idempotent.

(* tables: kept while ANY referenced version (iterator, snapshot read, current) lists them ... *)
Theorem C13_pinned_tables_kept : forall st pending pinned v n dir,
  g_live st = live_of pending pinned -> In v pinned -> In n v -> n < U64 ->
  (In (table_name n) dir -> In (table_name n) (gc st dir)) /\
  (In (sstable_name n) dir -> In (sstable_name n) (gc st dir)).
Proof. exact gc_keeps_pinned_tables. Qed.
Print Assumptions C13_pinned_tables_kept.

(* ... or while a running flush / compaction is still writing them ... *)
Theorem C13_pending_outputs_kept : forall st pending pinned n dir,
  g_live st = live_of pending pinned -> In n pending -> n < U64 ->
  (In (table_name n) dir -> In (table_name n) (gc st dir)) /\
  (In (temp_name n) dir -> In (temp_name n) (gc st dir)).
Proof. exact gc_keeps_pending_outputs. Qed.
Print Assumptions C13_pending_outputs_kept.

(* ... and unlinked as soon as nobody does *)
Theorem C13_unreferenced_tables_removed : forall st pending pinned n dir,
  g_live st = live_of pending pinned -> ~ In n pending ->
  (forall v, In v pinned -> ~ In n v) -> n < U64 ->
  ~ In (table_name n) (gc st dir) /\ ~ In (sstable_name n) (gc st dir) /\
  (In (table_name n) dir -> In (table_name n) (gc_removed st dir)).
Proof. exact gc_removes_unreferenced_tables. Qed.
Print Assumptions C13_unreferenced_tables_removed.

Theorem C13_logs_kept_from_log_number : forall st n dir,
  n < U64 -> g_log st <= n \/ n = g_prevlog st ->
  In (log_name n) dir -> In (log_name n) (gc st dir).
Proof. intros st n dir Hlt. apply (gc_parsed st dir _ _ _ (FilenameProofs.parse_log_name n Hlt)). Qed.
Print Assumptions C13_logs_kept_from_log_number.

Theorem C13_old_logs_removed : forall st n dir,
  n < U64 -> n < g_log st -> n <> g_prevlog st ->
  ~ In (log_name n) (gc st dir) /\ (In (log_name n) dir -> In (log_name n) (gc_removed st dir)).
Proof.
  intros st n dir Hlt Hold Hprev. apply (gc_parsed st dir _ _ _ (FilenameProofs.parse_log_name n Hlt)).
  intros [H|H]; [exact (proj1 (N.lt_nge _ _) Hold H)|exact (Hprev H)].
Qed.
Print Assumptions C13_old_logs_removed.

Theorem C13_manifest_kept : forall st n dir,
  n < U64 -> g_manifest st <= n -> In (desc_name n) dir -> In (desc_name n) (gc st dir).
Proof. intros st n dir Hlt. apply (gc_parsed st dir _ _ _ (FilenameProofs.parse_desc_name n Hlt)). Qed.
Print Assumptions C13_manifest_kept.

Theorem C13_old_manifests_removed : forall st n dir,
  n < U64 -> n < g_manifest st -> ~ In (desc_name n) (gc st dir).
Proof.
  intros st n dir Hlt Hold. apply (gc_parsed st dir _ _ _ (FilenameProofs.parse_desc_name n Hlt)).
  exact (proj1 (N.lt_nge _ _) Hold).
Qed.
Print Assumptions C13_old_manifests_removed.

Theorem C13_fixed_names_kept : forall st dir name,
  In name [current_name; lock_name; info_name; oldinfo_name] -> In name dir -> In name (gc st dir).
Proof.
  intros st dir name [H|[H|[H|[H|[]]]]]; subst name.
  - exact (proj1 (gc_parsed st dir _ _ _ FilenameProofs.parse_current_name) I).
  - exact (proj1 (gc_parsed st dir _ _ _ FilenameProofs.parse_lock_name) I).
  - exact (proj1 (gc_parsed st dir _ _ _ FilenameProofs.parse_info_name) I).
  - exact (proj1 (gc_parsed st dir _ _ _ FilenameProofs.parse_oldinfo_name) I).
Qed.
Print Assumptions C13_fixed_names_kept.

Theorem C13_foreign_files_untouched : forall st dir name,
  parse_filename name = None -> In name dir -> In name (gc st dir).
Proof.
  intros st dir name Hp Hin. apply (gc_exact st dir). split; [exact Hin|].
  unfold needed. rewrite Hp. exact I.
Qed.
Print Assumptions C13_foreign_files_untouched.

(* pinning more never removes more *)
Theorem C13_collection_monotone : forall st st' dir name,
  (forall n, In n (g_live st) -> In n (g_live st')) ->
  g_log st' <= g_log st -> g_prevlog st' = g_prevlog st -> g_manifest st' <= g_manifest st ->
  In name (gc st dir) -> In name (gc st' dir).
Proof. exact gc_monotone. Qed.
Print Assumptions C13_collection_monotone.

(* any number of collections: needed throughout => still there; gone => some collection saw it unneeded *)
Theorem C13_always_needed_survives : forall sts dir name,
  In name dir -> (forall st, In st sts -> needed st name) -> In name (gc_run sts dir).
Proof. intros sts dir name Hin Hn. apply gc_run_exact. split; assumption. Qed.
Print Assumptions C13_always_needed_survives.

Theorem C13_removed_only_when_unneeded : forall sts dir name,
  In name dir -> ~ In name (gc_run sts dir) -> exists st, In st sts /\ ~ needed st name.
Proof.
  intros sts dir name Hin Hgone.
  destruct (Forall_Exists_dec (fun st => needed st name)) with (l := sts) as [H|H].
  - intros st. destruct (gc_keeps st name) eqn:E;
      [left; apply gc_keeps_needed|right; apply gc_removes_unneeded]; exact E.
  - destruct Hgone. apply gc_run_exact. split; [exact Hin|apply Forall_forall; exact H].
  - apply Exists_exists in H. exact H.
Qed.
Print Assumptions C13_removed_only_when_unneeded.

(* on the engine model: tables of a referenced reachable version survive; a dropped table goes *)
Theorem C13_referenced_version_survives : forall ucmp, total_order ucmp ->
  forall ops s st pending others dir f,
  run ucmp init_state ops = Some s ->
  next_file s <= U64 ->
  g_live st = live_of pending (version_numbers s :: others) ->
  In f (concat (levels s)) ->
  In (table_name (fnum f)) dir -> In (table_name (fnum f)) (gc st dir).
Proof. exact gc_keeps_referenced_version. Qed.
Print Assumptions C13_referenced_version_survives.

Theorem C13_dropped_table_removed : forall s s' st dir n,
  ~ In n (version_numbers s') -> In n (version_numbers s) -> n < U64 ->
  g_live st = live_of [] [version_numbers s'] ->
  In (table_name n) dir ->
  In (table_name n) (gc_removed st dir) /\ ~ In (table_name n) (gc st dir).
Proof. intros s s' st dir n Hnot _. exact (gc_removes_dropped_table s' st dir n Hnot). Qed.
Print Assumptions C13_dropped_table_removed.
