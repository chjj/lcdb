(* Comparators.v -- a user comparator with a NON-TRIVIAL equivalence (ASCII case-insensitive
   bytewise order): different byte strings name the same key.  lcdb accepts any
   ldb_comparator_t that is a total order; the engine theorems are stated for every
   [total_order ucmp], and this instance makes the K2 tie exercise code paths where
   "same user key" must be decided by the comparator and not by byte equality. *)
From LCDB Require Import Base BaseProofs Engine EngineSpec EngineStepsBase EngineRead.
Local Open Scope N_scope.

Definition fold_byte (b : N) : N := if (65 <=? b) && (b <=? 90) then b + 32 else b.
Definition ci_compare (a b : bytes) : comparison := bytes_compare (map fold_byte a) (map fold_byte b).

(* a total order read through any normalisation of the keys is a total order *)
Theorem ci_compare_total : total_order ci_compare.
Proof. exact (order_total_order _ (order_on (map fold_byte) _ bytes_compare_order)). Qed.
Print Assumptions ci_compare_total.

Example ci_equates_spellings : ci_compare [65; 108; 105] [97; 76; 73] = Eq /\ bytes_compare [65; 108; 105] [97; 76; 73] = Lt.
Proof. split; reflexivity. Qed.
