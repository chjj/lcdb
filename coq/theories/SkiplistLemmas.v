(* SkiplistLemmas.v -- list lemmas and the pointwise effect of the link-setting
   operations of Skiplist.v (set_nth, nodes_set_next, link_loop). *)
From LCDB Require Export ListFacts.
From LCDB Require Import Skiplist SkiplistSpec.
Require Import Lia.
Require Import List Arith.
Import ListNotations.
Local Open Scope nat_scope.

Section ListLemmas.
Context {A : Type}.

Lemma set_nth_length : forall n (x : A) l, length (set_nth n x l) = length l.
Proof. induction n; destruct l; cbn [set_nth length]; auto. Qed.

Lemma nth_error_set_nth_eq : forall n (x : A) l,
  n < length l -> nth_error (set_nth n x l) n = Some x.
Proof.
  induction n; destruct l; cbn [set_nth length nth_error]; intros; try lia; auto.
  apply IHn. lia.
Qed.

Lemma nth_error_set_nth_neq : forall n m (x : A) l,
  n <> m -> nth_error (set_nth n x l) m = nth_error l m.
Proof.
  induction n; destruct l, m; cbn [set_nth nth_error]; intros; try lia; auto.
Qed.

Lemma nth_set_nth_eq : forall n (x d : A) l, n < length l -> nth n (set_nth n x l) d = x.
Proof.
  induction n; destruct l; cbn [set_nth length nth]; intros; try lia; auto.
  apply IHn. lia.
Qed.

Lemma nth_set_nth_neq : forall n m (x d : A) l, n <> m -> nth m (set_nth n x l) d = nth m l d.
Proof.
  induction n; destruct l, m; cbn [set_nth nth]; intros; try lia; auto.
Qed.

Lemma filter_cons' : forall (f : A -> bool) x l,
  filter f (x :: l) = if f x then x :: filter f l else filter f l.
Proof. reflexivity. Qed.

Lemma filter_hd_split : forall (f : A -> bool) c y,
  hd_error (filter f c) = Some y ->
  exists c1 c2, c = c1 ++ y :: c2 /\ filter f c1 = [] /\ f y = true.
Proof.
  induction c as [|z r IH]; intros y H; cbn [filter hd_error] in H; [discriminate|].
  destruct (f z) eqn:Hz.
  - cbn [hd_error] in H. injection H as ->. exists [], r. cbn [app filter]. auto.
  - destruct (IH y H) as (c1 & c2 & -> & H1 & H2).
    exists (z :: c1), c2. cbn [app filter]. rewrite Hz. auto.
Qed.

Lemma last_app_cons : forall (a : list A) x d, last (a ++ [x]) d = x.
Proof. intros. apply last_last. Qed.

Lemma last_cons_default : forall (l : list A) x d, last (x :: l) d = last l x.
Proof. intros. apply last_cons. Qed.

Lemma firstn_seq' : forall n s m, n <= m -> firstn n (seq s m) = seq s n.
Proof.
  induction n; intros s m H; [reflexivity|].
  destruct m; [lia|]. cbn [seq firstn]. f_equal. apply IHn. lia.
Qed.

Lemma nth_map_seq : forall (f : nat -> A) n s l d, l < n -> nth l (map f (seq s n)) d = f (s + l).
Proof.
  induction n; intros s l d H; [lia|].
  cbn [seq map]. destruct l.
  - cbn [nth]. f_equal. lia.
  - cbn [nth]. rewrite IHn by lia. f_equal. lia.
Qed.

End ListLemmas.

Lemma map_const_repeat : forall (f : nat -> nat) l, (forall i, In i l -> f i = 0) ->
  map f l = repeat 0 (length l).
Proof.
  induction l as [|y r IH]; intros H; [reflexivity|].
  cbn [map length repeat]. rewrite (H y (or_introl eq_refl)). f_equal.
  apply IH. intros; apply H; right; auto.
Qed.

(* The arena operations of sl_insert, seen through the three observations a node list
   admits: height, key and link of a node. *)
Section Nodes.
Variable K : Type.

Definition nheight (ns : list (snode K)) (y : nat) : nat :=
  match nth_error ns y with Some n => length (nnext n) | None => 0 end.
Definition nkeyof (ns : list (snode K)) (y : nat) : option K :=
  match nth_error ns y with Some n => nkey n | None => None end.

Lemma nheight_snoc : forall (ns : list (snode K)) n y,
  nheight (ns ++ [n]) y = if y =? length ns then length (nnext n) else nheight ns y.
Proof. intros. unfold nheight. rewrite nth_error_snoc. destruct (y =? length ns); reflexivity. Qed.

Lemma nkeyof_snoc : forall (ns : list (snode K)) n y,
  nkeyof (ns ++ [n]) y = if y =? length ns then nkey n else nkeyof ns y.
Proof. intros. unfold nkeyof. rewrite nth_error_snoc. destruct (y =? length ns); reflexivity. Qed.

Lemma nodes_next_snoc : forall (ns : list (snode K)) n y l,
  nodes_next (ns ++ [n]) y l = if y =? length ns then nth l (nnext n) None else nodes_next ns y l.
Proof. intros. unfold nodes_next. rewrite nth_error_snoc. destruct (y =? length ns); reflexivity. Qed.

Lemma nodes_set_next_length : forall (ns : list (snode K)) x l v,
  length (nodes_set_next ns x l v) = length ns.
Proof.
  intros. unfold nodes_set_next. destruct (nth_error ns x); auto. apply set_nth_length.
Qed.

Lemma nodes_set_next_nth_error : forall (ns : list (snode K)) x l v y,
  nth_error (nodes_set_next ns x l v) y =
  match nth_error ns y with
  | Some n => Some (if y =? x then mkNode (nkey n) (set_nth l v (nnext n)) else n)
  | None => None
  end.
Proof.
  intros. unfold nodes_set_next. destruct (nth_error ns x) as [nx|] eqn:Hx.
  - destruct (Nat.eqb_spec y x) as [->|Hne].
    + rewrite nth_error_set_nth_eq, Hx; auto.
      apply nth_error_Some. congruence.
    + rewrite nth_error_set_nth_neq by auto. destruct (nth_error ns y); reflexivity.
  - destruct (Nat.eqb_spec y x) as [->|Hne].
    + rewrite Hx. reflexivity.
    + destruct (nth_error ns y); reflexivity.
Qed.

Lemma nodes_set_next_height : forall (ns : list (snode K)) x l v y,
  nheight (nodes_set_next ns x l v) y = nheight ns y.
Proof.
  intros. unfold nheight. rewrite nodes_set_next_nth_error.
  destruct (nth_error ns y) as [n|]; auto.
  destruct (y =? x); cbn [nnext]; auto. apply set_nth_length.
Qed.

Lemma nodes_set_next_key : forall (ns : list (snode K)) x l v y,
  nkeyof (nodes_set_next ns x l v) y = nkeyof ns y.
Proof.
  intros. unfold nkeyof. rewrite nodes_set_next_nth_error.
  destruct (nth_error ns y) as [n|]; auto.
  destruct (y =? x); cbn [nkey]; auto.
Qed.

Lemma nodes_set_next_same : forall (ns : list (snode K)) x l v,
  l < nheight ns x -> nodes_next (nodes_set_next ns x l v) x l = v.
Proof.
  unfold nodes_next, nheight. intros ns x l v Hl. rewrite nodes_set_next_nth_error.
  destruct (nth_error ns x) as [n|]; [|lia].
  rewrite Nat.eqb_refl. cbn [nnext]. apply nth_set_nth_eq. exact Hl.
Qed.

Lemma nodes_set_next_other : forall (ns : list (snode K)) x l v y l',
  y <> x \/ l' <> l -> nodes_next (nodes_set_next ns x l v) y l' = nodes_next ns y l'.
Proof.
  unfold nodes_next. intros ns x l v y l' Hne. rewrite nodes_set_next_nth_error.
  destruct (nth_error ns y) as [n|]; [|reflexivity].
  destruct (Nat.eqb_spec y x) as [Hyx|_]; [|reflexivity].
  cbn [nnext]. apply nth_set_nth_neq. destruct Hne; congruence.
Qed.

Lemma link_loop_length : forall xn P i (ns : list (snode K)),
  length (link_loop ns xn P i) = length ns.
Proof.
  induction P as [|p r IH]; intros i ns; cbn [link_loop]; [reflexivity|].
  rewrite IH, !nodes_set_next_length. reflexivity.
Qed.

Lemma link_loop_height : forall xn P i (ns : list (snode K)) y,
  nheight (link_loop ns xn P i) y = nheight ns y.
Proof.
  induction P as [|p r IH]; intros i ns y; cbn [link_loop]; [reflexivity|].
  rewrite IH, !nodes_set_next_height. reflexivity.
Qed.

Lemma link_loop_key : forall xn P i (ns : list (snode K)) y,
  nkeyof (link_loop ns xn P i) y = nkeyof ns y.
Proof.
  induction P as [|p r IH]; intros i ns y; cbn [link_loop]; [reflexivity|].
  rewrite IH, !nodes_set_next_key. reflexivity.
Qed.

(* link_loop ns xn P i touches level i + j only in its step j *)
Lemma link_loop_next_out : forall xn P i (ns : list (snode K)) y l,
  l < i \/ i + length P <= l ->
  nodes_next (link_loop ns xn P i) y l = nodes_next ns y l.
Proof.
  induction P as [|p r IH]; intros i ns y l Hl; cbn [link_loop]; [reflexivity|].
  cbn [length] in Hl. rewrite IH by lia.
  rewrite !nodes_set_next_other by lia. reflexivity.
Qed.

(* and step j splices xn in after P[j] *)
Lemma link_loop_next_in : forall xn P i (ns : list (snode K)) j y,
  j < length P -> nth j P 0 <> xn ->
  i + j < nheight ns (nth j P 0) -> i + j < nheight ns xn ->
  nodes_next (link_loop ns xn P i) y (i + j) =
    if y =? xn then nodes_next ns (nth j P 0) (i + j)
    else if y =? nth j P 0 then Some xn else nodes_next ns y (i + j).
Proof.
  induction P as [|p r IH]; intros i ns j y Hj Hne Hhp Hhx; [inversion Hj|].
  cbn [link_loop]. destruct j as [|j]; cbn [nth length] in *.
  - rewrite Nat.add_0_r in *. rewrite link_loop_next_out by (left; apply Nat.lt_succ_diag_r).
    destruct (Nat.eqb_spec y xn) as [->|Hyx].
    + rewrite nodes_set_next_other by auto. apply nodes_set_next_same. exact Hhx.
    + destruct (Nat.eqb_spec y p) as [->|Hyp].
      * apply nodes_set_next_same. rewrite nodes_set_next_height. exact Hhp.
      * rewrite !nodes_set_next_other by auto. reflexivity.
  - (* a later step: level S i + j, which the step at level i leaves alone *)
    rewrite <- Nat.add_succ_comm in *.
    assert (Hl : S i + j <> i) by lia.
    rewrite (IH (S i) _ j y (proj2 (Nat.succ_lt_mono _ _) Hj) Hne)
      by (rewrite !nodes_set_next_height; assumption).
    rewrite !nodes_set_next_other by (right; exact Hl). reflexivity.
Qed.

End Nodes.

Arguments nheight {K}.
Arguments nkeyof {K}.
