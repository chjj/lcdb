(* DbIterProofs.v -- the replica of db_iter.c over ANY internal iterator that behaves as a
   cursor on a strictly sorted run of internal entries (bisim: the merging iterator of
   a state, or the cursor itself) refines a cursor over the live view of that run, for
   every script (first / last / seek / seek_ge / gt / le / lt / next / prev, with all
   direction switches).

   [live_of_sorted q prev] is a left fold whose state [prev] is the user key being
   hidden; find_next_user_entry is the same fold run on the internal iterator, its
   (skipping, skip) being [prev].  So the run is split, l = l1 ++ r, the view splits
   with it (live_app), and the position of the view cursor is a FUNCTION of the
   split: the number of pairs the prefix emits.  The internal iterator enters only
   through where it stands at a split ([on], [under]) and what get / next / prev do there. *)
From LCDB Require Import Cursor CursorProofs EngineSpec EngineRead EngineStepsBase
                         Merger DbIter LiveViewProofs.
Require Import Lia.
Local Open Scope N_scope.

Section DbIterOver.
Variable ucmp : bytes -> bytes -> comparison.
Context {TO : total_order ucmp}.
Variable q : N.

Notation live := (live_of_sorted ucmp q).
Notation vis := (LiveViewProofs.vis q).
Notation same := (same ucmp).
Notation adv := (adv ucmp q).
Notation after := (after ucmp q).
Notation out := (out ucmp q).

Lemma ge_vis t e : vis e = true -> ge_target ucmp t q e = kvge ucmp t (kv e).
Proof.
  unfold ge_target, kvge, kv, LiveViewProofs.vis. cbn [fst]. intros Hv.
  destruct (ucmp (ek e) t); try reflexivity. exact Hv.
Qed.

Variable l : list entry.
Hypothesis Hs : EngineStepsBase.Srt ucmp l.
Variable fuel : nat.
Hypothesis Hfuel : (length l + 2 <= fuel)%nat.
Context {St : Type}.
Variable I : iter_ops St itarget entry.
Variable Ri : St -> cursor -> Prop.
Hypothesis B : bisim I (cursor_ops (itge ucmp) (itcmp ucmp) l) Ri.

Notation V := (live_of_sorted ucmp q None l).

(* Where the internal iterator stands at a split l = l1 ++ r: [on] the head of r (past the
   end when r is empty), or [under] r, on the last entry of l1 (invalid when l1 is empty). *)
Definition on (a : St) (l1 r : list entry) : Prop := l = l1 ++ r /\ Ri a (cur l1 r).
Definition under (a : St) (l1 r : list entry) : Prop := l = l1 ++ r /\ Ri a (c_last l1).
Definition tied (a : St) : Prop := exists c, Ri a c.

(* on l1 [] and under [] r are both the invalid cursor *)
Lemma tied_none a : Ri a None -> i_get I a = None.
Proof. exact (bs_get _ _ _ B a None). Qed.

(* db_iter.c steps the internal iterator only from entries: next and prev of [bisim] *)
Lemma on_cons a l1 e r : on a l1 (e :: r) -> i_get I a = Some e /\ on (i_next I a) (l1 ++ [e]) r.
Proof.
  intros [Hl H]. assert (G : i_get I a = Some e) by (rewrite (bs_get _ _ _ B a _ H), Hl; apply nth_error_mid).
  split; [exact G|]. split; [rewrite <- app_assoc; exact Hl|].
  rewrite <- (cur_next l1 e r), <- Hl. apply (bs_next _ _ _ B a _ H). rewrite G. discriminate.
Qed.

Lemma on_prev a l1 e r : on a l1 (e :: r) -> under (i_prev I a) l1 (e :: r).
Proof.
  intros Hon. destruct (on_cons a l1 e r Hon) as [G _]. destruct Hon as [Hl H]. split; [exact Hl|].
  rewrite <- (c_prev_last l l1). apply (bs_prev _ _ _ B a _ H). rewrite G. discriminate.
Qed.

Lemma under_on a l1 x r : under a (l1 ++ [x]) r -> on a l1 (x :: r).
Proof. intros [Hl H]. rewrite <- app_assoc in Hl. rewrite c_last_snoc in H. split; [exact Hl|exact H]. Qed.

(* ldb_dbiter_next in REVERSE direction: advance into the range *)
Lemma under_advance a l1 r :
  under a l1 r -> on (match i_get I a with None => i_first I a | Some _ => i_next I a end) l1 r.
Proof.
  intros Hu. destruct l1 as [|x l1 _] using rev_ind.
  - rewrite (tied_none a (proj2 Hu)). destruct Hu as [Hl H]. split; [exact Hl|].
    replace (cur [] r) with (c_first l) by (rewrite Hl; destruct r; reflexivity). exact (bs_first _ _ _ B a _ H).
  - destruct (on_cons a l1 x r (under_on a l1 x r Hu)) as [-> Hn]. exact Hn.
Qed.

Lemma on_tied a l1 r : on a l1 r -> tied a.
Proof. intros [_ H]. exists (cur l1 r). exact H. Qed.

Lemma under_tied a l1 r : under a l1 r -> tied a.
Proof. intros [_ H]. exists (c_last l1). exact H. Qed.

Lemma fuel_split a b : l = a ++ b -> (length a < fuel)%nat /\ (length b < fuel)%nat.
Proof. intros Hl. rewrite Hl, app_length in Hfuel. split; lia. Qed.

Lemma split_lt l1 e r e' : l = l1 ++ e :: r -> In e' r -> ilt ucmp e e' = true.
Proof.
  intros Hl He'. pose proof Hs as H. rewrite Hl in H. apply (Srt_app ucmp) in H. destruct H as (_ & H & _).
  exact (proj2 (Srt_cons_inv ucmp _ _ H) e' He').
Qed.

Lemma split_key_le l1 e r e' : l = l1 ++ e :: r -> In e' r -> ucmp (ek e) (ek e') <> Gt.
Proof. intros Hl He'. exact (ilt_ukey ucmp e e' (split_lt l1 e r e' Hl He')). Qed.

(* e is a live head: the first entry with sequence <= q of its key, and a value *)
Definition head_after (l1 : list entry) (e : entry) : Prop :=
  vis e = true /\ et e = true /\ same (after None l1) e = false.

Lemma V_head l1 e l2 :
  l = l1 ++ e :: l2 -> head_after l1 e -> V = live None l1 ++ kv e :: live (Some (ek e)) l2.
Proof.
  intros Hl (Ve & Te & S). rewrite Hl, live_app, live_step.
  destruct (step_head ucmp q _ e Ve S Te) as [-> ->]. reflexivity.
Qed.

(* the view cursor at the split l1 ++ r of the run: on the first pair r emits *)
Definition vcur (l1 r : list entry) : cursor := cur (live None l1) (live (after None l1) r).

Lemma vcur_skip l1 e r : out (after None l1) e = [] -> vcur l1 (e :: r) = vcur (l1 ++ [e]) r.
Proof. intros Ho. unfold vcur. rewrite live_step, live_snoc, after_snoc, Ho, app_nil_r. reflexivity. Qed.

Lemma vcur_head l1 e r : head_after l1 e -> vcur l1 (e :: r) = Some (length (live None l1)).
Proof. intros (Ve & Te & S). unfold vcur. rewrite live_step, (proj1 (step_head ucmp q _ e Ve S Te)). reflexivity. Qed.

(* The simulation relation is a function of the split the state stands for.
   FORWARD: the internal iterator is on a live head e, l = l1 ++ e :: l2.
   REVERSE: saved_key / saved_value are those of a live head e0, and the internal iterator
   is on the last entry of l0, where l = l0 ++ m ++ e0 :: l2 and m is invisible.
   The view cursor is at the number of pairs emitted before the head. *)
Inductive fwd_at : St -> cursor -> Prop :=
| FwdAt a l1 e l2 : on a l1 (e :: l2) -> head_after l1 e -> fwd_at a (Some (length (live None l1))).

Inductive rev_at : St -> bytes -> bytes -> cursor -> Prop :=
| RevAt a l0 m e0 l2 : under a l0 (m ++ e0 :: l2) -> (forall x, In x m -> vis x = false) ->
    head_after (l0 ++ m) e0 -> rev_at a (ek e0) (ev e0) (Some (length (live None l0))).

Definition DRel (st : @dstate St) (p : cursor) : Prop :=
  if d_valid st then
    match d_dir st with
    | Forward => fwd_at (d_it st) p
    | Reverse => rev_at (d_it st) (d_skey st) (d_sval st) p
    end
  else tied (d_it st) /\ p = None.

Lemma DRel_tied st p : DRel st p -> tied (d_it st).
Proof.
  unfold DRel. destruct (d_valid st); [|intros [H _]; exact H]. destruct (d_dir st); intros H.
  - destruct H as [a l1 e l2 Hon _]. exact (on_tied _ _ _ Hon).
  - destruct H as [a l0 m e0 l2 Hu _ _]. exact (under_tied _ _ _ Hu).
Qed.

Lemma DRel_get st p : DRel st p -> c_get V p = d_get I st.
Proof.
  destruct st as [it dir valid sk sv]. unfold DRel, d_get. cbn [d_valid d_dir d_it d_skey d_sval].
  destruct valid; [|intros [_ ->]; reflexivity]. destruct dir; intros H.
  - destruct H as [a l1 e l2 Hon Hh].
    rewrite (V_head l1 e l2 (proj1 Hon) Hh), (proj1 (on_cons _ _ _ _ Hon)). apply nth_error_mid.
  - destruct H as [a l0 m e0 l2 [Hl _] Hm Hh]. rewrite app_assoc in Hl.
    rewrite (V_head _ e0 l2 Hl Hh), live_app, (proj1 (live_invis ucmp q _ m Hm)), app_nil_r. apply nth_error_mid.
Qed.

Definition fwd_res (res : St * bool) (p : cursor) : Prop :=
  if snd res then fwd_at (fst res) p else tied (fst res) /\ p = None.

(* find_next_user_entry started at the split l1 ++ r stops on the next live head, the
   prefix up to it emitting nothing more, or runs off the end, the view being exhausted:
   the state it leaves is related to the view cursor behind what l1 emits.
   (sk, skip) must hide in r what the fold after l1 hides *)
Lemma find_next_live r : forall l1 n a sk skip,
  on a l1 r -> (length r <= n)%nat ->
  (forall e, In e r -> vis e = true -> sk && ule ucmp (ek e) skip = same (after None l1) e) ->
  fwd_res (find_next_loop ucmp I q n a sk skip) (vcur l1 r).
Proof.
  induction r as [|e r IH]; intros l1 n a sk skip Hon Hn Hsk.
  - replace (find_next_loop ucmp I q n a sk skip) with (a, false)
      by (destruct n; cbn [find_next_loop]; rewrite ?(tied_none a (proj2 Hon)); reflexivity).
    split; [exact (on_tied _ _ _ Hon)|reflexivity].
  - destruct n as [|n]; [inversion Hn|]. destruct (on_cons a l1 e r Hon) as [G Hon']. pose proof (proj1 Hon) as Hl.
    cbn [find_next_loop]. rewrite G.
    (* e emits nothing: go on behind it *)
    assert (Hcont : forall sk' skip', out (after None l1) e = [] ->
              (forall e', In e' r -> vis e' = true ->
                 sk' && ule ucmp (ek e') skip' = same (adv (after None l1) e) e') ->
              fwd_res (find_next_loop ucmp I q n (i_next I a) sk' skip') (vcur l1 (e :: r))).
    { intros sk' skip' Ho H. rewrite (vcur_skip l1 e r Ho).
      apply IH; [exact Hon'|apply le_S_n; exact Hn|rewrite after_snoc; exact H]. }
    pose proof (Hsk e (in_eq _ _)) as Hse.
    destruct (es e <=? q) eqn:Ve.
    + specialize (Hse Ve). destruct (et e) eqn:Te.
      * destruct (sk && ule ucmp (ek e) skip) eqn:Hid.
        -- (* hidden value *)
           destruct (step_hidden ucmp q _ e (eq_sym Hse)) as [Ho Ha].
           apply Hcont; [exact Ho|]. rewrite Ha. intros e' He'. apply Hsk. right. exact He'.
        -- (* a live head *)
           assert (Hh : head_after l1 e) by (split; [exact Ve|split; [exact Te|symmetry; exact Hse]]).
           unfold fwd_res. cbn [fst snd]. rewrite (vcur_head l1 e r Hh). exact (FwdAt a l1 e r Hon Hh).
      * (* deletion: its key is hidden from here on *)
        apply Hcont; [exact (out_deleted ucmp q _ e Te)|].
        intros e' He' _. rewrite (same_adv ucmp q _ e e' Ve). cbn [andb].
        apply (ule_ueq ucmp). exact (split_key_le l1 e r e' Hl He').
    + (* sequence > q: ignored *)
      destruct (step_ignored ucmp q (after None l1) e Ve) as [Ho Ha].
      apply Hcont; [exact Ho|]. rewrite Ha. intros e' He'. apply Hsk. right. exact He'.
Qed.

(* ... with the key of the live head e hidden: ldb_dbiter_next *)
Lemma find_next_skip n a l1 e l2 :
  on a (l1 ++ [e]) l2 -> head_after l1 e -> (length l2 <= n)%nat ->
  fwd_res (find_next_loop ucmp I q n a true (ek e)) (c_next V (Some (length (live None l1)))).
Proof.
  intros Hon (Ve & Te & S) Hn. pose proof (proj1 Hon) as Hl. rewrite <- app_assoc in Hl.
  replace (c_next V (Some (length (live None l1)))) with (vcur (l1 ++ [e]) l2).
  - apply (find_next_live l2 _ n a true (ek e) Hon Hn).
    intros e' He' _. rewrite after_snoc, (same_adv ucmp q _ e e' Ve). cbn [andb].
    apply (ule_ueq ucmp). exact (split_key_le l1 e l2 e' Hl He').
  - rewrite (V_head l1 e l2 Hl (conj Ve (conj Te S))), cur_next. unfold vcur.
    destruct (step_head ucmp q _ e Ve S Te) as [Ho Ha]. rewrite live_snoc, after_snoc, Ho, Ha. reflexivity.
Qed.

(* ... from below the entries of the saved key: they are stepped over, its head included *)
Lemma find_next_reverse m : forall n a l0 e0 l2,
  on a l0 (m ++ e0 :: l2) -> (forall x, In x m -> vis x = false) -> head_after (l0 ++ m) e0 ->
  (length (m ++ e0 :: l2) <= n)%nat ->
  fwd_res (find_next_loop ucmp I q n a true (ek e0)) (c_next V (Some (length (live None l0)))).
Proof.
  induction m as [|x m IH]; intros n a l0 e0 l2 Hon Hm Hh Hn; (destruct n as [|n]; [inversion Hn|]);
    apply le_S_n in Hn; destruct (on_cons _ _ _ _ Hon) as [G Hon']; cbn [find_next_loop]; rewrite G.
  - rewrite app_nil_r in Hh. destruct Hh as (Ve & Te & S). unfold LiveViewProofs.vis in Ve. rewrite Ve, Te.
    unfold ule. rewrite (cmp_refl TO). cbn [andb].
    exact (find_next_skip n _ l0 e0 l2 Hon' (conj Ve (conj Te S)) Hn).
  - pose proof (Hm x (in_eq _ _)) as Vx. unfold LiveViewProofs.vis in Vx. rewrite Vx.
    replace (live None l0) with (live None (l0 ++ [x]))
      by (rewrite live_snoc, (proj1 (step_ignored ucmp q _ x Vx)); apply app_nil_r).
    apply (IH n _ (l0 ++ [x]) e0 l2 Hon'); [intros y Hy; apply Hm; right; exact Hy| |exact Hn].
    rewrite <- app_assoc. exact Hh.
Qed.

(* db_iter.c tests the internal iterator before it calls find_next_user_entry; on an
   invalid one the call would give an invalid state as well *)
Lemma fnue_res st1 a sk skip p k v :
  d_dir st1 = Forward -> fwd_res (find_next_loop ucmp I q fuel a sk skip) p ->
  DRel (match i_get I a with
     | Some _ => find_next_user_entry ucmp I fuel q st1 a sk skip
     | None => mkD a Forward false k v
     end) p.
Proof.
  intros Hdir H. unfold find_next_user_entry. destruct (i_get I a) eqn:G.
  - destruct (find_next_loop ucmp I q fuel a sk skip) as [a' v']. unfold DRel. cbn [d_valid d_dir d_it].
    rewrite Hdir. exact H.
  - destruct fuel as [|n]; [inversion Hfuel; destruct (length l); discriminate|].
    cbn [find_next_loop] in H. rewrite G in H. exact H.
Qed.

Lemma fnue_live st1 a l1 r k v :
  d_dir st1 = Forward -> on a l1 r ->
  (forall e, In e r -> vis e = true -> same (after None l1) e = false) ->
  DRel (match i_get I a with
     | Some _ => find_next_user_entry ucmp I fuel q st1 a false k
     | None => mkD a Forward false k v
     end) (vcur l1 r).
Proof.
  intros Hdir Hon Hsk. apply fnue_res; [exact Hdir|].
  apply (find_next_live r l1 fuel a false k Hon (Nat.lt_le_incl _ _ (proj2 (fuel_split _ _ (proj1 Hon))))).
  intros e He Ve. symmetry. exact (Hsk e He Ve).
Qed.

Lemma DRel_first st p : DRel st p -> DRel (d_first ucmp I fuel q st) (c_first V).
Proof.
  intros H. destruct (DRel_tied st p H) as [c Hc]. unfold d_first.
  change (c_first V) with (vcur [] l).
  apply (fnue_live _ _ [] l); [reflexivity| |intros e _ _; reflexivity].
  split; [reflexivity|]. replace (cur [] l) with (c_first l) by (destruct l; reflexivity).
  exact (bs_first _ _ _ B _ _ Hc).
Qed.

(* the seek of the internal iterator cuts the run, and with it the view, at the target *)
Lemma DRel_seek t st p : DRel st p -> DRel (d_seek ucmp I fuel q t st) (c_seek (kvge ucmp t) V).
Proof.
  intros H. destruct (DRel_tied st p H) as [c Hc]. unfold d_seek.
  pose proof (bs_seek _ _ _ B (t, q) _ _ Hc) as Hi. cbn [i_seek cursor_ops] in Hi.
  destruct (c_seek_split (itge ucmp (t, q)) l) as (l1 & r & Hl & E & H1 & Hr). rewrite E in Hi.
  assert (H2 : forall e, In e r -> ge_target ucmp t q e = true).
  { destruct r as [|x r]; [intros e []|]. intros e [<-|He]; [exact Hr|].
    exact (ge_target_mono ucmp TO t q x e (split_lt l1 x r e Hl He) Hr). }
  assert (Hcut : c_seek (kvge ucmp t) V = vcur l1 r).
  { rewrite Hl, live_app. apply c_seek_cut; intros y Hy;
      destruct (live_in ucmp q _ _ y Hy) as (e & He & Ve & ->); rewrite <- (ge_vis t e Ve);
      [exact (H1 e He)|exact (H2 e He)]. }
  rewrite Hcut. apply (fnue_live _ _ l1 r); [reflexivity|exact (conj Hl Hi)|].
  (* entries of one user key with sequence <= q are on one side of the target *)
  intros e He Ve. destruct (same (after None l1) e) eqn:S; [exfalso|reflexivity].
  destruct (after_key ucmp q l1 e S) as (x & Hx & Vx & Ex).
  pose proof (H1 x Hx : ge_target ucmp t q x = false) as Gx. pose proof (H2 e He) as Ge.
  rewrite (ge_vis t x Vx) in Gx. rewrite (ge_vis t e Ve) in Ge. unfold kvge, kv in Gx, Ge. cbn [fst] in Gx, Ge.
  rewrite (cmp_eq_l TO _ _ t Ex) in Ge. congruence.
Qed.

Lemma DRel_next st p : DRel st p -> d_get I st <> None -> DRel (d_next ucmp I fuel q st) (c_next V p).
Proof.
  destruct st as [it dir valid sk sv]. unfold DRel at 1, d_get. cbn [d_valid d_dir d_it d_skey d_sval].
  destruct valid; [|congruence]. destruct dir; intros H _; unfold d_next; cbn [d_dir d_it d_valid d_skey d_sval].
  - (* FORWARD: skip the rest of the current key *)
    destruct H as [a l1 e l2 Hon Hh]. destruct (on_cons _ _ _ _ Hon) as [-> Hon'].
    apply fnue_res; [reflexivity|].
    exact (find_next_skip fuel _ l1 e l2 Hon' Hh (Nat.lt_le_incl _ _ (proj2 (fuel_split _ _ (proj1 Hon'))))).
  - (* REVERSE -> FORWARD: advance into the entries of saved_key, then skip them *)
    destruct H as [a l0 m e0 l2 Hu Hm Hh]. apply under_advance in Hu.
    apply fnue_res; [reflexivity|].
    exact (find_next_reverse m fuel _ l0 e0 l2 Hu Hm Hh (Nat.lt_le_incl _ _ (proj2 (fuel_split _ _ (proj1 Hu))))).
Qed.

(* the for(;;) of ldb_dbiter_prev: back over the entries not below k *)
Inductive backed (l1 r : list entry) (k : bytes) : St * bool -> Prop :=
| Backed l0 m a' : l1 = l0 ++ m -> (forall x, In x m -> ult ucmp (ek x) k = false) -> under a' l0 (m ++ r) ->
    backed l1 r k (a', match l0 with [] => false | _ :: _ => true end).

Lemma back_loop_split l1 : forall n a e r k,
  on a l1 (e :: r) -> (length l1 < n)%nat -> backed l1 (e :: r) k (back_loop ucmp I n a k).
Proof.
  induction l1 as [|x l1 IH] using rev_ind; intros n a e r k Hon Hn; (destruct n as [|n]; [inversion Hn|]);
    apply on_prev in Hon; cbn [back_loop].
  - rewrite (tied_none _ (proj2 Hon)). exact (Backed [] _ k [] [] _ eq_refl (fun x F => match F with end) Hon).
  - pose proof (under_on _ _ _ _ Hon) as Hon'. rewrite (proj1 (on_cons _ _ _ _ Hon')).
    destruct (ult ucmp (ek x) k) eqn:U.
    + replace true with (match l1 ++ [x] with [] => false | _ :: _ => true end) by (destruct l1; reflexivity).
      exact (Backed _ _ k (l1 ++ [x]) [] _ (eq_sym (app_nil_r _)) (fun y F => match F with end) Hon).
    + rewrite app_length, Nat.add_1_r in Hn.
      destruct (IH n _ x (e :: r) k Hon' (proj2 (Nat.succ_lt_mono _ _) Hn)) as [l0 m a' -> Hm Hu].
      apply (Backed _ _ k l0 (m ++ [x]) a'); [symmetry; apply app_assoc| |rewrite <- app_assoc; exact Hu].
      intros y Hy. apply in_app_or in Hy. destruct Hy as [Hy|[<-|[]]]; auto.
Qed.

(* what find_prev_user_entry knows of the part s it has scanned: [have] is
   value_type <> deletion, the candidate being the newest entry seen *)
Inductive cand : bytes -> bytes -> list entry -> Prop :=
| Cand m e0 rest : (forall x, In x m -> vis x = false) -> vis e0 = true -> et e0 = true ->
    live (Some (ek e0)) rest = [] -> cand (ek e0) (ev e0) (m ++ e0 :: rest).

Definition scanned (have : bool) (skey sval : bytes) (s : list entry) : Prop :=
  if have then cand skey sval s else forall pv, live pv s = [].

(* the scan of the prefix l0 stops with the last pair l0 emits saved and the iterator
   below the entries of its key, or finds that l0 emits nothing: the state left is
   related to the view cursor on the last pair l0 emits *)
Definition rev_res (l0 : list entry) (res : St * bool * bytes * bytes) : Prop :=
  let '(a', have', skey', sval') := res in
  if have' then rev_at a' skey' sval' (c_last (live None l0)) else tied a' /\ live None l0 = [].

(* the scan has reached the front of the run, or a visible entry below the candidate *)
Lemma rev_res_have a l0' s r skey sval :
  under a l0' (s ++ r) -> cand skey sval s ->
  (forall e0, ek e0 = skey -> same (after None l0') e0 = false) ->
  rev_res (l0' ++ s) (a, true, skey, sval).
Proof.
  intros Hu Hc S. destruct Hc as [m e0 rest Hm Ve Te Hr]. specialize (S e0 eq_refl).
  destruct (live_invis ucmp q (after None l0') m Hm) as [Lm Am].
  assert (Hh : head_after (l0' ++ m) e0).
  { split; [exact Ve|]. split; [exact Te|]. rewrite after_app, Am. exact S. }
  rewrite <- !app_assoc in Hu.
  assert (E : live None (l0' ++ m ++ e0 :: rest) = live None l0' ++ [kv e0]).
  { rewrite app_assoc, (live_app ucmp q None (l0' ++ m)), live_step.
    destruct (step_head ucmp q _ e0 Ve (proj2 (proj2 Hh)) Te) as [-> ->].
    rewrite Hr, live_app, Lm, app_nil_r. reflexivity. }
  unfold rev_res. rewrite E, c_last_snoc. exact (RevAt a l0' m e0 (rest ++ r) Hu Hm Hh).
Qed.

(* what one turn of the scan, on the entry x in front of s, does to [scanned] *)
Lemma scanned_ignored x have skey sval s :
  vis x = false -> scanned have skey sval s -> scanned have skey sval (x :: s).
Proof.
  intros Vx. unfold scanned. destruct have.
  - intros [m e0 rest Hm Ve Te Hr]. apply (Cand (x :: m) e0 rest); [|exact Ve|exact Te|exact Hr].
    intros y [<-|Hy]; [exact Vx|exact (Hm y Hy)].
  - intros H pv. rewrite live_step. destruct (step_ignored ucmp q pv x Vx) as [-> ->]. apply H.
Qed.

(* a visible x that does not end the scan is the newest entry seen of its key: behind it
   that key is hidden, and nothing is emitted *)
Lemma scanned_hidden x have skey sval s :
  (forall e, In e s -> ucmp (ek x) (ek e) <> Gt) -> have && ult ucmp (ek x) skey = false ->
  scanned have skey sval s -> live (Some (ek x)) s = [].
Proof.
  intros Hle Hb. unfold scanned. destruct have; [|intros H; apply H]. cbn [andb] in Hb.
  intros Hc. destruct Hc as [m e0 rest Hm Ve Te Hr].
  assert (E : ucmp (ek e0) (ek x) = Eq).
  { pose proof (Hle e0 (in_elt _ _ _)) as H1. unfold ult in Hb. rewrite (cmp_opp TO (ek e0) (ek x)).
    destruct (ucmp (ek x) (ek e0)); cbn [CompOpp]; congruence. }
  destruct (live_invis ucmp q (Some (ek x)) m Hm) as [Lm Am].
  rewrite live_app, Lm, Am, live_step.
  destruct (step_hidden ucmp q (Some (ek x)) e0 (proj2 (ueq_iff ucmp _ _) E)) as [-> ->].
  rewrite <- (live_key_eq ucmp q _ _ rest E). exact Hr.
Qed.

Lemma scanned_deletion x s :
  vis x = true -> et x = false -> live (Some (ek x)) s = [] -> scanned false [] [] (x :: s).
Proof.
  intros Vx Tx Hx pv. rewrite live_step, (out_deleted ucmp q pv x Tx). cbn [app]. destruct (same pv x) eqn:S.
  - (* pv hides the key of x already *)
    rewrite (proj2 (step_hidden ucmp q pv x S)). destruct pv as [k|]; [|discriminate].
    rewrite <- Hx. symmetry. apply (@live_key_eq ucmp TO q). exact (proj1 (ueq_iff ucmp _ _) S).
  - rewrite (proj2 (step_deleted ucmp q pv x Vx S Tx)). exact Hx.
Qed.

Lemma find_prev_live lx : forall n a s r have skey sval,
  under a lx (s ++ r) -> (length lx <= n)%nat -> scanned have skey sval s ->
  rev_res (lx ++ s) (find_prev_loop ucmp I q n a have skey sval).
Proof.
  induction lx as [|x lx IH] using rev_ind; intros n a s r have skey sval Hu Hn Hsc.
  - replace (find_prev_loop ucmp I q n a have skey sval) with (a, have, skey, sval)
      by (destruct n; cbn [find_prev_loop]; rewrite ?(tied_none a (proj2 Hu)); reflexivity).
    destruct have; [|exact (conj (under_tied _ _ _ Hu) (Hsc None))].
    apply (rev_res_have a [] s r skey sval Hu Hsc). reflexivity.
  - rewrite app_length, Nat.add_1_r in Hn. destruct n as [|n]; [inversion Hn|]. apply le_S_n in Hn.
    pose proof (under_on _ _ _ _ Hu) as Hon. destruct (on_cons _ _ _ _ Hon) as [G _].
    pose proof (on_prev _ _ _ _ Hon) as Hu'. pose proof (proj1 Hon) as Hl'.
    cbn [find_prev_loop]. rewrite G. destruct (es x <=? q) eqn:Vx.
    + destruct (have && ult ucmp (ek x) skey) eqn:Hb.
      * (* break: x is below the candidate, which is then the newest entry of its key *)
        apply andb_prop in Hb. destruct Hb as [-> U]. apply (rev_res_have a _ s r skey sval Hu Hsc).
        intros e0 Ek. rewrite after_snoc, (same_adv ucmp q _ x e0 Vx), Ek. apply (ult_iff ucmp) in U.
        unfold ueq. rewrite (proj2 (cmp_gt_lt TO _ _) U). reflexivity.
      * assert (Hx : live (Some (ek x)) s = []).
        { apply (scanned_hidden x have skey sval s); [|exact Hb|exact Hsc].
          intros e He. apply (split_key_le lx x _ e Hl'), in_or_app. left. exact He. }
        rewrite <- app_assoc.
        destruct (et x) eqn:Tx; apply (IH n _ (x :: s) r _ _ _ Hu' Hn);
          [exact (Cand [] x s (fun y F => match F with end) Vx Tx Hx)|exact (scanned_deletion x s Vx Tx Hx)].
    + (* sequence > q: ignored *)
      rewrite <- app_assoc. apply (IH n _ (x :: s) r _ _ _ Hu' Hn), scanned_ignored; assumption.
Qed.

(* find_prev_user_entry from the last entry of the prefix l0 leaves the view cursor on the
   last pair l0 emits *)
Lemma fpue_live a l0 r skey sval :
  under a l0 r ->
  DRel (find_prev_user_entry ucmp I fuel q a skey sval) (c_last (live None l0)).
Proof.
  intros Hu.
  pose proof (find_prev_live l0 fuel a [] r false skey sval Hu
                (Nat.lt_le_incl _ _ (proj1 (fuel_split _ _ (proj1 Hu)))) (fun pv => eq_refl)) as H.
  rewrite app_nil_r in H. unfold find_prev_user_entry.
  destruct (find_prev_loop ucmp I q fuel a false skey sval) as [[[a' have'] skey'] sval'].
  unfold rev_res in H. unfold DRel. destruct have'; cbn [d_valid d_dir d_it d_skey d_sval]; [exact H|].
  destruct H as [Ht ->]. exact (conj Ht eq_refl).
Qed.

Lemma DRel_last st p : DRel st p -> DRel (d_last ucmp I fuel q st) (c_last V).
Proof.
  intros H. destruct (DRel_tied st p H) as [c Hc]. apply (fpue_live _ l []).
  split; [symmetry; apply app_nil_r|exact (bs_last _ _ _ B _ _ Hc)].
Qed.

(* entries with the key of a live head, in front of it, have sequence > q: a visible one would hide it *)
Lemma head_invis l1 e r x :
  l = l1 ++ e :: r -> same (after None l1) e = false -> In x l1 -> ucmp (ek x) (ek e) = Eq -> vis x = false.
Proof.
  intros Hl S Hx E. destruct (vis x) eqn:Vx; [|reflexivity].
  pose proof Hs as H. rewrite Hl in H. change (e :: r) with ([e] ++ r) in H. rewrite app_assoc in H.
  rewrite (after_same ucmp q l1 e x (proj1 (proj1 (Srt_app ucmp _ _) H)) Hx Vx E) in S. discriminate.
Qed.

(* the entries the for(;;) of ldb_dbiter_prev steps back over have the key it started from *)
Lemma back_keys l0 m e l2 :
  l = l0 ++ m ++ e :: l2 -> (forall x, In x m -> ult ucmp (ek x) (ek e) = false) ->
  forall x, In x m -> ucmp (ek x) (ek e) = Eq.
Proof.
  intros Hl Hm x Hx. pose proof (Hm x Hx) as H1. destruct (in_split x m Hx) as (m1 & m2 & E).
  rewrite E, <- app_assoc, app_assoc in Hl.
  pose proof (split_key_le _ x _ e Hl (in_or_app _ _ _ (or_intror (in_eq _ _)))) as H2.
  unfold ult in H1. destruct (ucmp (ek x) (ek e)); congruence.
Qed.

Lemma DRel_prev st p : DRel st p -> d_get I st <> None -> DRel (d_prev ucmp I fuel q st) (c_prev V p).
Proof.
  destruct st as [it dir valid sk sv]. unfold DRel at 1, d_get. cbn [d_valid d_dir d_it d_skey d_sval].
  destruct valid; [|congruence]. destruct dir; intros H _; unfold d_prev; cbn [d_dir d_it d_skey d_sval].
  - (* FORWARD -> REVERSE: back over the entries of the key shown, then scan *)
    destruct H as [a l1 e l2 Hon (Ve & Te & S)]. rewrite (proj1 (on_cons _ _ _ _ Hon)).
    destruct (back_loop_split l1 fuel a e l2 (ek e) Hon (proj1 (fuel_split _ _ (proj1 Hon))))
      as [l0 m a' -> Hm Hu]. rewrite c_prev_last.
    (* the entries stepped over emit nothing: they have the key shown and are in front of its head *)
    assert (Im : forall x, In x m -> vis x = false).
    { intros x Hx. pose proof (proj1 Hu) as Hl. apply (head_invis _ e l2 x (proj1 Hon) S (in_or_app _ _ _ (or_intror Hx))).
      exact (back_keys l0 m e l2 Hl Hm x Hx). }
    rewrite live_app, (proj1 (live_invis ucmp q _ m Im)), app_nil_r.
    destruct l0 as [|y l0]; [exact (conj (under_tied _ _ _ Hu) eq_refl)|]. exact (fpue_live _ _ _ _ _ Hu).
  - (* REVERSE *)
    destruct H as [a l0 m e0 l2 Hu _ _]. rewrite c_prev_last. exact (fpue_live _ _ _ _ _ Hu).
Qed.

Lemma dbiter_bisim : bisim (dbiter_ops ucmp I fuel q) (view_cursor ucmp V) DRel.
Proof.
  constructor.
  - intros o t. reflexivity.
  - intros a b H. symmetry. exact (DRel_get a b H).
  - exact DRel_first.
  - exact DRel_last.
  - intros t a b. exact (DRel_seek t a b).
  - exact DRel_next.
  - exact DRel_prev.
Qed.

End DbIterOver.

(* Side facts, used by nothing: the three loops of DbIter.v run on the list cursor itself give the
   same result for any two fuels that both cover the entries left in the loop's direction.  The
   fuel argument of [dbiter_shows_view] is [fuel_split] in Section DbIterOver, not these.
   [Hfuel], and [TO] outside [lt_le_key], stand in the closed statements through [Proof using]
   alone: no proof here needs them. *)
Section DbIterCursor.
Variable ucmp : bytes -> bytes -> comparison.
Context {TO : total_order ucmp}.
Variable q : N.
Variable l : list entry.
Variable fuel : nat.
Hypothesis Hfuel : (length l + 2 <= fuel)%nat.

Notation I := (cursor_ops (itge ucmp) (itcmp ucmp) l).

Definition pos (c : cursor) : nat := match c with Some j => j | None => length l end.

Lemma next_shape j : c_next l (Some j) = Some (S j) \/ (c_next l (Some j) = None /\ (length l <= S j)%nat).
Proof using Hfuel.
  unfold c_next. destruct (S j <? length l)%nat eqn:E; [left; reflexivity|right].
  split; [reflexivity|apply Nat.ltb_ge; exact E].
Qed.

Lemma find_next_fuel : forall n m c sk skip,
  (length l <= n + pos c)%nat -> (length l <= m + pos c)%nat ->
  find_next_loop ucmp I q n c sk skip = find_next_loop ucmp I q m c sk skip.
Proof using TO Hfuel.
  assert (Hend : forall n c sk skip, c_get l c = None -> find_next_loop ucmp I q n c sk skip = (c, false)).
  { intros [|n] c sk skip G; [reflexivity|]. cbn [find_next_loop i_get cursor_ops]. rewrite G. reflexivity. }
  induction n as [|n IH]; intros m c sk skip Hn Hm.
  - assert (G : c_get l c = None).
    { destruct c as [j|]; [|reflexivity]. apply nth_error_None. exact Hn. }
    rewrite !Hend by exact G. reflexivity.
  - destruct (c_get l c) as [e|] eqn:G; [|rewrite !Hend by exact G; reflexivity].
    destruct c as [j|]; [|discriminate]. cbn [pos] in Hn, Hm.
    assert (Hj : (j < length l)%nat) by (apply nth_error_Some; cbn [c_get] in G; congruence).
    destruct m as [|m]; [exfalso; apply (Nat.lt_irrefl j), (Nat.lt_le_trans _ _ _ Hj Hm)|].
    cbn [find_next_loop i_get i_next cursor_ops]. rewrite G.
    assert (Hrec : forall sk' skip',
              find_next_loop ucmp I q n (c_next l (Some j)) sk' skip' =
              find_next_loop ucmp I q m (c_next l (Some j)) sk' skip').
    { intros sk' skip'. clear -IH Hn Hm Hfuel.
      apply IH; destruct (next_shape j) as [->|[-> H]]; cbn [pos]; lia. }
    destruct (es e <=? q); [|apply Hrec].
    destruct (et e); [|apply Hrec].
    destruct (sk && ule ucmp (ek e) skip); [apply Hrec|reflexivity].
Qed.

Definition lo (c : cursor) : nat := match c with Some j => S j | None => O end.

Lemma find_prev_fuel : forall k c n m have skey sval,
  lo c = k -> (k <= n)%nat -> (k <= m)%nat -> c_wf l c ->
  find_prev_loop ucmp I q n c have skey sval = find_prev_loop ucmp I q m c have skey sval.
Proof using TO Hfuel.
  induction k as [|k IH]; intros c n m have skey sval Hlo Hn Hm Hwf.
  - destruct c as [j|]; [discriminate|]. destruct n, m; reflexivity.
  - destruct c as [j|]; [|discriminate]. cbn [lo] in Hlo. injection Hlo as <-.
    destruct n as [|n]; [inversion Hn|]. destruct m as [|m]; [inversion Hm|].
    cbn [find_prev_loop i_get i_prev cursor_ops c_get]. destruct (nth_error l j) as [e|]; [|reflexivity].
    assert (Hrec : forall have' skey' sval',
              find_prev_loop ucmp I q n (c_prev l (Some j)) have' skey' sval' =
              find_prev_loop ucmp I q m (c_prev l (Some j)) have' skey' sval').
    { intros have' skey' sval'. apply (IH (c_prev l (Some j))).
      - destruct j; reflexivity.
      - apply le_S_n. exact Hn.
      - apply le_S_n. exact Hm.
      - apply c_prev_wf. exact Hwf. }
    destruct (es e <=? q); [|apply Hrec].
    destruct (have && ult ucmp (ek e) skey); [reflexivity|].
    destruct (et e); apply Hrec.
Qed.

Lemma back_loop_fuel : forall n m j k,
  (j < n)%nat -> (j < m)%nat ->
  back_loop ucmp I n (Some j) k = back_loop ucmp I m (Some j) k.
Proof using TO Hfuel.
  induction n as [|n IH]; intros m j k Hn Hm; [inversion Hn|]. destruct m as [|m]; [inversion Hm|].
  cbn [back_loop i_get i_prev cursor_ops]. destruct j as [|j']; cbn [c_prev c_get]; [reflexivity|].
  destruct (nth_error l j') as [e|]; [|reflexivity].
  destruct (ult ucmp (ek e) k); [reflexivity|]. apply IH; apply le_S_n; assumption.
Qed.

Lemma lt_le_key a b c : ucmp a b = Lt -> ucmp b c <> Gt -> ucmp a c = Lt.
Proof. apply (cmp_lt_le TO). Qed.

End DbIterCursor.

(* db_iter.c over an internal iterator that behaves as a cursor on a strictly sorted run
   shows exactly the live view of the run, for every script *)
Theorem dbiter_shows_view :
  forall ucmp, total_order ucmp -> forall St (I : iter_ops St itarget entry) Ri a es q fuel,
  sorted_run ucmp es = true -> (length es + 2 <= fuel)%nat ->
  bisim I (cursor_ops (itge ucmp) (itcmp ucmp) es) Ri -> Ri a None ->
  simulates (dbiter_ops ucmp I fuel q) (d_init a) (view_cursor ucmp (live_of_sorted ucmp q None es)) None.
Proof.
  intros ucmp TO St I Ri a es q fuel Hs Hf B Ha. apply (sorted_run_Srt ucmp) in Hs.
  apply (bisim_scripts _ _ _ (dbiter_bisim ucmp q es Hs fuel Hf I Ri B)).
  split; [exists None; exact Ha|reflexivity].
Qed.

(* ... so over the cursor itself *)
Theorem dbiter_is_view_cursor :
  forall ucmp, total_order ucmp -> forall es q fuel,
  sorted_run ucmp es = true -> (length es + 2 <= fuel)%nat ->
  simulates (dbiter_ops ucmp (cursor_ops (itge ucmp) (itcmp ucmp) es) fuel q) (d_init None)
            (view_cursor ucmp (live_of_sorted ucmp q None es)) None.
Proof.
  intros ucmp TO es q fuel Hs Hf.
  exact (dbiter_shows_view ucmp TO _ _ eq None es q fuel Hs Hf (bisim_refl _) eq_refl).
Qed.

Print Assumptions dbiter_is_view_cursor.
