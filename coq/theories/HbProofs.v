(** HbProofs.v -- data-race freedom from disciplines (property C10).

    A pair of conflicting accesses is no race once it is ordered, [hb ex i j \/ hb ex j i] (ordered_no_race), and
    there are three ways to order one: a common mutex (lock_ordered, over the invariant holder_hb along the
    execution), publication (pub_ordered: rel_acq_hb puts a reader after the publishing store), or the pair is no
    conflict at all.
    lockset_drf, publish_drf, atomic_drf : stand-alone discipline theorems, one way each.
    C10_drf_generic : a consistent fact table has only race-free executions; generic_ordered goes through the
    disjuncts of [pair_ok] and reads off [respects] which of the ways applies; the two [GInit] cases use none of
    the three, there the ordering is a premise written into [respects].
    sorted_pairs_ok : [pairs_ok] in one pass over a table sorted by location, the form C10_this_tree evaluates.
    racy_ex, toy_facts/toy_ex : an execution with a race; a small table with an execution of it.
    All statements quantify over arbitrary (unbounded) executions. *)
Require Import List Arith Bool Lia Relations String.
Import ListNotations.
Require Import LCDB.ListFacts LCDB.Hb.

Lemma ev_lt : forall (ex : execution) n e, ev ex n = Some e -> n < List.length ex.
Proof.
  intros ex n e H. unfold ev in H. apply nth_error_Some. rewrite H. discriminate.
Qed.

Lemma ev_some : forall (ex : execution) n, n < List.length ex -> exists e, ev ex n = Some e.
Proof.
  intros ex n H. unfold ev. destruct (nth_error ex n) as [e|] eqn:E; [eauto|]. apply nth_error_None in E. lia.
Qed.

Lemma firstn_S_ev : forall (ex : execution) n e,
  ev ex n = Some e -> firstn (S n) ex = firstn n ex ++ [e].
Proof. intros ex. exact (firstn_S_nth ex). Qed.

Lemma holder_S : forall ex m n e,
  ev ex n = Some e -> holder ex m (S n) = step m (holder ex m n) e.
Proof.
  intros ex m n e H. unfold holder. rewrite (firstn_S_ev ex n e H), fold_left_app. reflexivity.
Qed.

Lemma is_lock_on_true : forall m e, is_lock_on m e = true -> e_kind e = Lock /\ e_loc e = m.
Proof.
  intros m e H. unfold is_lock_on in H. destruct (e_kind e); try discriminate.
  apply Nat.eqb_eq in H. auto.
Qed.

Lemma is_unlock_on_true : forall m e, is_unlock_on m e = true -> e_kind e = Unlock /\ e_loc e = m.
Proof.
  intros m e H. unfold is_unlock_on in H. destruct (e_kind e); try discriminate.
  apply Nat.eqb_eq in H. auto.
Qed.

Lemma is_lock_on_intro : forall m e, e_kind e = Lock -> e_loc e = m -> is_lock_on m e = true.
Proof. intros m e Hk Hl. unfold is_lock_on. rewrite Hk. apply Nat.eqb_eq. exact Hl. Qed.

Lemma unlock_not_lock : forall m m' e, is_unlock_on m e = true -> is_lock_on m' e = false.
Proof.
  intros m m' e H. apply is_unlock_on_true in H. destruct H as [Hk _].
  unfold is_lock_on. rewrite Hk. reflexivity.
Qed.

Lemma access_not_unlock : forall m e, is_access e = true -> is_unlock_on m e = false.
Proof.
  intros m e H. unfold is_access, kind_is_access in H. unfold is_unlock_on.
  destruct (e_kind e); try discriminate; reflexivity.
Qed.

Lemma kind_write_false_read : forall e, is_access e = true -> kind_is_write (e_kind e) = false -> e_kind e = Read.
Proof.
  intros e Ha Hw. unfold is_access, kind_is_access in Ha.
  destruct (e_kind e); try discriminate; reflexivity.
Qed.

Lemma hb1_lt : forall ex i j, hb1 ex i j -> i < j.
Proof. intros ex i j [[H _]|[H _]]; exact H. Qed.

Lemma hb_lt : forall ex i j, hb ex i j -> i < j.
Proof.
  intros ex i j H. induction H as [i j H|i k j _ IH1 _ IH2].
  - eapply hb1_lt; eauto.
  - lia.
Qed.

Lemma sb_hb : forall ex i j ei ej,
  i < j -> ev ex i = Some ei -> ev ex j = Some ej -> e_tid ei = e_tid ej -> hb ex i j.
Proof.
  intros ex i j ei ej Hlt Hi Hj Ht. apply t_step. left. split; [exact Hlt|].
  exists ei, ej. auto.
Qed.

Lemma hb_trans : forall ex i k j, hb ex i k -> hb ex k j -> hb ex i j.
Proof. intros ex i k j H1 H2. eapply t_trans; eauto. Qed.

Lemma conflict_sym : forall ei ej, conflict ei ej -> conflict ej ei.
Proof. intros ei ej (Ai & Aj & Hl & Ht & Hw & Hm). repeat split; auto; tauto. Qed.

Lemma race_sym : forall ex i j, race ex i j -> race ex j i.
Proof.
  intros ex i j (ei & ej & Hi & Hj & Hne & Hc & Hn1 & Hn2).
  exists ej, ei. split; [exact Hj|]. split; [exact Hi|]. split; [congruence|]. split; [exact (conflict_sym _ _ Hc)|]. split; assumption.
Qed.

(** To exclude a race it is enough to order the access with every conflicting partner. *)
Lemma ordered_no_race : forall ex i j ei, ev ex i = Some ei ->
  (forall ej, ev ex j = Some ej -> i <> j -> conflict ei ej -> hb ex i j \/ hb ex j i) -> ~ race ex i j.
Proof.
  intros ex i j ei Hi H (ei' & ej & Hi' & Hj & Hne & Hc & Hn1 & Hn2).
  rewrite Hi in Hi'. injection Hi' as <-. destruct (H ej Hj Hne Hc); contradiction.
Qed.

(** Who unlocked, who locked: where a decidable property of the holder of [m] is lost between two points, one
    event in between loses it. *)
Lemma holder_change : forall ex m (Q : option tid -> Prop), (forall o, Q o \/ ~ Q o) ->
  forall a b, a <= b -> b <= List.length ex -> Q (holder ex m a) -> ~ Q (holder ex m b) ->
  exists k e, a <= k < b /\ ev ex k = Some e /\ Q (holder ex m k) /\ ~ Q (step m (holder ex m k) e).
Proof.
  intros ex m Q D a b Hab. induction Hab as [|b' Hab IH]; intros Hlen Ha Hb; [contradiction|].
  destruct (ev_some ex b') as [e He]; [lia|]. rewrite (holder_S ex m b' e He) in Hb.
  destruct (D (holder ex m b')) as [Hq|Hq].
  - exists b', e. repeat split; auto.
  - destruct (IH ltac:(lia) Ha Hq) as (k & e' & Hk & R). exists k, e'. split; [lia|exact R].
Qed.

Lemma holds_dec : forall (t : tid) o, o = Some t \/ o <> Some t.
Proof. intros t [t'|]; [destruct (Nat.eq_dec t' t) as [->|]; [left; reflexivity|right; congruence]|right; discriminate]. Qed.

Lemma find_unlock : forall ex m t, wf_mutex ex ->
  forall a b, a <= b -> b <= List.length ex ->
  holder ex m a = Some t -> holder ex m b <> Some t ->
  exists u eu, a <= u < b /\ ev ex u = Some eu /\ is_unlock_on m eu = true /\ e_tid eu = t.
Proof.
  intros ex m t WF a b Hab Hlen Ha Hb.
  destruct (holder_change ex m (fun o => o = Some t) (holds_dec t) a b Hab Hlen Ha Hb) as (u & e & Hu & He & Hh & Hn).
  exists u, e. split; [exact Hu|]. split; [exact He|]. unfold step in Hn. destruct (WF u e He) as [W1 W2].
  destruct (is_lock_on m e) eqn:Hl.
  - destruct (is_lock_on_true m e Hl) as [Hk Hm]. specialize (W1 Hk). rewrite Hm in W1. congruence.
  - destruct (is_unlock_on m e) eqn:Hun; [|contradiction]. split; [reflexivity|].
    destruct (is_unlock_on_true m e Hun) as [Hk Hm]. specialize (W2 Hk). rewrite Hm in W2. congruence.
Qed.

Lemma find_lock : forall ex m t,
  forall a b, a <= b -> b <= List.length ex ->
  holder ex m a <> Some t -> holder ex m b = Some t ->
  exists l el, a <= l < b /\ ev ex l = Some el /\ is_lock_on m el = true /\ e_tid el = t.
Proof.
  intros ex m t a b Hab Hlen Ha Hb.
  destruct (holder_change ex m (fun o => o <> Some t)
              (fun o => match holds_dec t o with or_introl H => or_intror (fun N => N H) | or_intror H => or_introl H end)
              a b Hab Hlen Ha (fun H => H Hb)) as (l & e & Hl & He & Hh & Hn).
  exists l, e. split; [exact Hl|]. split; [exact He|]. unfold step in Hn. destruct (is_lock_on m e).
  - split; [reflexivity|]. destruct (Nat.eq_dec (e_tid e) t) as [Ht|Ht]; [exact Ht|]. exfalso. apply Hn. congruence.
  - exfalso. apply Hn. destruct (is_unlock_on m e); [discriminate|exact Hh].
Qed.

(** The mutex argument, as one invariant along the execution.  Event [i] is made by the thread that holds [m].
    At every point [n] from [i] on: if another thread [t] holds [m], some earlier event of [t] (the lock that opened its
    critical section) happens after [i]; if [m] is free, the last unlock is [i] or happens after [i], and no lock of
    [m] has followed it yet, so that the next lock synchronises with it. *)
Lemma holder_hb : forall ex m i ei, wf_mutex ex -> ev ex i = Some ei -> holder ex m i = Some (e_tid ei) ->
  forall n, i <= n -> n <= List.length ex ->
    match holder ex m n with
    | Some t => t <> e_tid ei -> exists l el, l < n /\ ev ex l = Some el /\ e_tid el = t /\ hb ex i l
    | None => exists u eu, u < n /\ ev ex u = Some eu /\ is_unlock_on m eu = true /\ (u = i \/ hb ex i u) /\
                forall k ek, u < k < n -> ev ex k = Some ek -> is_lock_on m ek = false
    end.
Proof.
  intros ex m i ei WF Hi Hh n Hle. induction Hle as [|n Hle IH]; intros Hlen; [rewrite Hh; congruence|].
  destruct (ev_some ex n) as [e He]; [lia|]. specialize (IH ltac:(lia)).
  rewrite (holder_S ex m n e He). unfold step. destruct (WF n e He) as [W1 W2].
  destruct (is_lock_on m e) eqn:Hl; [|destruct (is_unlock_on m e) eqn:Hun].
  + (* a lock: [m] was free, and the last unlock synchronises with it *)
    destruct (is_lock_on_true m e Hl) as [Hk Hm]. specialize (W1 Hk). rewrite Hm in W1. rewrite W1 in IH.
    destruct IH as (u & eu & Hu & Heu & Hun & Hhb & Hno). destruct (is_unlock_on_true m eu Hun) as [Hku Hmu].
    intros _. exists n, e. split; [lia|]. split; [exact He|]. split; [reflexivity|].
    assert (Hsw : hb ex u n).
    { apply t_step. right. split; [exact Hu|]. exists eu, e. split; [exact Heu|]. split; [exact He|].
      left. unfold sw_mutex. repeat split; try congruence. intros k ek Hk' Hek. rewrite Hmu. exact (Hno k ek Hk' Hek). }
    destruct Hhb as [->|Hhb]; [exact Hsw|exact (hb_trans ex i u n Hhb Hsw)].
  + (* an unlock, by the holder: [i] itself, a later event of its thread, or of a thread whose critical section began after [i] *)
    destruct (is_unlock_on_true m e Hun) as [Hk Hm]. specialize (W2 Hk). rewrite Hm in W2. rewrite W2 in IH.
    exists n, e. split; [lia|]. split; [exact He|]. split; [exact Hun|]. split; [|intros k ek Hk'; lia].
    destruct (Nat.eq_dec n i) as [Hni|Hni]; [left; exact Hni|right].
    destruct (Nat.eq_dec (e_tid e) (e_tid ei)) as [Heq|Hne]; [apply (sb_hb ex i n ei e); auto; lia|].
    destruct (IH Hne) as (l & el & Hl' & Hel & Htl & Hhb). apply (hb_trans ex i l n Hhb), (sb_hb ex l n el e); auto.
  + destruct (holder ex m n) as [t|].
    * intros Hne. destruct (IH Hne) as (l & el & Hl' & R). exists l, el. split; [lia|exact R].
    * destruct IH as (u & eu & Hu & Heu & Hun' & Hhb & Hno). exists u, eu. repeat split; auto.
      intros k ek Hk' Hek. destruct (Nat.eq_dec k n) as [->|Hkn]; [|apply (Hno k ek); [lia|exact Hek]].
      rewrite He in Hek. injection Hek as <-. exact Hl.
Qed.

(** An unlock happens before every later lock of the same mutex, not only the next one. *)
Lemma unlock_hb_lock : forall ex m u l eu el, wf_mutex ex -> u < l ->
  ev ex u = Some eu -> ev ex l = Some el ->
  is_unlock_on m eu = true -> is_lock_on m el = true -> hb ex u l.
Proof.
  intros ex m u l eu el WF Hul Hu Hl Hun Hlk.
  destruct (is_unlock_on_true m eu Hun) as [Hku Hmu]. destruct (is_lock_on_true m el Hlk) as [Hkl Hml].
  pose proof (proj2 (WF u eu Hu) Hku) as Hhu. rewrite Hmu in Hhu.
  pose proof (holder_hb ex m u eu WF Hu Hhu (S l) ltac:(lia) (ev_lt ex l el Hl)) as H.
  rewrite (holder_S ex m l el Hl) in H. unfold step in H. rewrite Hlk in H.
  destruct (Nat.eq_dec (e_tid el) (e_tid eu)) as [Heq|Hne]; [apply (sb_hb ex u l eu el); auto|].
  destruct (H Hne) as (l' & el' & Hl' & Hel' & Htl' & Hhb).
  destruct (Nat.eq_dec l' l) as [->|Hx]; [exact Hhb|]. apply (hb_trans ex u l' l Hhb), (sb_hb ex l' l el' el); auto. lia.
Qed.

(** The lockset argument: two accesses made while holding the same mutex by
    different threads are ordered. *)
Lemma lock_orders : forall ex m i j ei ej, wf_mutex ex ->
  i < j -> ev ex i = Some ei -> ev ex j = Some ej -> is_access ei = true ->
  holder ex m i = Some (e_tid ei) -> holder ex m j = Some (e_tid ej) ->
  e_tid ei <> e_tid ej -> hb ex i j.
Proof.
  intros ex m i j ei ej WF Hij Hi Hj Hacc Hhi Hhj Hne.
  pose proof (holder_hb ex m i ei WF Hi Hhi j (Nat.lt_le_incl _ _ Hij) (Nat.lt_le_incl _ _ (ev_lt ex j ej Hj))) as H. rewrite Hhj in H.
  destruct H as (l & el & Hl & Hel & Htl & Hhb); [congruence|].
  apply (hb_trans ex i l j Hhb), (sb_hb ex l j el ej); auto.
Qed.

Lemma lock_ordered : forall ex m i j ei ej, wf_mutex ex ->
  i <> j -> ev ex i = Some ei -> ev ex j = Some ej -> is_access ei = true -> is_access ej = true ->
  holder ex m i = Some (e_tid ei) -> holder ex m j = Some (e_tid ej) ->
  e_tid ei <> e_tid ej -> hb ex i j \/ hb ex j i.
Proof.
  intros ex m i j ei ej WF Hne Hi Hj Ai Aj Hhi Hhj Ht.
  destruct (Nat.lt_gt_cases i j) as [[Hlt|Hgt] _]; [exact Hne| |].
  - left. exact (lock_orders ex m i j ei ej WF Hlt Hi Hj Ai Hhi Hhj Ht).
  - right. apply (lock_orders ex m j i ej ei WF Hgt Hj Hi Aj Hhj Hhi). congruence.
Qed.

(** A release store [wr], at or after [w], that an acquire load [r] reads from: whatever the reading thread does
    after [r] happens after [w]. *)
Lemma rel_acq_hb : forall ex w wr r j ewr er ej, wf_rf ex ->
  ev ex wr = Some ewr -> ev ex r = Some er -> ev ex j = Some ej ->
  wr = w \/ hb ex w wr -> e_kind er = Read -> e_rf er = Some wr ->
  is_rel (e_mo ewr) = true -> is_acq (e_mo er) = true ->
  r < j -> e_tid er = e_tid ej -> hb ex w j.
Proof.
  intros ex w wr r j ewr er ej WR Hwr Hr Hj Hchain Hkr Hrf Hrel Hacq Hrj Htr.
  destruct (WR r er wr Hr Hkr Hrf) as (Hlt & ewr' & Hwr' & Hkw & Hloc).
  rewrite Hwr in Hwr'. inversion Hwr'; subst ewr'.
  assert (H : hb ex wr j).
  { apply (hb_trans ex wr r j); [|apply (sb_hb ex r j er ej); auto].
    apply t_step. right. split; [exact Hlt|]. exists ewr, er. repeat split; auto.
    right. left. unfold sw_rf. repeat split; auto. }
  destruct Hchain as [<-|Hh]; [exact H|exact (hb_trans ex w wr j Hh H)].
Qed.

Corollary chain_hb : forall ex i w wr r j ei ew ewr er ej, wf_rf ex ->
  ev ex i = Some ei -> ev ex w = Some ew -> ev ex wr = Some ewr ->
  ev ex r = Some er -> ev ex j = Some ej ->
  e_tid ei = e_tid ew -> i < w -> (wr = w \/ hb ex w wr) ->
  e_kind er = Read -> e_rf er = Some wr ->
  is_rel (e_mo ewr) = true -> is_acq (e_mo er) = true ->
  r < j -> e_tid er = e_tid ej -> hb ex i j.
Proof.
  intros ex i w wr r j ei ew ewr er ej WR Hi Hw Hwr Hr Hj Ht Hiw Hchain Hkr Hrf Hrel Hacq Hrj Htr.
  apply (hb_trans ex i w j); [exact (sb_hb ex i w ei ew Hiw Hi Hw Ht)|].
  exact (rel_acq_hb ex w wr r j ewr er ej WR Hwr Hr Hj Hchain Hkr Hrf Hrel Hacq Hrj Htr).
Qed.

(** What publication by the store number [w] of thread [t0] comes to for one access [e], number [i], to a field of
    the object: it is made by [t0] (a write only before [w]), or it is a read that happens after [w]. *)
Definition pub_side (ex : execution) (t0 : tid) (w i : nat) (e : event) : Prop :=
  (e_tid e = t0 /\ (i < w \/ e_kind e = Read)) \/ (e_kind e = Read /\ hb ex w i).

Lemma pub_ordered : forall ex t0 w ew i j ei ej, ev ex w = Some ew -> e_tid ew = t0 ->
  ev ex i = Some ei -> ev ex j = Some ej -> e_tid ei <> e_tid ej -> e_kind ei = Write \/ e_kind ej = Write ->
  pub_side ex t0 w i ei -> pub_side ex t0 w j ej -> hb ex i j \/ hb ex j i.
Proof.
  intros ex t0 w ew i j ei ej Hw Htw Hi Hj Ht Hwr [[Hti Hci]|[Hki Hri]] [[Htj Hcj]|[Hkj Hrj]].
  - congruence.
  - (* i is the creator's write, so before the publication; j a reader *)
    assert (Hiw : i < w) by (destruct Hci as [Hc|Hc]; [exact Hc|destruct Hwr; congruence]).
    left. apply (hb_trans ex i w j); [apply (sb_hb ex i w ei ew); auto; congruence|exact Hrj].
  - assert (Hjw : j < w) by (destruct Hcj as [Hc|Hc]; [exact Hc|destruct Hwr; congruence]).
    right. apply (hb_trans ex j w i); [apply (sb_hb ex j w ej ew); auto; congruence|exact Hri].
  - destruct Hwr; congruence.
Qed.

Theorem lockset_drf : forall ex init x m,
  wf_mutex ex -> guarded_by ex init x m ->
  forall i j ei, ev ex i = Some ei -> e_loc ei = x ->
    init i = false -> init j = false -> ~ race ex i j.
Proof.
  intros ex init x m WF G i j ei Hi Hx Ii Ij. apply (ordered_no_race ex i j ei Hi).
  intros ej Hj Hne (Ai & Aj & Hl & Ht & _).
  apply (lock_ordered ex m i j ei ej WF Hne Hi Hj Ai Aj); [apply (G i ei); auto|apply (G j ej); auto; congruence|exact Ht].
Qed.

Theorem publish_drf : forall ex fld t0 w,
  wf_rf ex -> published_object ex fld t0 w ->
  forall i j ei, ev ex i = Some ei -> fld (e_loc ei) = true -> ~ race ex i j.
Proof.
  intros ex fld t0 w WR [(ew & Hw & Htw & _) PO] i j ei Hi Hf.
  assert (Hside : forall k ek, ev ex k = Some ek -> is_access ek = true -> fld (e_loc ek) = true -> pub_side ex t0 w k ek).
  { intros k ek Hk Ak Hfk.
    destruct (PO k ek Hk Ak Hfk) as [H|(Hkk & r & er & wr & ewr & Hrk & Her & Htr & Hkr & Hacq & Hrf & Hewr & Hrel & Hch)];
      [left; exact H|right].
    split; [exact Hkk|]. apply (rel_acq_hb ex w wr r k ewr er ek); auto. }
  apply (ordered_no_race ex i j ei Hi). intros ej Hj _ (Ai & Aj & Hl & Ht & Hwr & _).
  apply (pub_ordered ex t0 w ew i j ei ej Hw Htw Hi Hj Ht Hwr); apply Hside; auto. congruence.
Qed.

Theorem atomic_drf : forall ex x, only_atomic ex x ->
  forall i j ei, ev ex i = Some ei -> e_loc ei = x -> ~ race ex i j.
Proof.
  intros ex x OA i j ei Hi Hx. apply (ordered_no_race ex i j ei Hi). intros ej Hj _ (Ai & Aj & Hl & _ & _ & Hm).
  pose proof (OA i ei Hi Ai Hx) as H1.
  pose proof (OA j ej Hj Aj ltac:(congruence)) as H2.
  destruct Hm as [Hm|Hm]; rewrite Hm in *; discriminate.
Qed.

(** Fork gives half of the ordering behind the [GInit] guard: what a thread
    did before creating a child happens before everything the child does.
    (The join half, through [sw_join], is not proved; [execution_of] assumes
    the ordering of [GInit] accesses outright.) *)
Lemma before_fork_hb : forall ex i f j ei ef ej c,
  ev ex i = Some ei -> ev ex f = Some ef -> ev ex j = Some ej ->
  e_tid ei = e_tid ef -> i < f -> e_kind ef = Fork c -> e_tid ej = c ->
  (forall k ek, k <= f -> ev ex k = Some ek -> e_tid ek <> c) ->
  hb ex i j.
Proof.
  intros ex i f j ei ef ej c Hi Hf Hj Ht Hif Hk Hc Hfresh.
  (* the first event [n] of the child: the fork synchronises with it *)
  destruct (dec_inh_nat_subset_has_unique_least_element (fun k => exists e, ev ex k = Some e /\ e_tid e = c))
    as (n & ((en & Hen & Hcn) & Hmin) & _).
  { intros k. destruct (ev ex k) as [e|]; [|right; intros (e & He & _); discriminate].
    destruct (Nat.eq_dec (e_tid e) c) as [Heq|Hne]; [left; eauto|right; intros (e' & He' & Hc'); congruence]. }
  { eauto. }
  assert (Hfn : f < n).
  { destruct (Nat.le_gt_cases n f) as [Hle|Hgt]; [|exact Hgt]. exfalso. exact (Hfresh n en Hle Hen Hcn). }
  assert (H2 : hb ex f n).
  { apply t_step. right. split; [exact Hfn|]. exists ef, en. repeat split; auto.
    right. right. left. exists c. repeat split; auto.
    intros k ek Hkn Hek Hck. specialize (Hmin k (ex_intro _ ek (conj Hek Hck))). lia. }
  apply (hb_trans ex i f j (sb_hb ex i f ei ef Hif Hi Hf Ht)).
  specialize (Hmin j (ex_intro _ ej (conj Hj Hc))).
  destruct (Nat.eq_dec n j) as [->|Hnj]; [exact H2|].
  apply (hb_trans ex f n j H2), (sb_hb ex n j en ej); auto; try lia; congruence.
Qed.

Lemma pair_ok_cases : forall a b, pair_ok a b = true ->
  is_init (ac_guard a) = true \/ is_init (ac_guard b) = true \/
  (kind_is_write (ac_kind a) = false /\ kind_is_write (ac_kind b) = false) \/
  (mo_atomic (ac_mo a) = true /\ mo_atomic (ac_mo b) = true) \/
  share_lock a b = true \/ both_tl a b = true \/ same_pub a b = true.
Proof.
  intros a b H. unfold pair_ok in H.
  repeat match goal with
  | Hx : (_ || _) = true |- _ => apply orb_true_iff in Hx; destruct Hx as [Hx|Hx]
  end; auto 10.
  - apply andb_true_iff in H. destruct H as [H1 H2].
    apply negb_true_iff in H1. apply negb_true_iff in H2. auto 10.
  - apply andb_true_iff in H. auto 10.
Qed.

Lemma share_lock_inv : forall a b, share_lock a b = true ->
  exists M, In M (locks_of (ac_guard a)) /\ In M (locks_of (ac_guard b)).
Proof.
  intros a b H. unfold share_lock in H. apply existsb_exists in H.
  destruct H as (M & HinA & H). apply existsb_exists in H. destruct H as (M' & HinB & He).
  apply Nat.eqb_eq in He. subst M'. exists M. auto.
Qed.

Lemma check_facts_inv : forall F, check_facts F = true ->
  (forall a, In a F -> class_wf a = true) /\
  (forall a b, In a F -> In b F -> ac_loc a = ac_loc b -> pair_ok a b = true).
Proof.
  intros F H. unfold check_facts in H.
  apply andb_true_iff in H. destruct H as [H Hp]. apply andb_true_iff in H. destruct H as [Hwf _].
  split.
  - intros a Ha. rewrite forallb_forall in Hwf. apply Hwf. exact Ha.
  - intros a b Ha Hb Hl. unfold pairs_ok in Hp. rewrite forallb_forall in Hp.
    specialize (Hp a Ha). rewrite forallb_forall in Hp. specialize (Hp b Hb).
    apply orb_true_iff in Hp. destruct Hp as [Hp|Hp]; [|exact Hp].
    apply negb_true_iff in Hp. apply Nat.eqb_neq in Hp. contradiction.
Qed.

(** [pairs_ok] compares every class with every class.  In a table sorted by location class the classes of one location
    stand together: it is enough to compare each class with itself and with those that follow it, up to the first one
    on a later location ([run_ok]); the same pass sees that the table is sorted.  This relies on bin/facts_c10.py, which
    sorts the classes by location and numbers the locations in that order before it prints Facts_C10.v.  If it did not,
    [sorted_pairs_ok] would be false and C10_this_tree would fail; it could not hold wrongly, since
    [sorted_pairs_ok F = true] implies [pairs_ok F = true] for every table.  ([pairs_ok] itself is slow to re-check on
    Facts_C10.v: 39204 comparisons of unary numbers under coqchk.) *)
Fixpoint run_ok (a : access_class) (r : list access_class) : bool :=
  match r with
  | b :: r' => if Nat.eqb (ac_loc a) (ac_loc b) then pair_ok a b && pair_ok b a && run_ok a r'
               else Nat.ltb (ac_loc a) (ac_loc b)
  | [] => true
  end.

Fixpoint sorted_pairs_ok (F : list access_class) : bool :=
  match F with
  | a :: r => pair_ok a a && run_ok a r && sorted_pairs_ok r
  | [] => true
  end.

(** [b] is on a later location than [a], or on the same one and compatible with it. *)
Definition later_or_ok (a b : access_class) : Prop :=
  ac_loc a < ac_loc b \/ (ac_loc a = ac_loc b /\ pair_ok a b = true /\ pair_ok b a = true).

Lemma run_ok_sound : forall a r, ForallOrdPairs later_or_ok r -> run_ok a r = true -> Forall (later_or_ok a) r.
Proof.
  intros a r S. induction S as [|b r Hb S IH]; intros H; [constructor|]. cbn [run_ok] in H.
  destruct (Nat.eqb (ac_loc a) (ac_loc b)) eqn:E.
  - apply Nat.eqb_eq in E. apply andb_true_iff in H. destruct H as [H Hr]. apply andb_true_iff in H.
    constructor; [right; tauto|exact (IH Hr)].
  - (* [b] is on a later location, and so is all that follows it *)
    apply Nat.ltb_lt in H. constructor; [left; exact H|]. apply (Forall_impl _ (P := later_or_ok b)); [|exact Hb].
    intros x [Hx|[Hx _]]; left; lia.
Qed.

Lemma sorted_pairs_ok_pairs_ok : forall F, sorted_pairs_ok F = true -> pairs_ok F = true.
Proof.
  intros F H.
  assert (S : ForallOrdPairs later_or_ok F /\ Forall (fun a => pair_ok a a = true) F).
  { induction F as [|c r IH]; [split; constructor|].
    cbn [sorted_pairs_ok] in H. apply andb_true_iff in H. destruct H as [H Hr]. apply andb_true_iff in H. destruct H as [Hc Hrun].
    destruct (IH Hr) as [S D]. split; constructor; auto using run_ok_sound. }
  destruct S as [S D]. rewrite Forall_forall in D.
  apply forallb_forall. intros a Ha. apply forallb_forall. intros b Hb.
  destruct (Nat.eqb (ac_loc a) (ac_loc b)) eqn:E; [|reflexivity]. apply Nat.eqb_eq in E.
  destruct (ForallOrdPairs_In S a b Ha Hb) as [<-|[[Hlt|Hok]|[Hlt|Hok]]]; [exact (D a Ha)|lia|tauto|lia|tauto].
Qed.

Lemma class_wf_publish : forall a, class_wf a = true -> ac_role a = RPublish -> is_rel (ac_mo a) = true.
Proof.
  intros a H Hr. unfold class_wf in H. rewrite Hr in H.
  apply andb_true_iff in H. destruct H as [_ H]. apply andb_true_iff in H. tauto.
Qed.

Lemma class_wf_traverse : forall a, class_wf a = true -> ac_role a = RTraverse -> is_acq (ac_mo a) = true.
Proof.
  intros a H Hr. unfold class_wf in H. rewrite Hr in H.
  apply andb_true_iff in H. destruct H as [_ H]. apply andb_true_iff in H. tauto.
Qed.

Lemma generic_ordered : forall F, check_facts F = true ->
  forall ex, execution_of F ex ->
  forall i j ei ej, i <> j -> ev ex i = Some ei -> ev ex j = Some ej -> conflict ei ej ->
    hb ex i j \/ hb ex j i.
Proof.
  intros F CF ex (WM & WR & I & HI) i j ei ej Hij Hi Hj (Ai & Aj & Hl & Ht & Hw & Hm).
  destruct (check_facts_inv F CF) as [Hwf Hpairs].
  destruct (HI i ei Hi Ai) as (Hina & (Hlca & Hka & Hma) & Hra).
  destruct (HI j ej Hj Aj) as (Hinb & (Hlcb & Hkb & Hmb) & Hrb).
  set (a := i_lab I i) in *. set (b := i_lab I j) in *.
  assert (Hloc : ac_loc a = ac_loc b) by congruence.
  pose proof (Hpairs a b Hina Hinb Hloc) as Hok.
  apply pair_ok_cases in Hok.
  destruct Hok as [Hok|[Hok|[Hok|[Hok|[Hok|[Hok|Hok]]]]]].
  - (* a is an exclusive-phase access *)
    unfold respects in Hra. destruct (ac_guard a); try discriminate.
    apply (Hra j ej); auto; congruence.
  - unfold respects in Hrb. destruct (ac_guard b); try discriminate.
    destruct (Hrb i ei) as [H|H]; auto.
  - (* two reads *)
    destruct Hok as [H1 H2]. rewrite <- Hka in H1. rewrite <- Hkb in H2.
    destruct Hw as [Hx|Hx]; rewrite Hx in *; discriminate.
  - (* two atomics *)
    destruct Hok as [H1 H2]. rewrite <- Hma in H1. rewrite <- Hmb in H2.
    destruct Hm as [Hx|Hx]; rewrite Hx in *; discriminate.
  - (* a common lock class *)
    apply share_lock_inv in Hok. destruct Hok as (M & HMa & HMb).
    unfold respects in Hra, Hrb.
    destruct (ac_guard a) as [msa| | | |]; cbn in HMa; try contradiction.
    destruct (ac_guard b) as [msb| | | |]; cbn in HMb; try contradiction.
    apply (lock_ordered ex (i_mu I M (e_loc ei)) i j ei ej); auto.
    rewrite Hl. apply Hrb. exact HMb.
  - (* thread-local *)
    unfold both_tl in Hok. unfold respects in Hra.
    destruct (ac_guard a); try discriminate.
    exfalso. apply Ht. symmetry. apply (Hra j ej); auto.
  - (* published through the same pointer class *)
    unfold same_pub in Hok. unfold respects in Hra, Hrb.
    destruct (ac_guard a) as [|pa| | |]; try discriminate.
    destruct (ac_guard b) as [|pb| | |]; try discriminate.
    pose proof Hra as (ew & Hew & _).
    (* the roles of [published] give the memory orders that make the traversal load synchronise with the store *)
    assert (Hside : forall k ek, ev ex k = Some ek -> e_loc ek = e_loc ei -> published ex I k ek ->
                      pub_side ex (e_tid ew) (i_pub I (e_loc ei)) k ek).
    { intros k ek Hk Hlk (ew' & Hew' & _ & _ & Hc). rewrite Hlk, Hew in *. injection Hew' as <-.
      destruct Hc as [Hc|(Hkk & r & er & wr & Hri & Her & Htr & Hkr & Hrole & Hrf & Hrolew & Hch)]; [left; exact Hc|right].
      destruct (WR r er wr Her Hkr Hrf) as (Hlt & ewr & Hewr & Hkwr & Hlwr).
      assert (Aer : is_access er = true) by (unfold is_access; rewrite Hkr; reflexivity).
      assert (Aewr : is_access ewr = true) by (unfold is_access; rewrite Hkwr; reflexivity).
      destruct (HI r er Her Aer) as (Hinr & (_ & _ & Hmr) & _).
      destruct (HI wr ewr Hewr Aewr) as (Hinw & (_ & _ & Hmw) & _).
      split; [exact Hkk|]. apply (rel_acq_hb ex (i_pub I (e_loc ei)) wr r k ewr er ek); auto.
      - rewrite Hmw. apply class_wf_publish; auto.
      - rewrite Hmr. apply class_wf_traverse; auto. }
    apply (pub_ordered ex (e_tid ew) (i_pub I (e_loc ei)) ew i j ei ej); auto.
Qed.

(** A consistent fact table has only race-free executions. *)
Theorem C10_drf_generic : forall F, check_facts F = true ->
  forall ex, execution_of F ex -> race_free ex.
Proof.
  intros F CF ex EX i j R. pose proof R as (ei & _ & Hi & _). revert R.
  apply (ordered_no_race ex i j ei Hi). intros ej Hj Hne. exact (generic_ordered F CF ex EX i j ei ej Hne Hi Hj).
Qed.

(** Two unsynchronised non-atomic writes race. *)
Definition racy_ex : execution :=
  [ mkEvent 1 Write 7 NonAtomic None; mkEvent 2 Write 7 NonAtomic None ].

Lemma racy_hb1 : forall i j, hb1 racy_ex i j -> False.
Proof.
  intros i j H. pose proof (hb1_lt _ _ _ H) as Hlt.
  assert (Hb : forall k e, ev racy_ex k = Some e -> k < 2).
  { intros k e Hk. apply ev_lt in Hk. cbn in Hk. exact Hk. }
  destruct H as [(_ & ei & ej & Hi & Hj & Ht)|(_ & ei & ej & Hi & Hj & Hs)];
    pose proof (Hb i ei Hi) as Bi; pose proof (Hb j ej Hj) as Bj;
    assert (i = 0) by lia; assert (j = 1) by lia; subst i j;
    unfold ev in Hi, Hj; cbn in Hi, Hj; inversion Hi; inversion Hj; subst ei ej.
  - cbn in Ht. discriminate.
  - destruct Hs as [(Hk & _)|[(_ & Hk & _)|[(c & Hk & _)|(c & Hk & _)]]]; cbn in Hk; discriminate.
Qed.

Lemma racy_ex_races : ~ race_free racy_ex.
Proof.
  intros RF. apply (RF 0 1).
  exists (mkEvent 1 Write 7 NonAtomic None), (mkEvent 2 Write 7 NonAtomic None).
  assert (N : forall i j, ~ hb racy_ex i j).
  { intros i j H. induction H as [i j H|i k j _ IH1 _ _]; [exact (racy_hb1 i j H)|exact IH1]. }
  repeat split; try reflexivity; try discriminate; auto.
Qed.

(** A two-class table (one location class guarded by one lock class) and a
    two-thread execution of it. *)
Definition toy_facts : list access_class :=
  [ mkClass "toy.write" 0 Write NonAtomic (GLock [0]) RPlain;
    mkClass "toy.read" 0 Read NonAtomic (GLock [0]) RPlain ].

Definition toy_ex : execution :=
  [ mkEvent 1 Lock 100 NonAtomic None; mkEvent 1 Write 7 NonAtomic None; mkEvent 1 Unlock 100 NonAtomic None;
    mkEvent 2 Lock 100 NonAtomic None; mkEvent 2 Read 7 NonAtomic None; mkEvent 2 Unlock 100 NonAtomic None ].

Lemma toy_check : check_facts toy_facts = true.
Proof. vm_compute. reflexivity. Qed.

(** A statement about every event of a concrete execution, one conjunct per event. *)
Fixpoint each (P : nat -> event -> Prop) (l : list event) : Prop :=
  match l with [] => True | e :: r => P 0 e /\ each (fun n => P (S n)) r end.
Lemma each_ev : forall ex P, each P ex -> forall n e, ev ex n = Some e -> P n e.
Proof.
  induction ex as [|a l IH]; intros P H [|n] e Hn; try discriminate; destruct H as [H1 H2].
  - injection Hn as <-. exact H1.
  - exact (IH _ H2 n e Hn).
Qed.

Lemma toy_execution : execution_of toy_facts toy_ex.
Proof.
  split; [|split].
  - refine (each_ev _ _ _). cbn. repeat split; intro Hk; try discriminate Hk; reflexivity.
  - intros j ej w. revert j ej. refine (each_ev _ _ _). cbn. repeat (split; [intros Hk Hrf; discriminate|]). exact I.
  - exists (mkInterp (fun _ => 0) (fun _ _ => 100)
             (fun i => if Nat.eqb i 1 then mkClass "toy.write" 0 Write NonAtomic (GLock [0]) RPlain
                       else mkClass "toy.read" 0 Read NonAtomic (GLock [0]) RPlain)
             (fun _ => 0)).
    refine (each_ev _ _ _). cbn. repeat split; try discriminate; auto; intros M [<-|[]]; reflexivity.
Qed.

Corollary toy_race_free : race_free toy_ex.
Proof. exact (C10_drf_generic toy_facts toy_check toy_ex toy_execution). Qed.
