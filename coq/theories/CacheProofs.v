(* CacheProofs.v -- the statements of CacheSpec.v about the LRU cache model Cache.v, each read off
   the script invariant [reached_inv B] (CacheInv3.v): B := False where charges do not matter,
   B := [charges_ok ops] for the usage theorems.

   Proved as stated: cache_transparent, cache_at_most_one, cache_freed_plus_live,
   cache_exactly_once, cache_pinned.

   Refuted: cache_usage_statement, cache_bounded_statement, cache_bounded_unpinned_statement.  A
   script may insert an entry with a charge >= 2^64 (not a size_t) and lru_shard_finish computes
   (usage + 2^64 - charge) with a truncating subtraction ([usage_counterexample],
   [bounded_counterexample]).  Proved in their place, for scripts whose charges are size_t values
   ([charges_ok], CacheInv3.v): cache_usage_wf, cache_bounded_wf, cache_bounded_unpinned_wf. *)
From LCDB Require Import Base BaseProofs Cache CacheSpec CacheLemmas CacheInv2 CacheInv3.
From Coq Require Import Lia Permutation.
Local Open Scope N_scope.

Theorem cache_transparent : cache_transparent_statement.
Proof.
  intros capacity ops st fr Hr k c' h v Hl.
  destruct (reached_inv False _ _ _ _ (False_ind _) Hr) as [Hinv _].
  unfold lru_lookup, shard_lookup in Hl.
  destruct (cinv_get _ ops _ _ (shard_index k) Hinv (shard_index_lt k)) as [_ Hsk].
  (* a hit is the in-cache entry table_find gives: its value is the latest *)
  destruct (table_find (get_shard (cs_cache st) (shard_index k)) k) as [e|] eqn:Etf; [|discriminate Hl].
  injection Hl as _ _ <-. destruct (table_find_some _ _ _ Etf) as [Hin [Hic <-]].
  apply (sk_latest _ _ _ _ _ Hsk); assumption.
Qed.
Print Assumptions cache_transparent.

Theorem cache_at_most_one : cache_at_most_one_statement.
Proof.
  intros capacity ops st fr Hr i s Hs e1 e2 H1 H2 I1 I2 K.
  destruct (reached_inv False _ _ _ _ (False_ind _) Hr) as [Hinv _].
  exact (sk_amo _ _ _ _ _ (ci_shards Hinv i Hs) e1 e2 H1 H2 I1 I2 K).
Qed.
Print Assumptions cache_at_most_one.

Theorem cache_pinned : cache_pinned_statement.
Proof.
  intros capacity ops st fr Hr.
  destruct (reached_inv False _ _ _ _ (False_ind _) Hr) as [Hinv _]. split.
  - intros i id Hin.
    destruct (cinv_get _ ops _ _ i Hinv (ci_slots Hinv i id Hin)) as [_ Hsk].
    apply hcnt_pos_in in Hin.
    destruct (sinv_live _ _ _ id (sk_inv _ _ _ _ _ Hsk) ltac:(right; lia)) as [e [Hg [He _]]].
    exists e. split; [exact Hg|]. apply (si_refs (sk_inv _ _ _ _ _ Hsk) e He).
  - intros op st' obs f Hs. apply (cache_step_inv False ops st op st' obs f Hinv (False_ind _) Hs).
Qed.
Print Assumptions cache_pinned.

Definition cache_usage_wf_statement : Prop :=
  forall capacity ops st fr, charges_ok ops -> reached capacity ops st fr ->
  forall i s, is_shard st i s ->
  sh_usage s = sum_charges (in_cache_entries s) mod two64.

Theorem cache_usage_wf : cache_usage_wf_statement.
Proof.
  intros capacity ops st fr HB Hr i s Hs.
  destruct (reached_inv _ _ _ _ _ (fun b => b) Hr) as [Hinv _].
  exact (si_usage (sk_inv _ _ _ _ _ (ci_shards Hinv i Hs)) HB).
Qed.
Print Assumptions cache_usage_wf.

Lemma insert_facts : forall B ops st k v ch st' obs f, cinv B ops st ->
  cache_step st (CInsert k v ch) = (st', obs, f) ->
  forall s', is_shard st' (shard_index k) s' ->
  exists s id, shard_ok B ops (cs_slots st) (shard_index k) s /\ shard_insert s k v ch = (s', id, f).
Proof.
  intros B ops st k v ch st' obs f Hinv H s' Hs'.
  destruct (cinv_get _ ops _ _ (shard_index k) Hinv (shard_index_lt k)) as [_ Hsk].
  cbn [cache_step] in H. unfold lru_insert in H.
  destruct (shard_insert (get_shard (cs_cache st) (shard_index k)) k v ch) as [[s1 id] f0] eqn:Ei.
  cbv beta iota zeta in H. injection H as <- <- <-.
  unfold is_shard, put_shard in Hs'. cbn [cs_cache lc_shards] in Hs'.
  rewrite nth_error_set_nth_eq in Hs'.
  - injection Hs' as <-. exists (get_shard (cs_cache st) (shard_index k)), id. split; [exact Hsk|exact Ei].
  - rewrite (ci_len Hinv). apply shard_index_lt.
Qed.

Lemma pinned_is_all : forall B rc s, sinv B rc s -> sh_lru s = [] ->
  sum_charges (pinned_entries s) = icsum (sh_heap s).
Proof.
  intros B rc s Hinv Hl. unfold pinned_entries, icsum. f_equal. apply filter_ext_in.
  intros x Hx. destruct (ce_in_cache x) eqn:Hic; [|reflexivity]. cbn [andb].
  destruct (si_refs Hinv x Hx) as [_ H1].
  assert (ce_refs x <> 1).
  { intros E. pose proof (proj2 (si_lru Hinv x Hx) (conj Hic E)) as Hon.
    rewrite Hl in Hon. destruct Hon. }
  apply N.leb_le. lia.
Qed.

Definition cache_bounded_wf_statement : Prop :=
  forall capacity ops st fr, charges_ok ops -> reached capacity ops st fr ->
  forall k v ch st' obs f, ch < two64 -> cache_step st (CInsert k v ch) = (st', obs, f) ->
  forall s', is_shard st' (shard_index k) s' ->
  sh_usage s' <= N.max (sh_cap s') (sum_charges (pinned_entries s')).

Theorem cache_bounded_wf : cache_bounded_wf_statement.
Proof.
  intros capacity ops st fr HB Hr k v ch st' obs f Hch Hs s' Hs'.
  destruct (reached_inv _ _ _ _ _ (fun b => b) Hr) as [Hinv _].
  destruct (insert_facts _ ops st k v ch st' obs f Hinv Hs s' Hs') as (s & id & Hsk & Hi).
  destruct (shard_insert_ok _ _ s k v ch s' id f (sk_inv _ _ _ _ _ Hsk) (sk_amo _ _ _ _ _ Hsk)
              (fun _ => Hch) Hi) as [_ [Hinv' [_ [_ [_ Hb]]]]].
  destruct Hb as [Hb|Hb].
  - eapply N.le_trans; [exact Hb|apply N.le_max_l].
  - eapply N.le_trans; [|apply N.le_max_r].
    rewrite (pinned_is_all _ _ _ Hinv' Hb). rewrite (si_usage Hinv' HB).
    apply N.mod_le. discriminate.
Qed.
Print Assumptions cache_bounded_wf.

Lemma sum_filter_single : forall (P : centry -> bool) h n ch, NoDup (map ce_id h) ->
  (forall x, In x h -> P x = true -> ce_id x = n /\ ce_charge x = ch) ->
  sum_charges (filter P h) <= ch.
Proof.
  intros P. induction h as [|a t IH]; intros n ch Hnd H.
  - cbn. lia.
  - destruct (nodup_cons_ids _ _ Hnd) as [Hnd' Hnot]. cbn [filter]. destruct (P a) eqn:Ea.
    + rewrite (filter_false P t).
      * destruct (H a (or_introl eq_refl) Ea) as [_ E]. unfold sum_charges. cbn [fold_right]. lia.
      * intros x Hx. destruct (P x) eqn:Ex; [|reflexivity]. exfalso.
        destruct (H a (or_introl eq_refl) Ea) as [E1 _].
        destruct (H x (or_intror Hx) Ex) as [E2 _]. apply (Hnot x Hx). congruence.
    + apply (IH n ch Hnd'). intros x Hx. apply H. right. exact Hx.
Qed.

Definition cache_bounded_unpinned_wf_statement : Prop :=
  forall capacity ops st fr, charges_ok ops -> reached capacity ops st fr ->
  Forall (fun o => o = None) (cs_slots st) ->
  forall k v ch st' obs f, ch < two64 -> cache_step st (CInsert k v ch) = (st', obs, f) ->
  forall s', is_shard st' (shard_index k) s' ->
  sh_usage s' <= N.max (sh_cap s') ch.

Theorem cache_bounded_unpinned_wf : cache_bounded_unpinned_wf_statement.
Proof.
  intros capacity ops st fr HB Hr Hnone k v ch st' obs f Hch Hs s' Hs'.
  pose proof (cache_bounded_wf capacity ops st fr HB Hr k v ch st' obs f Hch Hs s' Hs') as Hbd.
  destruct (reached_inv _ _ _ _ _ (fun b => b) Hr) as [Hinv _].
  destruct (insert_facts _ ops st k v ch st' obs f Hinv Hs s' Hs') as (s & id & Hsk & Hi).
  pose proof (sk_inv _ _ _ _ _ Hsk) as Hinv0.
  destruct (shard_insert_ok _ _ s k v ch s' id f Hinv0 (sk_amo _ _ _ _ _ Hsk)
              (fun _ => Hch) Hi) as [Hid [Hinv' [_ [[r [b Hst]] _]]]].
  assert (Hp : sum_charges (pinned_entries s') <= ch).
  { unfold pinned_entries. apply (sum_filter_single _ _ id ch (si_nodup Hinv')).
    intros x Hx Hpx. apply andb_true_iff in Hpx. destruct Hpx as [Hic Hr2]. apply N.leb_le in Hr2.
    destruct (si_refs Hinv' x Hx) as [Hre _]. rewrite Hic in Hre.
    rewrite (hcnt_all_none (cs_slots st)) in Hre; [|apply Forall_forall; exact Hnone].
    destruct (N.eqb_spec (ce_id x) id) as [E|E]; [|lia].
    split; [exact E|].
    destruct (insert_descends _ _ _ (mkCE id k v ch r b) _ x Hinv0 Hid (so_sub _ _ _ Hst) Hx) as [D1 _].
    destruct (D1 ltac:(congruence)) as [_ [_ [_ Sc]]]. symmetry. exact Sc. }
  lia.
Qed.
Print Assumptions cache_bounded_unpinned_wf.

Theorem cache_freed_plus_live : cache_freed_plus_live_statement.
Proof.
  intros capacity ops st fr Hr. apply (reached_inv False _ _ _ _ (False_ind _) Hr).
Qed.
Print Assumptions cache_freed_plus_live.

Lemma release_all_none : forall l st st' o f, cache_run st (map CRelease l) = (st', o, f) ->
  forall n, nth n (cs_slots st) None = None \/ In n l -> nth n (cs_slots st') None = None.
Proof.
  induction l as [|m l IH]; intros st st' o f H n Hn.
  - cbn [map cache_run] in H. injection H as <- _ _. destruct Hn as [Hn|[]]. exact Hn.
  - cbn [map cache_run] in H. destruct (cache_step st (CRelease m)) as [[st1 o1] f1] eqn:Es.
    destruct (cache_run st1 (map CRelease l)) as [[st2 o2] f2] eqn:Er. injection H as <- _ _.
    apply (IH st1 st2 o2 f2 Er n).
    assert (Hm : nth m (cs_slots st1) None = None /\
                 (nth n (cs_slots st) None = None -> nth n (cs_slots st1) None = None)).
    { cbn [cache_step] in Es. destruct (nth m (cs_slots st) None) as [h|] eqn:En.
      - destruct (lru_release (cs_cache st) h) as [c' f0]. injection Es as <- _ _.
        cbn [cs_slots]. rewrite !nth_set_nth_default. rewrite Nat.eqb_refl. split; [reflexivity|].
        intros E. destruct (Nat.eqb n m); [reflexivity|exact E].
      - injection Es as <- _ _. split; [exact En|intros E; exact E]. }
    destruct Hm as [Hm1 Hm2]. destruct Hn as [Hn|[Hn|Hn]].
    + left. apply Hm2, Hn.
    + subst m. left. exact Hm1.
    + right. exact Hn.
Qed.

Lemma release_all_slots : forall st st' o f, cache_run st (release_all_ops st) = (st', o, f) ->
  forall x, In x (cs_slots st') -> x = None.
Proof.
  intros st st' o f H x Hx. unfold release_all_ops in H.
  destruct (In_nth _ _ None Hx) as [n [Hn Hnx]]. rewrite <- Hnx.
  apply (release_all_none _ _ _ _ _ H n).
  destruct (Nat.lt_ge_cases n (length (cs_slots st))) as [L|L].
  - right. apply in_seq. lia.
  - left. apply nth_overflow. exact L.
Qed.

Lemma destroy_ok : forall B ops st c3 f3, cinv B ops st -> (forall x, In x (cs_slots st) -> x = None) ->
  lru_destroy (cs_cache st) = (c3, f3) ->
  all_heap c3 = [] /\ Permutation (map kv f3) (map kv (all_heap (cs_cache st))).
Proof.
  intros B ops st c3 f3 Hinv Hnone H. unfold lru_destroy in H.
  rewrite map_shards_nf in H. injection H as <- <-.
  set (l := lc_shards (cs_cache st)).
  assert (Hone : forall s, In s l ->
            sh_heap (fst (shard_clear s)) = [] /\
            Permutation (map kv (snd (shard_clear s)) ++ map kv (sh_heap (fst (shard_clear s))))
                        (map kv (sh_heap s))).
  { intros s Hin. apply In_nth_error in Hin. destruct Hin as [i Hn].
    pose proof (sk_inv _ _ _ _ _ (ci_shards Hinv i Hn)) as Hs.
    assert (Hall : forall e, In e (sh_heap s) -> ce_in_cache e = true /\ ce_refs e = 1).
    { intros e He. destruct (si_refs Hs e He) as [R1 R2].
      rewrite (hcnt_all_none _ Hnone) in R1. destruct (ce_in_cache e); [split; [reflexivity|lia]|lia]. }
    destruct (shard_clear s) as [s' fi] eqn:Hc. cbn [fst snd]. unfold shard_clear in Hc.
    destruct (clear_loop_ok (sh_lru s) s s' fi (si_nodup Hs) (fun e He => proj2 (Hall e He)) Hc)
      as [Hp Hsub].
    split; [|exact Hp].
    (* an entry left over would be in-cache with one reference, hence on the list just cleared *)
    destruct (sh_heap s') as [|x t] eqn:Eh; [reflexivity|]. exfalso.
    destruct (Hsub x (or_introl eq_refl)) as [Hx Hnot]. apply Hnot.
    apply (si_lru Hs x Hx). exact (Hall x Hx). }
  assert (Hnil : concat (map sh_heap (map (fun s => fst (shard_clear s)) l)) = []).
  { apply concat_nil_Forall. rewrite map_map. apply Forall_map, Forall_forall.
    intros s Hs. apply (Hone s Hs). }
  unfold all_heap. cbn [lc_shards]. split; [exact Hnil|].
  pose proof (map_shards_perm shard_clear l (fun s Hs => proj2 (Hone s Hs))) as P.
  rewrite Hnil in P. cbn [map] in P. rewrite app_nil_r in P. exact P.
Qed.

Theorem cache_exactly_once : cache_exactly_once_statement.
Proof.
  intros capacity ops. unfold lifecycle.
  destruct (cache_run (cache_init capacity) ops) as [[st1 o1] f1] eqn:E1.
  destruct (cache_run st1 (release_all_ops st1)) as [[st2 o2] f2] eqn:E2.
  destruct (lru_destroy (cs_cache st2)) as [c3 f3] eqn:E3.
  cbn [fst snd].
  destruct (reached_inv False capacity ops st1 f1 (False_ind _) (ex_intro _ o1 E1)) as [Hinv1 P1].
  destruct (cache_run_inv False _ ops st1 st2 o2 f2 Hinv1 (False_ind _) E2) as [Hinv2 P2].
  pose proof (release_all_slots _ _ _ _ E2) as Hnone.
  destruct (destroy_ok _ _ st2 c3 f3 Hinv2 Hnone E3) as [Hnil P3].
  split; [exact Hnil|].
  unfold release_all_ops in P2. rewrite inserted_kv_releases, app_nil_r in P2.
  rewrite !map_app.
  eapply perm_trans; [apply Permutation_app_head; apply Permutation_app_head; exact P3|].
  eapply perm_trans; [apply Permutation_app_head; exact P2|].
  exact P1.
Qed.
Print Assumptions cache_exactly_once.

(* Counterexamples to the unrestricted usage / bounded statements: capacity 1600 (100 per
   shard); keys [1], [10], [19] live in shard 4. *)
Definition cx_ops1 : list cop := [CInsert [1] 100 5; CInsert [10] 200 (2 * two64); CErase [10]].
Definition cx_ops2 : list cop := cx_ops1 ++ [CErase [1]; CRelease 0; CRelease 1].

(* The refuted statement is instantiated at the run as a variable; only the closed facts about
   the run (which shard, its usage and capacity) are evaluated. *)
Lemma usage_counterexample : ~ cache_usage_statement.
Proof.
  intros H.
  destruct (cache_run (cache_init 1600) cx_ops1) as [[st o] fr] eqn:E.
  assert (Hr : reached 1600 cx_ops1 st fr) by (exists o; exact E).
  set (s := nth 4 (lc_shards (cs_cache st)) (shard_new 0)).
  assert (Hn : is_shard st 4 s /\ sh_usage s <> sum_charges (in_cache_entries s) mod two64).
  { subst s. clear Hr. vm_compute in E. injection E as <- _ _. vm_compute.
    split; [reflexivity | discriminate]. }
  exact (proj2 Hn (H 1600 cx_ops1 st fr Hr 4%nat s (proj1 Hn))).
Qed.

Lemma bounded_counterexample : ~ cache_bounded_unpinned_statement /\ ~ cache_bounded_statement.
Proof.
  destruct (cache_run (cache_init 1600) cx_ops2) as [[st o] fr] eqn:E.
  assert (Hr : reached 1600 cx_ops2 st fr) by (exists o; exact E).
  destruct (cache_step st (CInsert [19] 300 1)) as [[st' obs] f] eqn:Es.
  set (s' := nth 4 (lc_shards (cs_cache st')) (shard_new 0)).
  assert (Hn : is_shard st' (shard_index [19]) s' /\ Forall (fun o => o = None) (cs_slots st) /\
               ~ sh_usage s' <= N.max (sh_cap s') 1 /\
               ~ sh_usage s' <= N.max (sh_cap s') (sum_charges (pinned_entries s'))).
  { subst s'. revert Es. clear Hr.
    vm_compute in E. injection E as <- _ _. vm_compute.
    intros Es. injection Es as <- _ _. vm_compute.
    split; [reflexivity|]. split; [repeat constructor|]. split; intros C; apply C; reflexivity. }
  destruct Hn as (Hs' & Hnone & N1 & N2).
  split; intros H.
  - exact (N1 (H 1600 cx_ops2 st fr Hr Hnone [19] 300 1 st' obs f Es s' Hs')).
  - exact (N2 (H 1600 cx_ops2 st fr Hr [19] 300 1 st' obs f Es s' Hs')).
Qed.
Print Assumptions usage_counterexample.
Print Assumptions bounded_counterexample.
