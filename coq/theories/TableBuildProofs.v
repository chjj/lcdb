(* TableBuildProofs.v -- the pieces a table file is made of, written and read back:
   handles and the footer, a block stored at a handle with its trailer ([stored_at],
   [read_block_stored]; [compress_inverts] is what the stored form asks of the
   compressor), a file ending in a footer opened up to its index block
   ([table_open_footer]), the data blocks behind a list of index entries read by the
   linear reader ([table_entries_loop_flushed]); and the length conditions on index
   keys ([ikeyok]; that the separator / successor hooks of the two lcdb comparators
   meet them is in TableGetProofs, from the length theorems of IKeyProofs).  What the
   table builder lays out with these pieces is in TableIndexProofs. *)
From LCDB Require Import Base Varint Crc32c Block Trie Filter Snappy TableFormat.
From LCDB Require Import BaseProofs VarintProofs Crc32cProofs BlockProofs BlockSeekProofs FilterProofs SnappyProofs TableProofs.
From Coq Require Import Lia.
Local Open Scope N_scope.

(* both fields of a handle are uint64 *)
Definition h64 (h : handle) : Prop :=
  fst h < 18446744073709551616 /\ snd h < 18446744073709551616.

Lemma handle_decode_encode : forall h rest,
  h64 h -> handle_decode (handle_encode h ++ rest) = Some (h, rest).
Proof.
  intros [o s] rest [Ho Hs]. unfold handle_decode, handle_encode. cbn [fst snd] in *.
  rewrite <- app_assoc. rewrite varint64_read_write by exact Ho.
  rewrite varint64_read_write by exact Hs. reflexivity.
Qed.

Lemma handle_decode_encode_nil : forall h,
  h64 h -> handle_decode (handle_encode h) = Some (h, []).
Proof.
  intros h Hh. rewrite <- (app_nil_r (handle_encode h)). apply handle_decode_encode, Hh.
Qed.

Lemma handle_encode_length : forall h, h64 h -> 2 <= nlen (handle_encode h) <= 20.
Proof.
  intros h [Ho Hs]. unfold handle_encode. rewrite nlen_app.
  pose proof (varint64_write_length_le _ Ho). pose proof (varint64_write_length_le _ Hs). lia.
Qed.

(* the two handles, zeros up to 40 bytes, the magic number *)
Lemma footer_encode_parts : forall mi ih, h64 mi -> h64 ih ->
  exists pad, footer_encode mi ih = (handle_encode mi ++ handle_encode ih ++ pad) ++ le64 TABLE_MAGIC /\
              nlen (handle_encode mi ++ handle_encode ih ++ pad) = 40.
Proof.
  intros mi ih Hm Hi. exists (repeat 0 (40 - length (handle_encode mi ++ handle_encode ih))).
  split; [unfold footer_encode; rewrite <- !app_assoc; reflexivity|].
  pose proof (handle_encode_length mi Hm). pose proof (handle_encode_length ih Hi).
  rewrite app_assoc, nlen_app, nlen_repeat. unfold nlen in *. rewrite app_length in *. lia.
Qed.

Lemma footer_encode_length : forall mi ih, h64 mi -> h64 ih -> nlen (footer_encode mi ih) = 48.
Proof.
  intros mi ih Hm Hi. destruct (footer_encode_parts mi ih Hm Hi) as (pad & -> & E).
  rewrite nlen_app, E. reflexivity.
Qed.

Lemma footer_decode_encode : forall mi ih, h64 mi -> h64 ih ->
  footer_decode (footer_encode mi ih) = Ok (Some (mi, ih)).
Proof.
  intros mi ih Hm Hi. unfold footer_decode. rewrite footer_encode_length by assumption.
  destruct (footer_encode_parts mi ih Hm Hi) as (pad & -> & E).
  rewrite drop_n_app_exact by (symmetry; exact E).
  rewrite <- (app_nil_r (le64 TABLE_MAGIC)), de64_le64 by reflexivity.
  rewrite <- !app_assoc, !handle_decode_encode by assumption. reflexivity.
Qed.

Definition block_trailer (stored : bytes) (ty : N) : bytes :=
  ty :: le32 (crc_mask (crc_extend (crc_value stored) [ty])).

(* the file has, at handle h, a block whose uncompressed contents are [raw] *)
Definition stored_at (file : bytes) (h : handle) (raw : bytes) : Prop :=
  exists pre stored ty post,
    file = pre ++ (stored ++ block_trailer stored ty) ++ post /\
    nlen pre = fst h /\ nlen stored = snd h /\
    ((ty = 0 /\ stored = raw) \/
     (ty = 1 /\ snappy_decode_size stored <> None /\ snappy_decode stored = Ok (Some raw))).

(* The compression hook of the table builder: wherever its output is kept (compression = 1
   and at least an eighth saved) the Snappy decoder inverts it.  Snappy.snappy_encode is
   modelled but nothing here proves this of it; with compression <> 1 the premise is void. *)
Definition compress_inverts (compress : bytes -> bytes) (compression : N) : Prop :=
  compression = 1 -> forall raw,
  nlen (compress raw) < nlen raw - nlen raw / 8 ->
  snappy_decode_size (compress raw) <> None /\ snappy_decode (compress raw) = Ok (Some raw).

(* ... and only blocks below 4 GiB are ever kept in compressed form *)
Definition compress_inverts_small (compress : bytes -> bytes) (compression : N) : Prop :=
  compression = 1 -> forall raw,
  nlen (compress raw) < nlen raw - nlen raw / 8 ->
  snappy_decode_size (compress raw) <> None /\ snappy_decode (compress raw) = Ok (Some raw) /\
  nlen raw < 4294967296.

Lemma compress_inverts_of_small : forall compress compression,
  compress_inverts_small compress compression -> compress_inverts compress compression.
Proof. intros compress compression H Hc raw Hlt. destruct (H Hc raw Hlt) as (A & B & _). auto. Qed.

Lemma nlen_block_trailer : forall stored ty, nlen (block_trailer stored ty) = 5.
Proof. reflexivity. Qed.

Lemma stored_at_bound : forall file h raw,
  stored_at file h raw -> fst h + snd h + 5 <= nlen file.
Proof.
  intros file h raw (pre & stored & ty & post & Hf & H1 & H2 & _).
  rewrite Hf, !nlen_app, nlen_block_trailer. lia.
Qed.

Lemma stored_at_h64 : forall file h raw,
  stored_at file h raw -> nlen file < 18446744073709551616 -> h64 h.
Proof. intros file h raw H Hlen. apply stored_at_bound in H. unfold h64. lia. Qed.

(* what ldb_read_block finds in a trailer: the type byte, then four bytes that unmask
   to the checksum of contents and type *)
Lemma block_trailer_read : forall stored ty, wf_bytes (stored ++ [ty]) = true ->
  exists c0 c1 c2 c3, block_trailer stored ty = [ty; c0; c1; c2; c3] /\
    crc_unmask (c0 + 256 * c1 + 65536 * c2 + 16777216 * c3) = crc_value (stored ++ [ty]).
Proof.
  intros stored ty Hwf. unfold block_trailer. rewrite crc_value_app.
  set (crc := crc_value (stored ++ [ty])).
  do 4 eexists. split; [reflexivity|].
  rewrite (le32_sum (crc_mask crc) _ _ _ _ (crc_mask_bound crc) eq_refl).
  apply crc_unmask_mask, crc_value_bound, Hwf.
Qed.

Lemma read_block_stored : forall file h raw verify,
  stored_at file h raw -> wf_bytes file = true -> nlen file < 18446744073709551616 ->
  read_block file (nlen file) verify h = Ok (RBok raw).
Proof.
  intros file [off n] raw verify (pre & stored & ty & post & Hf & H1 & H2 & H3) Hwf Hlen.
  cbn [fst snd] in H1, H2. subst off n.
  destruct (block_trailer_read stored ty) as (c0 & c1 & c2 & c3 & Ht & Hcrc).
  { rewrite Hf in Hwf. apply wf_bytes_app in Hwf as [_ Hwf]. apply wf_bytes_app in Hwf as [Hwf _].
    apply wf_bytes_app in Hwf as [Hs Hty]. apply wf_bytes_cons in Hty as [Hty _].
    apply wf_bytes_app. split; [exact Hs|]. apply wf_bytes_cons. split; [exact Hty|reflexivity]. }
  rewrite Ht in Hf. rewrite (read_block_at _ _ _ _ _ _ _ _ _ verify Hf Hlen), Hcrc, N.eqb_refl.
  replace (if verify then negb true else false) with false by (destruct verify; reflexivity).
  destruct H3 as [[-> ->]|(-> & Hsz & Hdec)].
  - reflexivity.
  - cbn [N.eqb]. destruct (snappy_decode_size stored); [|congruence].
    rewrite Hdec. reflexivity.
Qed.

(* the 48 bytes ldb_table_open reads from the end of the file *)
Lemma footer_slice : forall file body foot, file = body ++ foot -> nlen foot = 48 ->
  nlen file <? 48 = false /\ slice file (nlen file) (nlen file - 48) 48 = Ok foot.
Proof.
  intros file body foot -> Hf. rewrite nlen_app, Hf, N.add_sub. split; [apply N.ltb_ge, N.le_add_l|].
  rewrite slice_ok, drop_n_nlen_app, take_all by (rewrite ?nlen_app, ?Hf; reflexivity). reflexivity.
Qed.

Lemma table_open_footer : forall has_filter paranoid file body mh ih iraw rawm,
  file = body ++ footer_encode mh ih ->
  wf_bytes file = true -> nlen file < 18446744073709551616 ->
  stored_at file ih iraw -> stored_at file mh rawm ->
  exists blk, block_init iraw = Ok blk /\ blk_data blk = iraw /\
    table_open has_filter paranoid file
    = (flt <~ table_read_meta has_filter file (nlen file) paranoid mh ;;
       Ok (inr (mk_table file (nlen file) blk flt))).
Proof.
  intros has_filter paranoid file body mh ih iraw rawm Hfile Hwf Hlen Hsti Hstm.
  pose proof (stored_at_h64 _ _ _ Hsti Hlen) as Hi. pose proof (stored_at_h64 _ _ _ Hstm Hlen) as Hm.
  destruct (footer_slice file body _ Hfile (footer_encode_length mh ih Hm Hi)) as [E1 E2].
  destruct (yields_inv (block_init_ok iraw)) as [blk (Hblk & _ & Hdata)].
  exists blk. split; [exact Hblk|]. split; [exact Hdata|].
  unfold table_open, FOOTER_SIZE. rewrite E1, E2. cbn [rbind].
  rewrite (footer_decode_encode mh ih Hm Hi). cbn [rbind].
  rewrite (read_block_stored file ih _ paranoid Hsti Hwf Hlen). cbn [rbind].
  rewrite Hblk. reflexivity.
Qed.

Section IndexEntries.
Variable is_internal : bool.
Variable interval : N.

(* index keys produced by the comparator hooks must be short enough for a block entry
   and (for the internal comparator) >= 8 bytes *)
Definition ikeyok (k : bytes) : Prop :=
  nlen k < 4294967296 /\ (is_internal = true -> 8 <= nlen k).

Definition hkey (fb : handle * list entry) : bytes := handle_encode (fst fb).

Lemma table_entries_loop_flushed : forall file verify fl idx,
  wf_bytes file = true -> nlen file < 18446744073709551616 ->
  map snd idx = map hkey fl ->
  Forall (fun fb => stored_at file (fst fb) (block_build interval (snd fb)) /\
                    wf_entries (snd fb) /\ keys_ge8 is_internal (snd fb)) fl ->
  table_entries_loop is_internal file (nlen file) verify idx = Ok (inr (concat (map snd fl))).
Proof.
  intros file verify fl. induction fl as [|[h bes] fl IH]; intros idx Hwf Hlen Hmap Hst.
  - destruct idx; [reflexivity|discriminate].
  - destruct idx as [|[k hv] idx]; [discriminate|].
    cbn [map snd] in Hmap. inversion Hmap as [[Hhv Hrest]].
    inversion Hst as [|? ? (S1 & S2 & S3) Hst']; subst. cbn [fst snd] in *.
    cbn [table_entries_loop]. unfold hkey. cbn [fst].
    rewrite (handle_decode_encode_nil h (stored_at_h64 _ _ _ S1 Hlen)).
    rewrite (read_block_stored file h _ verify S1 Hwf Hlen). cbn [rbind].
    rewrite block_entries_gen_build by assumption.
    rewrite (IH idx Hwf Hlen Hrest Hst'). cbn [rbind map concat snd]. reflexivity.
Qed.

(* [compress_inverts compress compression] spelled out; [nlen_le_of_length] takes it by [Proof using]
   without using it, and nothing else in this file reads it *)
Variable compress : bytes -> bytes.
Variable compression : N.
Hypothesis Hcompress : compression = 1 -> forall raw,
  nlen (compress raw) < nlen raw - nlen raw / 8 ->
  snappy_decode_size (compress raw) <> None /\ snappy_decode (compress raw) = Ok (Some raw).

Lemma nlen_le_of_length : forall (A B : Type) (a : list A) (b : list B),
  (length a <= length b)%nat -> nlen a <= nlen b.
Proof using Hcompress. intros. unfold nlen. lia. Qed.

End IndexEntries.
