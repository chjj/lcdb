(* FsLemmas.v -- lemmas about FsModel.v, none about an invariant: equality of names; upd_nth; runs, what pstep
   does to each field of the protocol state (pstep_disk, _logs, _created, _cov, _call), the rules checked in one
   pass (wf_protocol_all, _snoc, _firstn); directory operations and the namespace they leave at each cut (nsk,
   ops_wf, Section Ns); what one event does to a disk (step_dir, step_op, step_obj_old, step_obj_inv,
   step_creates, run_shape); images; what MANIFESTs and logs hold (edits_of, batches_of, replay and apply_edit,
   exposed). *)
From LCDB Require Import FsModel BaseProofs.
Local Open Scope N_scope.

Lemma fname_eqb_eq : forall a b, fname_eqb a b = true <-> a = b.
Proof.
  intros a b; destruct a, b; cbn [fname_eqb]; split; intro H;
    try discriminate; try reflexivity;
    try (apply N.eqb_eq in H; subst; reflexivity);
    try (injection H as ->; apply N.eqb_refl).
Qed.

Lemma fname_eqb_refl : forall a, fname_eqb a a = true.
Proof. intro a; apply fname_eqb_eq; reflexivity. Qed.

Lemma fname_eqb_neq : forall a b, fname_eqb a b = false <-> a <> b.
Proof.
  intros a b; split; intro H.
  - intro E; apply fname_eqb_eq in E; congruence.
  - destruct (fname_eqb a b) eqn:E; [apply fname_eqb_eq in E; contradiction | reflexivity].
Qed.

Lemma fname_eqb_sym : forall a b, fname_eqb a b = fname_eqb b a.
Proof.
  intros a b; destruct (fname_eqb a b) eqn:E.
  - apply fname_eqb_eq in E; subst; symmetry; apply fname_eqb_refl.
  - symmetry; apply fname_eqb_neq; apply fname_eqb_neq in E; congruence.
Qed.

Lemma fname_eq_dec : forall a b : fname, {a = b} + {a <> b}.
Proof.
  intros a b; destruct (fname_eqb a b) eqn:E.
  - left; apply fname_eqb_eq; exact E.
  - right; apply fname_eqb_neq; exact E.
Qed.

Lemma wop_eqb_eq : forall a b, wop_eqb a b = true -> a = b.
Proof.
  intros [k v|k] [k' v'|k'] H; cbn [wop_eqb] in H; try discriminate.
  - apply andb_true_iff in H. destruct H as [H1 H2].
    apply bytes_eqb_eq in H1, H2; subst; reflexivity.
  - apply bytes_eqb_eq in H; subst; reflexivity.
Qed.

Lemma wop_eqb_refl : forall a, wop_eqb a a = true.
Proof. intros [k v|k]; cbn [wop_eqb]; rewrite ?bytes_eqb_refl; reflexivity. Qed.

Lemma brec_eqb_refl : forall b, brec_eqb b b = true.
Proof. intro b. unfold brec_eqb. rewrite N.eqb_refl, (list_eqb_refl _ wop_eqb_refl). reflexivity. Qed.

Lemma nth_error_upd_nth : forall {A} (l : list A) i f j,
  nth_error (upd_nth l i f) j = if Nat.eqb i j then option_map f (nth_error l j) else nth_error l j.
Proof.
  intros A l; induction l as [|y r IH]; intros i f j; destruct i, j; cbn; try reflexivity; [destruct (Nat.eqb i j); reflexivity|apply IH].
Qed.

Lemma length_upd_nth : forall {A} (l : list A) i f, length (upd_nth l i f) = length l.
Proof. intros A l; induction l as [|y r IH]; intros i f; destruct i; cbn; auto. Qed.

Lemma fs_run_snoc : forall tr e, fs_run (tr ++ [e]) = fs_step (fs_run tr) e.
Proof. intros; unfold fs_run; rewrite fold_left_app; reflexivity. Qed.

Lemma prun_snoc : forall tr e, prun (tr ++ [e]) = pstep (prun tr) e.
Proof. intros; unfold prun; rewrite fold_left_app; reflexivity. Qed.

Lemma pstep_disk : forall p e, p_disk (pstep p e) = fs_step (p_disk p) e.
Proof.
  intros p e; destruct e as [f|f pl| | |a b|f|id b sy|id ok]; cbn [pstep p_disk]; try reflexivity.
  destruct f; try reflexivity; destruct pl; reflexivity.
Qed.

Lemma pstep_logs : forall p e, p_logs (pstep p e) =
  match e with
  | ECreate (FLog n) => p_logs p ++ [(n, [])]
  | EAppend (FLog n) (PBatch s ops) => add_batch n (s, ops) (p_logs p)
  | _ => p_logs p
  end.
Proof.
  intros p e; destruct e as [f|f pl| | |a b|f|id b sy|id ok]; try reflexivity.
  destruct f; try reflexivity; destruct pl; reflexivity.
Qed.

Lemma pstep_created : forall p e, p_created (pstep p e) =
  match e with ECreate f => f :: p_created p | _ => p_created p end.
Proof.
  intros p e; destruct e as [f|f pl| | |a b|f|id b sy|id ok]; try reflexivity.
  destruct f; try reflexivity; destruct pl; reflexivity.
Qed.

Lemma pstep_cov : forall p e, p_cov (pstep p e) =
  match e with
  | EAppend (FManifest _) (PEdit ed) => match me_log ed with Some l => N.max (p_cov p) l | None => p_cov p end
  | _ => p_cov p
  end.
Proof.
  intros p e; destruct e as [f|f pl| | |a b|f|id b sy|id ok]; try reflexivity.
  destruct f; try reflexivity; destruct pl; reflexivity.
Qed.

Lemma pstep_cov_mono : forall p e, p_cov p <= p_cov (pstep p e).
Proof.
  intros p e; rewrite pstep_cov. destruct e as [f|f pl| | |a b|f|id b sy|id ok]; try lia.
  destruct f; try lia. destruct pl as [s ops|ed|ents|m]; try lia.
  destruct (me_log ed); lia.
Qed.

Lemma pstep_call : forall p e, p_call (pstep p e) =
  match e with
  | EAppend (FLog n) (PBatch s _) =>
      match p_call p with Some (id, b, sy, _) => Some (id, b, sy, Some (n, s)) | None => None end
  | ECall id b sy => Some (id, b, sy, None)
  | EAck _ _ => None
  | _ => p_call p
  end.
Proof.
  intros p e; destruct e as [f|f pl| | |a b|f|id b sy|id ok]; try reflexivity.
  destruct f; try reflexivity; destruct pl; reflexivity.
Qed.

Lemma prun_disk : forall tr, p_disk (prun tr) = fs_run tr.
Proof.
  intro tr; induction tr as [|e tr IH] using rev_ind; [reflexivity|].
  rewrite prun_snoc, fs_run_snoc, pstep_disk, IH; reflexivity.
Qed.

Lemma all_steps_app : forall chk tr1 tr2 p,
  all_steps chk p (tr1 ++ tr2) = all_steps chk p tr1 && all_steps chk (fold_left pstep tr1 p) tr2.
Proof.
  intros chk tr1; induction tr1 as [|e r IH]; intros tr2 p; cbn [all_steps app fold_left].
  - reflexivity.
  - rewrite IH, andb_assoc; reflexivity.
Qed.

Lemma all_steps_andb : forall c1 c2 tr p,
  all_steps (fun p e => c1 p e && c2 p e) p tr = all_steps c1 p tr && all_steps c2 p tr.
Proof.
  intros c1 c2 tr; induction tr as [|e r IH]; intro p; cbn [all_steps]; [reflexivity|].
  rewrite IH. destruct (c1 p e), (c2 p e), (all_steps c1 (pstep p e) r); reflexivity.
Qed.

(* all rules on one event: wf_protocol runs each rule over the whole trace, which comes to the same *)
Definition chk_all (p : pstate) (e : fev) : bool :=
  chk_R0 p e && chk_R1 p e && chk_R2 p e && chk_R3 p e &&
  chk_R4 p e && chk_R5 p e && chk_R6 p e && chk_R7 p e.

Lemma wf_protocol_all : forall tr, wf_protocol tr = all_steps chk_all p0 tr.
Proof.
  intro tr. unfold wf_protocol, rule_R0, rule_R1, rule_R2, rule_R3, rule_R4, rule_R5, rule_R6, rule_R7, chk_all.
  rewrite !all_steps_andb. reflexivity.
Qed.

Lemma wf_protocol_snoc : forall tr e,
  wf_protocol (tr ++ [e]) = true <-> wf_protocol tr = true /\ chk_all (prun tr) e = true.
Proof.
  intros tr e. rewrite !wf_protocol_all, all_steps_app. cbn [all_steps]. fold (prun tr).
  rewrite andb_true_r. apply andb_true_iff.
Qed.

Lemma wf_protocol_firstn : forall tr p, wf_protocol tr = true -> wf_protocol (firstn p tr) = true.
Proof.
  intros tr p H. rewrite wf_protocol_all in *. rewrite <- (firstn_skipn p tr), all_steps_app in H.
  apply andb_true_iff in H. apply H.
Qed.

(* the namespace after the first k directory operations: what a crash that persisted k of them shows *)
Definition nsk (d : disk) (k : nat) : nspace := ns_of (firstn k (d_ops d)).

Lemma ns_of_snoc : forall ops op, ns_of (ops ++ [op]) = ns_apply (ns_of ops) op.
Proof. intros; unfold ns_of; rewrite fold_left_app; reflexivity. Qed.

Lemma ns_lookup_nsk : forall d f, ns_lookup d f = nsk d (length (d_ops d)) f.
Proof. intros; unfold nsk; rewrite firstn_all; reflexivity. Qed.

Lemma obj_at_some : forall d f x, obj_at d f = Some x ->
  exists o, ns_lookup d f = Some o /\ nth_error (d_objs d) o = Some x.
Proof. intros d f x H; unfold obj_at in H. destruct (ns_lookup d f) as [o|]; [eauto|discriminate]. Qed.

Lemma table_ok_spec : forall d t, fs_table_ok d t = true ->
  exists o ents, ns_lookup d (FTable t) = Some o /\ nth_error (d_objs d) o = Some (mkObj [PTable ents] 1).
Proof.
  intros d t H; unfold fs_table_ok in H. destruct (obj_at d (FTable t)) as [x|] eqn:E; [|discriminate].
  destruct (obj_at_some _ _ _ E) as [o [Hl Hx]].
  destruct x as [recs sy]. destruct recs as [|r1 rs]; [discriminate|].
  destruct r1; try discriminate. destruct rs; [|discriminate].
  destruct sy as [|[|sy]]; try discriminate. exists o, ents; auto.
Qed.

Definition create_ids (ops : list dirop) : list nat :=
  flat_map (fun op => match op with DCreate _ o => [o] | _ => [] end) ops.
Definition created_names (ops : list dirop) : list fname :=
  flat_map (fun op => match op with DCreate f _ => [f] | _ => [] end) ops.

(* directory operations as the rules allow them: the j-th create makes object j, a name is
   created once, CURRENT only ever comes from renaming a *.dbtmp file and is never unlinked *)
Record ops_wf (ops : list dirop) (nobj : nat) : Prop := {
  ow_ids : create_ids ops = seq 0 nobj;
  ow_nodup : NoDup (created_names ops);
  ow_nocur : ~ In FCurrent (created_names ops);
  ow_ren : forall a b, In (DRename a b) ops -> (exists n, a = FTmp n) /\ b = FCurrent;
  ow_unl : ~ In (DUnlink FCurrent) ops }.

Lemma create_ids_snoc : forall ops op, create_ids (ops ++ [op]) =
  create_ids ops ++ match op with DCreate _ o => [o] | _ => [] end.
Proof. intros; unfold create_ids; rewrite flat_map_app; cbn; rewrite app_nil_r; reflexivity. Qed.

Lemma created_names_snoc : forall ops op, created_names (ops ++ [op]) =
  created_names ops ++ match op with DCreate f _ => [f] | _ => [] end.
Proof. intros; unfold created_names; rewrite flat_map_app; cbn; rewrite app_nil_r; reflexivity. Qed.

Lemma in_created_names : forall ops f, In f (created_names ops) <-> exists o, In (DCreate f o) ops.
Proof.
  intros ops f; unfold created_names; rewrite in_flat_map; split.
  - intros [op [Hin Hf]]; destruct op; cbn in Hf; try contradiction.
    destruct Hf as [->|[]]; eauto.
  - intros [o Hin]; exists (DCreate f o); split; [assumption | left; reflexivity].
Qed.

Lemma in_create_ids : forall ops o, In o (create_ids ops) <-> exists f, In (DCreate f o) ops.
Proof.
  intros ops o; unfold create_ids; rewrite in_flat_map; split.
  - intros [op [Hin Hf]]; destruct op; cbn in Hf; try contradiction.
    destruct Hf as [->|[]]; eauto.
  - intros [f Hin]; exists (DCreate f o); split; [assumption | left; reflexivity].
Qed.

Lemma create_unique_pos : forall ops f o o' i j,
  NoDup (created_names ops) ->
  nth_error ops i = Some (DCreate f o) -> nth_error ops j = Some (DCreate f o') -> i = j.
Proof.
  intros ops f o o' i j ND Hi Hj. apply (NoDup_flat_map_nth _ _ ND i j _ _ f Hi Hj); left; reflexivity.
Qed.

Lemma seq_NoDup' : forall n, NoDup (seq 0 n).
Proof. intro; apply seq_NoDup. Qed.

Lemma nsk_S : forall d k op, nth_error (d_ops d) k = Some op -> nsk d (S k) = ns_apply (nsk d k) op.
Proof. intros d k op H; unfold nsk. rewrite (firstn_S_nth _ _ _ H). apply ns_of_snoc. Qed.

Lemma nsk_S_ge : forall d k, (length (d_ops d) <= k)%nat -> nsk d (S k) = nsk d k.
Proof. intros d k H; unfold nsk. rewrite !firstn_all2 by lia. reflexivity. Qed.

Lemma nsk_S_create : forall d k f o, nth_error (d_ops d) k = Some (DCreate f o) -> nsk d (S k) f = Some o.
Proof. intros d k f o H. rewrite (nsk_S _ _ _ H). cbn [ns_apply]. rewrite fname_eqb_refl. reflexivity. Qed.

Lemma nsk_S_unlink : forall d k f, nth_error (d_ops d) k = Some (DUnlink f) -> nsk d (S k) f = None.
Proof. intros d k f H. rewrite (nsk_S _ _ _ H). cbn [ns_apply]. rewrite fname_eqb_refl. reflexivity. Qed.

Lemma ops_wf_ren_nth : forall ops n k a b, ops_wf ops n -> nth_error ops k = Some (DRename a b) ->
  (exists t, a = FTmp t) /\ b = FCurrent.
Proof. intros ops n k a b W H; eapply ow_ren; eauto using nth_error_In. Qed.

Section Ns.
Variables (d : disk) (n : nat).
Hypothesis W : ops_wf (d_ops d) n.

(* What one more directory operation does to a name other than CURRENT: it is
   created, unlinked, renamed away (only *.dbtmp names are), or keeps its
   binding.  Every fact about such a name at a cut k is an induction on k
   through these four cases. *)
Lemma nsk_S_cases : forall k f, (k < length (d_ops d))%nat -> f <> FCurrent ->
  (exists o, nth_error (d_ops d) k = Some (DCreate f o) /\ nsk d (S k) f = Some o) \/
  (nth_error (d_ops d) k = Some (DUnlink f) /\ nsk d (S k) f = None) \/
  ((exists t, f = FTmp t) /\ nsk d (S k) f = None) \/
  nsk d (S k) f = nsk d k f.
Proof.
  intros k f Hk Hf.
  destruct (nth_error (d_ops d) k) as [op|] eqn:Eop; [|apply nth_error_None in Eop; lia].
  rewrite (nsk_S _ _ _ Eop).
  destruct op as [g o|a b|g]; cbn [ns_apply].
  - destruct (fname_eqb f g) eqn:E; [|right; right; right; reflexivity].
    apply fname_eqb_eq in E; subst g. left; exists o; split; reflexivity.
  - destruct (ops_wf_ren_nth _ _ _ _ _ W Eop) as [[t ->] ->].
    destruct (nsk d k (FTmp t)); [|right; right; right; reflexivity].
    rewrite (proj2 (fname_eqb_neq f FCurrent) Hf).
    destruct (fname_eqb f (FTmp t)) eqn:E; [|right; right; right; reflexivity].
    apply fname_eqb_eq in E. right; right; left. split; [exists t; exact E|reflexivity].
  - destruct (fname_eqb f g) eqn:E; [|right; right; right; reflexivity].
    apply fname_eqb_eq in E; subst g. right; left; split; reflexivity.
Qed.

(* CURRENT changes only by a rename of a bound *.dbtmp name, whose object it takes *)
Lemma nsk_S_cur : forall k, (k < length (d_ops d))%nat ->
  (exists t, nth_error (d_ops d) k = Some (DRename (FTmp t) FCurrent) /\ nsk d k (FTmp t) <> None /\
             nsk d (S k) FCurrent = nsk d k (FTmp t)) \/
  nsk d (S k) FCurrent = nsk d k FCurrent.
Proof.
  intros k Hk.
  destruct (nth_error (d_ops d) k) as [op|] eqn:Eop; [|apply nth_error_None in Eop; lia].
  rewrite (nsk_S _ _ _ Eop).
  destruct op as [g o|a b|g]; cbn [ns_apply].
  - destruct (fname_eqb FCurrent g) eqn:E; [|right; reflexivity].
    apply fname_eqb_eq in E; subst g. exfalso. apply (ow_nocur _ _ W).
    apply in_created_names; exists o; eapply nth_error_In; exact Eop.
  - destruct (ops_wf_ren_nth _ _ _ _ _ W Eop) as [[t ->] ->].
    destruct (nsk d k (FTmp t)) as [o|] eqn:Ea; [|right; reflexivity].
    left; exists t. rewrite Ea. split; [reflexivity|split; [discriminate|reflexivity]].
  - destruct (fname_eqb FCurrent g) eqn:E; [|right; reflexivity].
    apply fname_eqb_eq in E; subst g. exfalso. apply (ow_unl _ _ W). eapply nth_error_In; exact Eop.
Qed.

Lemma nsk_created : forall k f o, nsk d k f = Some o -> f <> FCurrent ->
  exists i, (i < k)%nat /\ nth_error (d_ops d) i = Some (DCreate f o).
Proof.
  intros k f o H Hf; induction k as [|k IH]; [discriminate|].
  destruct (Nat.le_gt_cases (length (d_ops d)) k) as [Hge|Hlt].
  - rewrite (nsk_S_ge d k Hge) in H. destruct (IH H) as [i [Hi Hc]]. exists i; split; [lia|exact Hc].
  - destruct (nsk_S_cases k f Hlt Hf) as [[o' [Hc E]]|[[_ E]|[[_ E]|E]]]; rewrite E in H.
    + injection H as ->. exists k; split; [lia|exact Hc].
    + discriminate.
    + discriminate.
    + destruct (IH H) as [i [Hi Hc]]. exists i; split; [lia|exact Hc].
Qed.

(* a name other than CURRENT names the same object in every cut that has it *)
Lemma nsk_same_obj : forall k1 k2 f o1 o2, f <> FCurrent -> nsk d k1 f = Some o1 -> nsk d k2 f = Some o2 -> o1 = o2.
Proof.
  intros k1 k2 f o1 o2 Hf H1 H2.
  destruct (nsk_created _ _ _ H1 Hf) as [i1 [_ C1]]. destruct (nsk_created _ _ _ H2 Hf) as [i2 [_ C2]].
  assert (i1 = i2) by (eapply create_unique_pos; eauto using ow_nodup). subst i2. congruence.
Qed.

Lemma nsk_cur_created : forall k o, nsk d k FCurrent = Some o ->
  exists i t, nth_error (d_ops d) i = Some (DCreate (FTmp t) o).
Proof.
  intros k o; induction k as [|k IH]; intro H; [discriminate|].
  destruct (Nat.le_gt_cases (length (d_ops d)) k) as [Hge|Hlt]; [rewrite (nsk_S_ge d k Hge) in H; exact (IH H)|].
  destruct (nsk_S_cur k Hlt) as [[t [_ [_ E]]]|E]; rewrite E in H; [|exact (IH H)].
  destruct (nsk_created _ _ _ H ltac:(discriminate)) as [i [_ Hc]]. exists i, t; exact Hc.
Qed.

(* an unlinked name stays unbound (names are never created twice) *)
Lemma nsk_unlinked : forall f o i u,
  nth_error (d_ops d) i = Some (DCreate f o) -> nth_error (d_ops d) u = Some (DUnlink f) -> (i < u)%nat ->
  forall k, (u < k)%nat -> (k <= length (d_ops d))%nat -> nsk d k f = None.
Proof.
  intros f o i u Hi Hu Hiu k; induction k as [|k IH]; intros H1 H2; [lia|].
  assert (Hf : f <> FCurrent).
  { intros ->. apply (ow_nocur _ _ W). apply in_created_names. exists o. eapply nth_error_In; exact Hi. }
  destruct (Nat.eq_dec u k) as [->|Hne]; [exact (nsk_S_unlink _ _ _ Hu)|].
  destruct (nsk_S_cases k f ltac:(lia) Hf) as [[o' [Hc _]]|[[_ E]|[[_ E]|E]]]; try exact E.
  - assert (i = k) by (eapply create_unique_pos; eauto using ow_nodup). lia.
  - rewrite E. apply IH; lia.
Qed.

(* names that are never renamed: logs, tables, MANIFESTs *)
Definition plain (f : fname) : Prop := match f with FCurrent | FTmp _ => False | _ => True end.

Lemma nsk_bound_or_unlinked : forall i f o,
  nth_error (d_ops d) i = Some (DCreate f o) -> plain f -> forall k, (i < k)%nat -> (k <= length (d_ops d))%nat ->
  nsk d k f = Some o \/ exists u, (i < u < k)%nat /\ nth_error (d_ops d) u = Some (DUnlink f).
Proof.
  intros i f o Hc Hp k; induction k as [|k IH]; intros H1 H2; [lia|].
  destruct (Nat.eq_dec i k) as [->|Hne]; [left; exact (nsk_S_create _ _ _ _ Hc)|].
  destruct IH as [IH|[u [Hu1 Hu2]]]; try lia.
  2:{ right. exists u. split; [lia|exact Hu2]. }
  assert (Hf : f <> FCurrent) by (intros ->; exact Hp).
  destruct (nsk_S_cases k f ltac:(lia) Hf) as [[o' [Hc' _]]|[[Hu _]|[[[t ->] _]|E]]].
  - assert (i = k) by (eapply create_unique_pos; eauto using ow_nodup). lia.
  - right. exists k. split; [lia|exact Hu].
  - contradiction.
  - left. rewrite E; exact IH.
Qed.

Lemma nsk_current_mono : forall k1 k2,
  (k1 <= k2)%nat -> (k2 <= length (d_ops d))%nat -> nsk d k1 FCurrent <> None -> nsk d k2 FCurrent <> None.
Proof.
  intros k1 k2 H1; induction H1 as [|k2 Hle IH]; intros H2 H; [exact H|].
  destruct (nsk_S_cur k2 ltac:(lia)) as [[t [_ [Hb E]]]|E]; rewrite E; [exact Hb|].
  apply IH; [lia|exact H].
Qed.

Lemma nsk_current_norename : forall k1 k2,
  (k1 <= k2)%nat -> (k2 <= length (d_ops d))%nat ->
  (forall u a b, (k1 <= u < k2)%nat -> nth_error (d_ops d) u <> Some (DRename a b)) ->
  nsk d k2 FCurrent = nsk d k1 FCurrent.
Proof.
  intros k1 k2 H1; induction H1 as [|k2 Hle IH]; intros H2 H; [reflexivity|].
  rewrite <- IH by (lia || intros u a b Hu; apply H; lia).
  destruct (nsk_S_cur k2 ltac:(lia)) as [[t [Hr _]]|E]; [destruct (H k2 _ _ ltac:(lia) Hr)|exact E].
Qed.

End Ns.

Lemma nsk_before_create : forall d n f o i, ops_wf (d_ops d) n -> f <> FCurrent ->
  nth_error (d_ops d) i = Some (DCreate f o) ->
  forall k, (k <= i)%nat -> nsk d k f = None.
Proof.
  intros d n f o i W Hf Hi k Hk. destruct (nsk d k f) as [o'|] eqn:E; [|reflexivity].
  destruct (nsk_created _ _ W _ _ _ E Hf) as [i' [Hi' Hc]].
  assert (i = i') by (eapply create_unique_pos; eauto using ow_nodup). lia.
Qed.

(* What one event does to a disk, whatever the protocol.  Directory operations are only added
   (step_op: one at most, and which), the fsync mark stays or moves to the end; an object keeps its
   number and is left alone, fsynced, or given one more record; a new object is empty.
   step_view lists the shapes the disk after one event can have (quiet: not a create and not an
   append to a bound name; fs_step_view uses SV_same only where fs_step leaves objects and directory
   operations as they are).  Only the step_* lemmas look at it: the proofs about the protocol use those. *)
Definition quiet (d : disk) (e : fev) : Prop :=
  match e with ECreate _ => False | EAppend f _ => ns_lookup d f = None | _ => True end.

Inductive step_view (d : disk) : fev -> disk -> Prop :=
| SV_same : forall e ds, quiet d e -> ds = d_dsync d \/ ds = length (d_ops d) ->
    step_view d e (mkDisk (d_objs d) (d_ops d) ds)
| SV_create : forall f,
    step_view d (ECreate f) (mkDisk (d_objs d ++ [mkObj [] 0]) (d_ops d ++ [DCreate f (length (d_objs d))]) (d_dsync d))
| SV_append : forall f pl o, ns_lookup d f = Some o ->
    step_view d (EAppend f pl) (mkDisk (upd_nth (d_objs d) o (obj_append pl)) (d_ops d) (d_dsync d))
| SV_sync : forall f o, ns_lookup d f = Some o ->
    step_view d (ESync f) (mkDisk (upd_nth (d_objs d) o obj_sync) (d_ops d) (length (d_ops d)))
| SV_rename : forall a b o, ns_lookup d a = Some o ->
    step_view d (ERename a b) (mkDisk (d_objs d) (d_ops d ++ [DRename a b]) (d_dsync d))
| SV_unlink : forall f o, ns_lookup d f = Some o ->
    step_view d (EUnlink f) (mkDisk (d_objs d) (d_ops d ++ [DUnlink f]) (d_dsync d)).

Lemma fs_step_view : forall d e, step_view d e (fs_step d e).
Proof.
  intros d e.
  assert (Hsame : quiet d e -> step_view d e d).
  { intro Q. destruct d. exact (SV_same _ e _ Q (or_introl eq_refl)). }
  destruct e as [f|f pl|f| |a b|f|id b sy|id ok]; cbn [fs_step]; try (apply Hsame; exact I).
  - apply SV_create.
  - destruct (ns_lookup d f) as [o|] eqn:E; [apply SV_append; exact E|apply Hsame; exact E].
  - destruct (ns_lookup d f) as [o|] eqn:E; [apply SV_sync; exact E|apply Hsame; exact I].
  - apply SV_same; [exact I|right; reflexivity].
  - destruct (ns_lookup d a) as [o|] eqn:E; [eapply SV_rename; exact E|apply Hsame; exact I].
  - destruct (ns_lookup d f) as [o|] eqn:E; [eapply SV_unlink; exact E|apply Hsame; exact I].
Qed.

Lemma step_dir : forall d e, exists l, d_ops (fs_step d e) = d_ops d ++ l /\
  (d_dsync (fs_step d e) = d_dsync d \/ d_dsync (fs_step d e) = length (d_ops d)).
Proof.
  intros d e; destruct (fs_step_view d e) as [e ds _ [->| ->]|f|f pl o _|f o _|a b o _|f o _]; cbn [d_ops d_dsync];
    try (exists []; rewrite app_nil_r; split; [reflexivity|auto]); (eexists; split; [reflexivity|auto]).
Qed.

Lemma step_op : forall d e u op, nth_error (d_ops (fs_step d e)) u = Some op ->
  nth_error (d_ops d) u = Some op \/
  (u = length (d_ops d) /\ match op with
                           | DCreate f o => e = ECreate f /\ o = length (d_objs d)
                           | DRename a b => e = ERename a b
                           | DUnlink f => e = EUnlink f
                           end).
Proof.
  intros d e u op H. destruct (fs_step_view d e) as [e ds _ _|f|f pl o _|f o _|a b o _|f o _]; cbn [d_ops] in H; auto;
    (destruct (nth_snoc_inv _ _ _ _ H) as [Hold|[-> <-]]; [left; exact Hold|right; auto]).
Qed.

Lemma step_dirop_objs : forall d e, match e with ERename _ _ | EUnlink _ => True | _ => False end ->
  d_objs (fs_step d e) = d_objs d.
Proof. intros d e H; destruct e; try contradiction; cbn [fs_step]; destruct (ns_lookup d _); reflexivity. Qed.

Inductive obj_step (d : disk) (e : fev) (o : nat) (x : fobj) : fobj -> Prop :=
| OS_same : (forall f pl, e = EAppend f pl -> ns_lookup d f <> Some o) -> obj_step d e o x x
| OS_sync : forall f, e = ESync f -> ns_lookup d f = Some o -> obj_step d e o x (obj_sync x)
| OS_append : forall f pl, e = EAppend f pl -> ns_lookup d f = Some o -> obj_step d e o x (obj_append pl x).

Lemma step_obj_old : forall d e o x, nth_error (d_objs d) o = Some x ->
  exists x', nth_error (d_objs (fs_step d e)) o = Some x' /\ obj_step d e o x x'.
Proof.
  intros d e o x Hx.
  assert (Hsame : (forall f pl, e = EAppend f pl -> ns_lookup d f <> Some o) -> nth_error (d_objs d) o = Some x ->
            exists x', nth_error (d_objs d) o = Some x' /\ obj_step d e o x x').
  { intros Hn _. exists x. split; [exact Hx|constructor; exact Hn]. }
  destruct (fs_step_view d e) as [e ds Q _|f|f pl o' Hl|f o' Hl|a b o' _|f o' _]; cbn [d_objs];
    try (apply Hsame; [intros; discriminate|exact Hx]).
  - apply Hsame; [|exact Hx]. intros f pl -> E. cbn [quiet] in Q. congruence.
  - exists x. split; [rewrite nth_error_app1; [exact Hx|apply nth_error_Some; congruence]|constructor; intros; discriminate].
  - rewrite nth_error_upd_nth. destruct (Nat.eqb_spec o' o) as [->|Hne].
    + exists (obj_append pl x). split; [rewrite Hx; reflexivity|eapply OS_append; eauto].
    + apply Hsame; [|exact Hx]. intros f' pl' E. injection E as <- <-. congruence.
  - rewrite nth_error_upd_nth. destruct (Nat.eqb_spec o' o) as [->|Hne]; [|apply Hsame; [intros; discriminate|exact Hx]].
    exists (obj_sync x). split; [rewrite Hx; reflexivity|eapply OS_sync; eauto].
Qed.

Lemma step_obj_inv : forall d e o x', nth_error (d_objs (fs_step d e)) o = Some x' ->
  (exists x, nth_error (d_objs d) o = Some x /\ obj_step d e o x x') \/ nth_error (d_objs d) o = None /\ x' = mkObj [] 0.
Proof.
  intros d e o x' H. destruct (nth_error (d_objs d) o) as [x|] eqn:Hx.
  - left. exists x. split; [reflexivity|]. destruct (step_obj_old d e o x Hx) as [x'' [H' S]].
    rewrite H in H'. injection H' as <-. exact S.
  - right. split; [reflexivity|].
    destruct (fs_step_view d e) as [e ds _ _|f|f pl o' _|f o' _|a b o' _|f o' _]; cbn [d_objs] in H; try congruence.
    + destruct (nth_snoc_inv _ _ _ _ H) as [Hold|[_ <-]]; [congruence|reflexivity].
    + rewrite nth_error_upd_nth, Hx in H. destruct (Nat.eqb o' o); discriminate.
    + rewrite nth_error_upd_nth, Hx in H. destruct (Nat.eqb o' o); discriminate.
Qed.

Lemma step_sync_mark : forall d f o, ns_lookup d f = Some o -> d_dsync (fs_step d (ESync f)) = length (d_ops d).
Proof. intros d f o H; cbn [fs_step]; rewrite H; reflexivity. Qed.

(* the name that an event creates *)
Definition new_name (e : fev) : list fname := match e with ECreate f => [f] | _ => [] end.

Lemma new_name_cases : forall e, new_name e = [] \/ exists f, e = ECreate f /\ new_name e = [f].
Proof. intro e; destruct e; eauto. Qed.

Lemma new_name_in : forall e f, In f (new_name e) -> e = ECreate f.
Proof. intros e f H; destruct e; try contradiction. destruct H as [->|[]]; reflexivity. Qed.

Lemma step_creates : forall d e,
  created_names (d_ops (fs_step d e)) = created_names (d_ops d) ++ new_name e /\
  create_ids (d_ops (fs_step d e)) = create_ids (d_ops d) ++ map (fun _ => length (d_objs d)) (new_name e) /\
  length (d_objs (fs_step d e)) = (length (d_objs d) + length (new_name e))%nat.
Proof.
  intros d e; destruct e as [f|f pl|f| |a b|f|id b sy|id ok]; cbn [fs_step new_name map length]; rewrite ?app_nil_r, ?Nat.add_0_r; auto.
  - cbn [d_ops d_objs]. rewrite created_names_snoc, create_ids_snoc, app_length; auto.
  - destruct (ns_lookup d f); cbn [d_ops d_objs]; rewrite ?length_upd_nth; auto.
  - destruct (ns_lookup d f); cbn [d_ops d_objs]; rewrite ?length_upd_nth; auto.
  - destruct (ns_lookup d a); cbn [d_ops d_objs]; rewrite ?created_names_snoc, ?create_ids_snoc, ?app_nil_r; auto.
  - destruct (ns_lookup d f); cbn [d_ops d_objs]; rewrite ?created_names_snoc, ?create_ids_snoc, ?app_nil_r; auto.
Qed.

(* cuts of the old directory show the same namespace after an event *)
Lemma step_nsk_old : forall d e k, (k <= length (d_ops d))%nat -> nsk (fs_step d e) k = nsk d k.
Proof.
  intros d e k H. destruct (step_dir d e) as [l [E _]]. unfold nsk. rewrite E, firstn_app_le by exact H. reflexivity.
Qed.

(* what holds of every reachable disk, whatever the protocol *)
Lemma run_shape : forall tr,
  (d_dsync (fs_run tr) <= length (d_ops (fs_run tr)))%nat /\
  forall o x, nth_error (d_objs (fs_run tr)) o = Some x -> (o_synced x <= length (o_recs x))%nat.
Proof.
  intro tr; induction tr as [|e tr [IH1 IH2]] using rev_ind; [split; [cbn; lia|intros o x H; destruct o; discriminate]|].
  rewrite fs_run_snoc. set (d := fs_run tr) in *. split.
  - destruct (step_dir d e) as [l [El [E|E]]]; rewrite El, E, app_length; lia.
  - intros o x' H. destruct (step_obj_inv _ _ _ _ H) as [[x [Hx S]]|[_ ->]]; [|cbn; lia].
    specialize (IH2 _ _ Hx). destruct S; [exact IH2|cbn; lia|unfold obj_append; cbn [o_synced o_recs]; rewrite app_length; lia].
Qed.

Lemma step_synced_mono : forall tr e o x, nth_error (d_objs (fs_run tr)) o = Some x ->
  exists x', nth_error (d_objs (fs_step (fs_run tr) e)) o = Some x' /\ (o_synced x <= o_synced x')%nat.
Proof.
  intros tr e o x Hx. pose proof (proj2 (run_shape tr) o x Hx) as Hs.
  destruct (step_obj_old _ e _ _ Hx) as [x' [Hx' S]]. exists x'. split; [exact Hx'|].
  destruct S; [apply Nat.le_refl|exact Hs|apply Nat.le_refl].
Qed.

(* file f of the image (k, cut): the object f names after k operations, cut to its first [cut o] records *)
Definition ifile (d : disk) (k : nat) (cut : nat -> nat) (f : fname) : option (list payload) :=
  match nsk d k f with
  | Some o => match nth_error (d_objs d) o with
              | Some x => Some (firstn (cut o) (o_recs x))
              | None => None
              end
  | None => None
  end.

Lemma in_add_name : forall f g l, In f (add_name g l) <-> f = g \/ In f l.
Proof.
  intros f g l; induction l as [|h r IH]; cbn [add_name].
  - split; [intros [<-|[]]; left; reflexivity|intros [->|[]]; left; reflexivity].
  - destruct (fname_eqb h g) eqn:E.
    + apply fname_eqb_eq in E; subst h. split; [right; assumption|intros [->|H]; [left; reflexivity|exact H]].
    + cbn [In]; rewrite IH. split; intros [H|[H|H]]; auto.
Qed.

Lemma op_names_snoc : forall ops op, op_names (ops ++ [op]) =
  match op with DCreate f _ => add_name f (op_names ops) | DRename _ b => add_name b (op_names ops) | DUnlink _ => op_names ops end.
Proof. intros; unfold op_names; rewrite fold_left_app; reflexivity. Qed.

Lemma op_names_mono : forall l1 l2 f, In f (op_names l1) -> In f (op_names (l1 ++ l2)).
Proof.
  intros l1 l2; induction l2 as [|op r IH] using rev_ind; intros f H.
  - rewrite app_nil_r; exact H.
  - rewrite app_assoc, op_names_snoc. specialize (IH f H).
    destruct op; try apply in_add_name; auto.
Qed.

Lemma ns_bound_named : forall ops f o, ns_of ops f = Some o -> In f (op_names ops).
Proof.
  intros ops; induction ops as [|op ops IH] using rev_ind; intros f o H; [discriminate|].
  rewrite ns_of_snoc in H. rewrite op_names_snoc.
  destruct op as [g o'|a b|g]; cbn [ns_apply] in H.
  - apply in_add_name. destruct (fname_eqb f g) eqn:E; [left; apply fname_eqb_eq; exact E|right; eauto].
  - destruct (ns_of ops a) eqn:Ea.
    + apply in_add_name. destruct (fname_eqb f b) eqn:E; [left; apply fname_eqb_eq; exact E|].
      right. destruct (fname_eqb f a); [discriminate|eauto].
    + apply in_add_name; right; eauto.
  - destruct (fname_eqb f g); [discriminate|eauto].
Qed.

Lemma iget_flat_map : forall (g : fname -> option (list payload)) names f,
  iget (flat_map (fun f' => match g f' with Some v => [(f', v)] | None => [] end) names) f =
  if existsb (fname_eqb f) names then g f else None.
Proof.
  intros g names f; induction names as [|h r IH]; cbn [flat_map existsb]; [reflexivity|].
  destruct (g h) as [v|] eqn:Eg; cbn [app iget].
  - rewrite (fname_eqb_sym f h). destruct (fname_eqb h f) eqn:E; cbn [orb].
    + apply fname_eqb_eq in E; subst h. symmetry; exact Eg.
    + exact IH.
  - rewrite IH. destruct (fname_eqb f h) eqn:E; cbn [orb]; [|reflexivity].
    apply fname_eqb_eq in E; subst h. rewrite Eg. destruct (existsb (fname_eqb f) r); reflexivity.
Qed.

Lemma image_of_flat : forall d k cut,
  image_of d k cut = flat_map (fun f => match ifile d k cut f with Some v => [(f, v)] | None => [] end) (op_names (d_ops d)).
Proof.
  intros d k cut; unfold image_of. apply flat_map_ext; intro f. unfold ifile, nsk.
  destruct (ns_of (firstn k (d_ops d)) f) as [o|]; [|reflexivity].
  destruct (nth_error (d_objs d) o); reflexivity.
Qed.

Lemma iget_image_of : forall d k cut f, iget (image_of d k cut) f = ifile d k cut f.
Proof.
  intros d k cut f. rewrite image_of_flat, iget_flat_map.
  destruct (existsb (fname_eqb f) (op_names (d_ops d))) eqn:E; [reflexivity|].
  unfold ifile. destruct (nsk d k f) as [o|] eqn:En; [|reflexivity].
  exfalso. unfold nsk in En. apply ns_bound_named in En.
  rewrite <- (firstn_skipn k (d_ops d)) in E.
  apply (op_names_mono _ (skipn k (d_ops d))) in En.
  apply (existsb_eqb_In _ fname_eqb_eq) in En. congruence.
Qed.

Lemma iget_image_bound : forall d k cut f o x, nsk d k f = Some o -> nth_error (d_objs d) o = Some x ->
  iget (image_of d k cut) f = Some (firstn (cut o) (o_recs x)).
Proof. intros d k cut f o x Hb Hx. rewrite iget_image_of. unfold ifile. rewrite Hb, Hx. reflexivity. Qed.

Lemma iget_image_unbound : forall d k cut f, nsk d k f = None -> iget (image_of d k cut) f = None.
Proof. intros d k cut f H. rewrite iget_image_of. unfold ifile. rewrite H. reflexivity. Qed.

Lemma iget_image_inv : forall d k cut f recs, iget (image_of d k cut) f = Some recs ->
  exists o x, nsk d k f = Some o /\ nth_error (d_objs d) o = Some x /\ recs = firstn (cut o) (o_recs x).
Proof.
  intros d k cut f recs H. rewrite iget_image_of in H. unfold ifile in H.
  destruct (nsk d k f) as [o|]; [|discriminate].
  destruct (nth_error (d_objs d) o) as [x|] eqn:Hx; [|discriminate].
  injection H as <-. exists o, x. auto.
Qed.

Lemma in_insert_N : forall x y l, In x (insert_N y l) <-> x = y \/ In x l.
Proof.
  intros x y l; induction l as [|z r IH]; cbn [insert_N].
  - split; [intros [<-|[]]; left; reflexivity|intros [->|[]]; left; reflexivity].
  - destruct (y <? z) eqn:E1; [split; [intros [<-|H]; auto|intros [->|H]; [left; reflexivity|right; exact H]]|].
    destruct (y =? z) eqn:E2.
    + apply N.eqb_eq in E2; subst z. split; [right; assumption|intros [->|H]; [left; reflexivity|exact H]].
    + cbn [In]; rewrite IH. split; intros [H|[H|H]]; auto.
Qed.

Lemma in_sort_N : forall x l, In x (sort_N l) <-> In x l.
Proof.
  intros x l; induction l as [|y r IH]; cbn [sort_N fold_right]; [reflexivity|].
  fold (sort_N r). rewrite in_insert_N, IH. split; (intros [H|H]; [left; congruence|right; exact H]).
Qed.

Lemma insert_N_sorted : forall y l, StronglySorted N.lt l -> StronglySorted N.lt (insert_N y l).
Proof.
  intros y l H; induction H as [|z r Hs IH Hf]; cbn [insert_N].
  - repeat constructor.
  - destruct (y <? z) eqn:E1.
    + apply N.ltb_lt in E1. constructor; [constructor; assumption|].
      constructor; [exact E1|]. eapply Forall_impl; [|exact Hf]. intros a Ha; cbn in Ha; lia.
    + destruct (y =? z) eqn:E2; [constructor; assumption|].
      apply N.ltb_ge in E1. apply N.eqb_neq in E2.
      constructor; [exact IH|]. apply Forall_forall; intros a Ha. apply in_insert_N in Ha.
      destruct Ha as [->|Ha]; [lia|]. rewrite Forall_forall in Hf; auto.
Qed.

Lemma sort_N_sorted : forall l, StronglySorted N.lt (sort_N l).
Proof.
  intro l; induction l as [|y r IH]; cbn [sort_N fold_right]; [constructor|].
  fold (sort_N r). apply insert_N_sorted; exact IH.
Qed.

Lemma sorted_split : forall (l : list N) L, StronglySorted N.lt l ->
  l = filter (fun n => n <? L) l ++ filter (fun n => L <=? n) l.
Proof.
  intros l L H; induction H as [|a r S IH F]; [reflexivity|]. cbn [filter].
  destruct (a <? L) eqn:E1.
  - apply N.ltb_lt in E1. rewrite (proj2 (N.leb_gt L a) E1). cbn [app]. f_equal. exact IH.
  - apply N.ltb_ge in E1. rewrite (proj2 (N.leb_le L a) E1). rewrite Forall_forall in F.
    rewrite filter_false, filter_true; [reflexivity| |]; intros b Hb; specialize (F b Hb);
      [apply N.leb_le|apply N.ltb_ge]; lia.
Qed.

Lemma iget_in : forall img f, (exists recs, iget img f = Some recs) <-> In f (map fst img).
Proof.
  intros img f; induction img as [|[g recs] r IH]; cbn [iget map fst In].
  - split; [intros [? H]; discriminate|contradiction].
  - destruct (fname_eqb g f) eqn:E.
    + apply fname_eqb_eq in E; subst g. split; eauto.
    + rewrite IH. apply fname_eqb_neq in E. split; [right; assumption|intros [H|H]; [congruence|exact H]].
Qed.

Lemma in_image_logs : forall img n, In n (image_logs img) <-> exists recs, iget img (FLog n) = Some recs.
Proof.
  intros img n; unfold image_logs. rewrite in_sort_N, iget_in, in_flat_map, in_map_iff. split.
  - intros [[f recs] [Hin Hn]]; cbn [fst] in Hn. destruct f; cbn in Hn; try contradiction.
    destruct Hn as [->|[]]. exists (FLog n, recs); split; [reflexivity|exact Hin].
  - intros [[f recs] [Hf Hin]]; cbn [fst] in Hf; subst f. exists (FLog n, recs); split; [exact Hin|left; reflexivity].
Qed.

(* a well-typed MANIFEST / log is the image of its edits / batches *)
Lemma edits_of_map : forall es, edits_of (map PEdit es) = Some es.
Proof. intro es; induction es as [|e r IH]; cbn [map edits_of]; [|rewrite IH]; reflexivity. Qed.

Lemma edits_of_inv : forall recs es, edits_of recs = Some es -> recs = map PEdit es.
Proof.
  intros recs; induction recs as [|p r IH]; intros es H; cbn [edits_of] in H.
  - injection H as <-; reflexivity.
  - destruct p; try discriminate. destruct (edits_of r) as [l|]; [|discriminate].
    injection H as <-. cbn [map]. rewrite <- (IH l eq_refl); reflexivity.
Qed.

Lemma edits_of_snoc : forall recs es e, edits_of recs = Some es -> edits_of (recs ++ [PEdit e]) = Some (es ++ [e]).
Proof.
  intros recs es e H. rewrite (edits_of_inv _ _ H). change [PEdit e] with (map PEdit [e]).
  rewrite <- map_app. apply edits_of_map.
Qed.

Lemma edits_of_length : forall recs es, edits_of recs = Some es -> length es = length recs.
Proof. intros recs es H. rewrite (edits_of_inv _ _ H), map_length. reflexivity. Qed.

Lemma edits_of_firstn : forall recs es j, edits_of recs = Some es -> edits_of (firstn j recs) = Some (firstn j es).
Proof. intros recs es j H. rewrite (edits_of_inv _ _ H), firstn_map. apply edits_of_map. Qed.

Lemma in_edits_of : forall recs eds e, edits_of recs = Some eds -> In e eds -> In (PEdit e) recs.
Proof. intros recs eds e H Hin. rewrite (edits_of_inv _ _ H). apply in_map; exact Hin. Qed.

Definition batch_rec (b : brec) : payload := PBatch (fst b) (snd b).

Lemma batches_of_map : forall bs, batches_of (map batch_rec bs) = Some bs.
Proof.
  intro bs; induction bs as [|[s ops] r IH]; cbn [map batch_rec fst snd batches_of]; [|rewrite IH]; reflexivity.
Qed.

Lemma batches_of_inv : forall recs bs, batches_of recs = Some bs -> recs = map batch_rec bs.
Proof.
  intros recs; induction recs as [|p r IH]; intros bs H; cbn [batches_of] in H.
  - injection H as <-; reflexivity.
  - destruct p; try discriminate. destruct (batches_of r) as [l|]; [|discriminate].
    injection H as <-. cbn [map batch_rec fst snd]. rewrite <- (IH l eq_refl); reflexivity.
Qed.

Lemma batches_of_snoc : forall recs bs s ops, batches_of recs = Some bs ->
  batches_of (recs ++ [PBatch s ops]) = Some (bs ++ [(s, ops)]).
Proof.
  intros recs bs s ops H. rewrite (batches_of_inv _ _ H). change [PBatch s ops] with (map batch_rec [(s, ops)]).
  rewrite <- map_app. apply batches_of_map.
Qed.

Lemma batches_of_length : forall recs bs, batches_of recs = Some bs -> length bs = length recs.
Proof. intros recs bs H. rewrite (batches_of_inv _ _ H), map_length. reflexivity. Qed.

Lemma batches_of_firstn : forall recs bs j, batches_of recs = Some bs -> batches_of (firstn j recs) = Some (firstn j bs).
Proof. intros recs bs j H. rewrite (batches_of_inv _ _ H), firstn_map. apply batches_of_map. Qed.

Lemma batches_of_nth : forall recs bs i s ops, batches_of recs = Some bs ->
  nth_error recs i = Some (PBatch s ops) -> nth_error bs i = Some (s, ops).
Proof.
  intros recs bs i s ops H Hn. rewrite (batches_of_inv _ _ H), nth_error_map in Hn.
  destruct (nth_error bs i) as [[s' ops']|]; [|discriminate].
  cbn [option_map batch_rec fst snd] in Hn. injection Hn as -> ->. reflexivity.
Qed.

Lemma replay_snoc : forall es e, replay (es ++ [e]) = apply_edit (replay es) e.
Proof. intros; unfold replay; rewrite fold_left_app; reflexivity. Qed.

Lemma manifest_ok_iff : forall ms, manifest_ok ms = true <->
  exists nx lg ls, mv_next ms = Some nx /\ mv_log ms = Some lg /\ mv_last ms = Some ls.
Proof.
  intro ms; unfold manifest_ok. split.
  - destruct (mv_next ms) as [nx|], (mv_log ms) as [lg|], (mv_last ms) as [ls|]; try discriminate.
    intros _; exists nx, lg, ls; auto.
  - intros [nx [lg [ls [-> [-> ->]]]]]. reflexivity.
Qed.

Lemma replay_log_from : forall eds L, mv_log (replay eds) = Some L -> exists e, In e eds /\ me_log e = Some L.
Proof.
  intro eds; induction eds as [|e eds IH] using rev_ind; intros L H; [discriminate|].
  rewrite replay_snoc in H. cbn [apply_edit mv_log] in H.
  destruct (me_log e) as [l|] eqn:El; cbn [or_else] in H.
  - injection H as <-. exists e; split; [apply in_or_app; right; left; reflexivity|exact El].
  - destruct (IH _ H) as [e' [Hin He]]. exists e'; split; [apply in_or_app; left; exact Hin|exact He].
Qed.

Lemma manifest_ok_apply : forall ms e, manifest_ok ms = true -> manifest_ok (apply_edit ms e) = true.
Proof.
  intros ms e H. apply manifest_ok_iff in H. destruct H as [nx [lg [ls [A [B C]]]]].
  unfold manifest_ok; cbn [apply_edit mv_next mv_log mv_last]. rewrite A, B, C.
  destruct (me_next e), (me_log e), (me_last e); reflexivity.
Qed.

Lemma in_apply_files : forall ms e f, In f (mv_files (apply_edit ms e)) -> In f (mv_files ms) \/ In f (me_new e).
Proof.
  intros ms e f H; cbn [apply_edit mv_files] in H. apply in_app_or in H.
  destruct H as [H|H]; [left; apply filter_In in H; apply H|right; exact H].
Qed.

Lemma log_dead_apply : forall ms e n L, log_dead ms n = true -> mv_log ms = Some L ->
  (forall l, me_log e = Some l -> L <= l) -> log_dead (apply_edit ms e) n = true.
Proof.
  intros ms e n L H HL Hle. unfold log_dead in *. rewrite HL in H. cbn [apply_edit mv_log].
  destruct (me_log e) as [l|]; cbn [or_else].
  - specialize (Hle l eq_refl). apply N.ltb_lt in H. apply N.ltb_lt. lia.
  - rewrite HL. exact H.
Qed.

Lemma in_exposed : forall x es ms, edits_of (o_recs x) = Some es -> (o_synced x <= length es)%nat ->
  (In ms (exposed x) <-> exists j, (o_synced x <= j <= length es)%nat /\ ms = replay (firstn j es)).
Proof.
  intros x es ms He Hs; unfold exposed; rewrite He, in_map_iff. split.
  - intros [j [<- Hj]]. apply in_seq in Hj. exists j; split; [lia|reflexivity].
  - intros [j [Hj ->]]. exists j; split; [reflexivity|]. apply in_seq; lia.
Qed.

Lemma exposed_last : forall x eds, edits_of (o_recs x) = Some eds -> (o_synced x <= length eds)%nat ->
  In (replay eds) (exposed x).
Proof.
  intros x eds He Hs. apply (in_exposed _ _ _ He Hs). exists (length eds); split; [lia|].
  rewrite firstn_all; reflexivity.
Qed.

Lemma exposed_append : forall x e eds, edits_of (o_recs x) = Some eds -> (o_synced x <= length eds)%nat ->
  forall ms, In ms (exposed (obj_append (PEdit e) x)) ->
    In ms (exposed x) \/ ms = apply_edit (replay eds) e.
Proof.
  intros x e eds He Hs ms Hin.
  assert (He' : edits_of (o_recs (obj_append (PEdit e) x)) = Some (eds ++ [e])) by (apply edits_of_snoc; exact He).
  apply (in_exposed _ _ ms He') in Hin.
  2:{ unfold obj_append; cbn [o_synced]. rewrite app_length; cbn [length]; lia. }
  unfold obj_append in Hin; cbn [o_synced] in Hin. destruct Hin as [j [Hj ->]].
  rewrite app_length in Hj; cbn [length] in Hj.
  destruct (Nat.eq_dec j (length eds + 1)) as [->|Hne].
  - right. rewrite firstn_all2 by (rewrite app_length; cbn [length]; lia). apply replay_snoc.
  - left. apply (in_exposed _ _ _ He Hs). exists j; split; [lia|].
    rewrite firstn_app_le by lia. reflexivity.
Qed.

Lemma exposed_sync : forall x eds, edits_of (o_recs x) = Some eds -> (o_synced x <= length eds)%nat ->
  forall ms, In ms (exposed (obj_sync x)) -> In ms (exposed x).
Proof.
  intros x eds He Hs ms Hin.
  assert (He' : edits_of (o_recs (obj_sync x)) = Some eds) by exact He.
  apply (in_exposed _ _ ms He') in Hin.
  2:{ unfold obj_sync; cbn [o_synced o_recs]. rewrite (edits_of_length _ _ He); lia. }
  unfold obj_sync in Hin; cbn [o_synced o_recs] in Hin. destruct Hin as [j [Hj ->]].
  rewrite <- (edits_of_length _ _ He) in Hj.
  apply (in_exposed _ _ _ He Hs). exists j; split; [lia|reflexivity].
Qed.

Lemma exposed_nonempty : forall x es, edits_of (o_recs x) = Some es -> exposed x <> [].
Proof. intros x es He; unfold exposed; rewrite He. cbn [seq map]. discriminate. Qed.

Lemma exposed_typed : forall x, exposed x <> [] -> exists es, edits_of (o_recs x) = Some es.
Proof. intros x H; unfold exposed in H. destruct (edits_of (o_recs x)); [eauto|congruence]. Qed.
