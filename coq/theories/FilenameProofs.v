(* FilenameProofs.v -- proofs about Filename.v: ldb_decode_int inverts
   ldb_encode_int for every uint64, and ldb_parse_filename recognises every name
   produced by the constructors with the right type and number. *)
From LCDB Require Import Base BaseProofs Filename.
From Coq Require Import ZifyNat ZifyN.
Local Open Scope N_scope.

Fixpoint pow10 (n : nat) : N :=
  match n with O => 1 | S k => 10 * pow10 k end.

Lemma pow10_pos : forall n, 0 < pow10 n.
Proof. induction n as [|n IH]; cbn [pow10]; lia. Qed.

Lemma pow10_mono : forall a b, (a <= b)%nat -> pow10 a <= pow10 b.
Proof.
  intros a b H. induction H as [|b H IH]; [lia|].
  cbn [pow10]. pose proof (pow10_pos b). lia.
Qed.

Lemma size_int_fuel_pos : forall f x, (1 <= size_int_fuel f x)%nat.
Proof. intros [|f] x; cbn [size_int_fuel]; [lia|]. destruct (x / 10 =? 0); lia. Qed.

Lemma size_int_fuel_bound : forall f x,
  x < pow10 (S f) -> x < pow10 (size_int_fuel f x).
Proof.
  induction f as [|f IH]; intros x Hx.
  - exact Hx.
  - cbn [size_int_fuel]. destruct (x / 10 =? 0) eqn:Hq.
    + apply N.eqb_eq in Hq. cbn [pow10]. lia.
    + change (pow10 (S (S f))) with (10 * pow10 (S f)) in Hx.
      assert (Hd : x / 10 < pow10 (S f)) by (remember (pow10 (S f)) as p; lia).
      apply IH in Hd. change (pow10 (S (size_int_fuel f (x / 10))))
        with (10 * pow10 (size_int_fuel f (x / 10))).
      remember (pow10 (size_int_fuel f (x / 10))) as p. lia.
Qed.

Lemma size_int_bound : forall x, x < 18446744073709551616 -> x < pow10 (size_int x).
Proof.
  intros x Hx. unfold size_int. apply size_int_fuel_bound. change (pow10 21) with 1000000000000000000000. lia.
Qed.

Lemma encode_int_loop_acc : forall n x acc,
  encode_int_loop n x acc = encode_int_loop n x [] ++ acc.
Proof.
  induction n as [|n IH]; intros x acc; cbn [encode_int_loop].
  - reflexivity.
  - rewrite (IH (x / 10) ((48 + x mod 10) :: acc)).
    rewrite (IH (x / 10) [48 + x mod 10]).
    rewrite <- app_assoc. reflexivity.
Qed.

Definition is_digit (c : N) : Prop := 48 <= c /\ c <= 57.

Lemma encode_int_loop_digits : forall n x acc,
  Forall is_digit acc -> Forall is_digit (encode_int_loop n x acc).
Proof.
  induction n as [|n IH]; intros x acc H; cbn [encode_int_loop].
  - exact H.
  - apply IH. constructor; [|exact H]. unfold is_digit. lia.
Qed.

Lemma encode_int_loop_length : forall n x acc,
  length (encode_int_loop n x acc) = (n + length acc)%nat.
Proof.
  induction n as [|n IH]; intros x acc; cbn [encode_int_loop].
  - reflexivity.
  - rewrite IH. cbn [length]. lia.
Qed.

Lemma encode_int_digits : forall x pad, Forall is_digit (encode_int x pad).
Proof. intros. unfold encode_int. apply encode_int_loop_digits. constructor. Qed.

Lemma encode_int_length : forall x pad,
  length (encode_int x pad) = Nat.max (size_int x) pad.
Proof. intros. unfold encode_int. rewrite encode_int_loop_length. cbn [length]. lia. Qed.

Lemma encode_int_cons : forall x pad,
  exists d ds, encode_int x pad = d :: ds /\ is_digit d.
Proof.
  intros x pad. pose proof (encode_int_digits x pad) as Hd.
  pose proof (encode_int_length x pad) as Hl.
  pose proof (size_int_fuel_pos 20 x) as Hp. fold (size_int x) in Hp.
  destruct (encode_int x pad) as [|d ds]; [cbn [length] in Hl; lia|].
  exists d, ds. split; [reflexivity|]. inversion Hd; assumption.
Qed.

Lemma decode_int_loop_digit : forall ch r x,
  is_digit ch ->
  x * 10 + (ch - 48) < 18446744073709551616 ->
  decode_int_loop (ch :: r) x = decode_int_loop r (x * 10 + (ch - 48)).
Proof.
  intros ch r x [H1 H2] Hb. cbn [decode_int_loop].
  replace (ch <? 48) with false by (symmetry; apply N.ltb_ge; lia).
  replace (57 <? ch) with false by (symmetry; apply N.ltb_ge; lia).
  cbn [orb]. unfold DECODE_LIMIT, DECODE_LAST.
  destruct (1844674407370955161 <? x) eqn:E1.
  - apply N.ltb_lt in E1. lia.
  - cbn [orb]. destruct (x =? 1844674407370955161) eqn:E2.
    + apply N.eqb_eq in E2. cbn [andb].
      replace (53 <? ch) with false by (symmetry; apply N.ltb_ge; lia). reflexivity.
    + reflexivity.
Qed.

Lemma decode_encode_gen : forall n x v tail,
  x < pow10 n ->
  v * pow10 n + x < 18446744073709551616 ->
  decode_int_loop (encode_int_loop n x tail) v = decode_int_loop tail (v * pow10 n + x).
Proof.
  induction n as [|n IH]; intros x v tail Hx Hb.
  - cbn [pow10] in *. cbn [encode_int_loop]. f_equal. lia.
  - cbn [encode_int_loop]. change (pow10 (S n)) with (10 * pow10 n) in *.
    (* x = 10 * q + r with r < 10; from here on the quotient and the remainder are variables *)
    pose proof (N.div_mod' x 10) as Hd. pose proof (N.mod_lt x 10) as Hr.
    generalize dependent (x mod 10). generalize dependent (x / 10). generalize dependent (pow10 n).
    intros p IH q Hb r Hx Hd Hr.
    rewrite IH, decode_int_loop_digit; [f_equal| | | |]; unfold is_digit; lia.
Qed.

(* what follows the digits does not continue the number *)
Definition stops (rest : bytes) : Prop :=
  match rest with [] => True | c :: _ => c < 48 \/ 57 < c end.

Lemma decode_int_loop_stops : forall rest x,
  stops rest -> decode_int_loop rest x = Some (x, rest).
Proof.
  intros [|c r] x H; cbn [decode_int_loop]; [reflexivity|].
  cbn [stops] in H.
  destruct H as [H|H].
  - replace (c <? 48) with true by (symmetry; apply N.ltb_lt; lia). reflexivity.
  - replace (57 <? c) with true by (symmetry; apply N.ltb_lt; lia).
    rewrite orb_true_r. reflexivity.
Qed.

Theorem decode_int_encode_int : forall x pad rest,
  x < 18446744073709551616 -> stops rest ->
  decode_int (encode_int x pad ++ rest) = Some (x, rest).
Proof.
  intros x pad rest Hx Hs. unfold decode_int, encode_int.
  rewrite <- encode_int_loop_acc.
  assert (Hlt : x < pow10 (Nat.max (size_int x) pad)).
  { eapply N.lt_le_trans; [apply size_int_bound; exact Hx|]. apply pow10_mono. lia. }
  rewrite decode_encode_gen by (first [exact Hlt | lia]).
  replace (0 * pow10 (Nat.max (size_int x) pad) + x) with x by lia.
  rewrite decode_int_loop_stops by exact Hs.
  rewrite encode_int_loop_length.
  pose proof (size_int_fuel_pos 20 x) as Hp. fold (size_int x) in Hp.
  replace (Nat.eqb (length rest) (Nat.max (size_int x) pad + length rest)) with false
    by (symmetry; apply Nat.eqb_neq; lia).
  reflexivity.
Qed.

Lemma cstr_nonzero : forall l, Forall (fun c => c <> 0) l -> cstr l = l.
Proof.
  induction l as [|c l IH]; intros H; cbn [cstr]; [reflexivity|].
  inversion H as [|c' l' Hc Hl]; subst.
  replace (c =? 0) with false by (symmetry; apply N.eqb_neq; lia).
  rewrite IH by exact Hl. reflexivity.
Qed.

Lemma digits_nonzero : forall l, Forall is_digit l -> Forall (fun c => c <> 0) l.
Proof.
  intros l H. eapply Forall_impl; [|exact H]. unfold is_digit. intros; lia.
Qed.

Lemma bytes_eqb_head_neq : forall a b ta tb, a <> b -> bytes_eqb (a :: ta) (b :: tb) = false.
Proof.
  intros a b ta tb H. unfold bytes_eqb. cbn [list_eqb].
  replace (a =? b) with false by (symmetry; apply N.eqb_neq; lia). reflexivity.
Qed.

Lemma starts_with_head_neq : forall a b ta tb, a <> b -> starts_with (a :: ta) (b :: tb) = false.
Proof.
  intros a b ta tb H. cbn [starts_with].
  replace (a =? b) with false by (symmetry; apply N.eqb_neq; lia). reflexivity.
Qed.

Lemma starts_with_app : forall p t, starts_with (p ++ t) p = true.
Proof.
  induction p as [|c p IH]; intros t; cbn [app starts_with]; [destruct t; reflexivity|].
  rewrite N.eqb_refl. apply IH.
Qed.

(* no NUL: parse_filename reads the name as a C string (cstr) *)
Definition suffix_ok (suf : bytes) : Prop :=
  Forall (fun c => c <> 0) suf /\ stops suf.

(* A name that begins with a digit matches none of the fixed names nor "MANIFEST-",
   so the parser reads the number and looks at the suffix. *)
Lemma parse_numbered : forall n suf,
  n < 18446744073709551616 -> suffix_ok suf ->
  parse_filename (encode_int n 6 ++ suf) =
    if bytes_eqb suf s_dot_log then Some (FLog, n)
    else if bytes_eqb suf s_dot_sst || bytes_eqb suf s_dot_ldb then Some (FTable, n)
    else if bytes_eqb suf s_dot_dbtmp then Some (FTemp, n)
    else None.
Proof.
  intros n suf Hn [Hnz Hst]. unfold parse_filename.
  rewrite cstr_nonzero
    by (apply Forall_app; split; [apply digits_nonzero, encode_int_digits|exact Hnz]).
  rewrite decode_int_encode_int by assumption.
  destruct (encode_int_cons n 6) as [d [ds [Heq [Hd1 Hd2]]]]. rewrite Heq.
  cbn [app]. unfold s_CURRENT, s_LOCK, s_LOG, s_LOG_old, s_MANIFEST_.
  rewrite !bytes_eqb_head_neq by lia.
  rewrite starts_with_head_neq by lia.
  cbn [orb]. reflexivity.
Qed.

Lemma suffix_ok_log : suffix_ok s_dot_log.
Proof. split; [repeat constructor; discriminate|cbn; lia]. Qed.
Lemma suffix_ok_sst : suffix_ok s_dot_sst.
Proof. split; [repeat constructor; discriminate|cbn; lia]. Qed.
Lemma suffix_ok_ldb : suffix_ok s_dot_ldb.
Proof. split; [repeat constructor; discriminate|cbn; lia]. Qed.
Lemma suffix_ok_dbtmp : suffix_ok s_dot_dbtmp.
Proof. split; [repeat constructor; discriminate|cbn; lia]. Qed.

Theorem parse_log_name : forall n,
  n < 18446744073709551616 -> parse_filename (log_name n) = Some (FLog, n).
Proof. intros n H. unfold log_name. rewrite parse_numbered by (first [exact H|apply suffix_ok_log]). reflexivity. Qed.

Theorem parse_table_name : forall n,
  n < 18446744073709551616 -> parse_filename (table_name n) = Some (FTable, n).
Proof. intros n H. unfold table_name. rewrite parse_numbered by (first [exact H|apply suffix_ok_ldb]). reflexivity. Qed.

Theorem parse_sstable_name : forall n,
  n < 18446744073709551616 -> parse_filename (sstable_name n) = Some (FTable, n).
Proof. intros n H. unfold sstable_name. rewrite parse_numbered by (first [exact H|apply suffix_ok_sst]). reflexivity. Qed.

Theorem parse_temp_name : forall n,
  n < 18446744073709551616 -> parse_filename (temp_name n) = Some (FTemp, n).
Proof. intros n H. unfold temp_name. rewrite parse_numbered by (first [exact H|apply suffix_ok_dbtmp]). reflexivity. Qed.

Theorem parse_desc_name : forall n,
  n < 18446744073709551616 -> parse_filename (desc_name n) = Some (FDesc, n).
Proof.
  intros n H. unfold desc_name, parse_filename.
  rewrite cstr_nonzero.
  2:{ apply Forall_app. split; [repeat constructor; discriminate|apply digits_nonzero, encode_int_digits]. }
  rewrite starts_with_app.
  replace (skipn 9 (s_MANIFEST_ ++ encode_int n 6)) with (encode_int n 6 ++ []) by (rewrite app_nil_r; reflexivity).
  rewrite decode_int_encode_int by (first [exact H|exact I]).
  unfold s_MANIFEST_, s_CURRENT, s_LOCK, s_LOG, s_LOG_old. cbn [app].
  rewrite !bytes_eqb_head_neq by lia. reflexivity.
Qed.

Theorem parse_current_name : parse_filename current_name = Some (FCurrent, 0).
Proof. reflexivity. Qed.
Theorem parse_lock_name : parse_filename lock_name = Some (FLock, 0).
Proof. reflexivity. Qed.
Theorem parse_info_name : parse_filename info_name = Some (FInfo, 0).
Proof. reflexivity. Qed.
Theorem parse_oldinfo_name : parse_filename oldinfo_name = Some (FInfo, 0).
Proof. reflexivity. Qed.

(* all constructors at once, by the kind code used by the k1 driver *)
Definition kind_type (kind : N) : ftype :=
  if kind =? 0 then FLog else if kind =? 1 then FTable else if kind =? 2 then FTable
  else if kind =? 3 then FDesc else if kind =? 4 then FTemp else if kind =? 5 then FCurrent
  else if kind =? 6 then FLock else FInfo.

Theorem parse_filename_make : forall kind n,
  n < 2 ^ 64 ->
  parse_filename (make_name kind n) = Some (kind_type kind, if kind <? 5 then n else 0).
Proof.
  intros kind n Hn. change (2 ^ 64) with 18446744073709551616 in Hn.
  unfold make_name, kind_type.
  destruct (kind =? 0) eqn:K0; [apply N.eqb_eq in K0; subst; apply parse_log_name; exact Hn|].
  destruct (kind =? 1) eqn:K1; [apply N.eqb_eq in K1; subst; apply parse_table_name; exact Hn|].
  destruct (kind =? 2) eqn:K2; [apply N.eqb_eq in K2; subst; apply parse_sstable_name; exact Hn|].
  destruct (kind =? 3) eqn:K3; [apply N.eqb_eq in K3; subst; apply parse_desc_name; exact Hn|].
  destruct (kind =? 4) eqn:K4; [apply N.eqb_eq in K4; subst; apply parse_temp_name; exact Hn|].
  apply N.eqb_neq in K0, K1, K2, K3, K4.
  replace (kind <? 5) with false by (symmetry; apply N.ltb_ge; lia).
  destruct (kind =? 5); [reflexivity|].
  destruct (kind =? 6); [reflexivity|].
  destruct (kind =? 7); reflexivity.
Qed.

(* distinct numbers give distinct names: the parser is a left inverse *)
Theorem log_name_inj : forall a b,
  a < 2 ^ 64 -> b < 2 ^ 64 -> log_name a = log_name b -> a = b.
Proof.
  intros a b Ha Hb H. change (2 ^ 64) with 18446744073709551616 in *.
  pose proof (parse_log_name a Ha) as Pa. pose proof (parse_log_name b Hb) as Pb.
  rewrite H in Pa. rewrite Pa in Pb. injection Pb as Pb. exact Pb.
Qed.

Print Assumptions parse_filename_make.
