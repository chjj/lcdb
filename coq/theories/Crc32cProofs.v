(* Crc32cProofs.v -- proofs about Crc32c.v: mask/unmask round trip, 32-bit
   bounds, compositionality of crc_extend, and the standard check value. *)
From LCDB Require Import Base Crc32c BaseProofs.
From Coq Require Import ZifyNat ZifyN.
Local Open Scope N_scope.

(* Masking is a rotation of the 32-bit word followed by adding MASK_DELTA mod 2^32.
   A word x < a * b is rotated by exchanging its two digits in the mixed radix (a, b). *)
Lemma rot_lt : forall a b x, x < a * b -> x / a + x mod a * b < a * b.
Proof.
  intros a b x Hx.
  assert (Ha : a <> 0) by (intros ->; lia).
  rewrite (N.mul_comm a b), (N.mul_comm _ b).
  apply digit_lt; [apply N.div_lt_upper_bound; assumption|apply N.mod_lt, Ha].
Qed.

Lemma rot_inv : forall a b x, x < a * b ->
  (x / a + x mod a * b) / b + (x / a + x mod a * b) mod b * a = x.
Proof.
  intros a b x Hx.
  assert (Ha : a <> 0) by (intros ->; lia).
  assert (Hq : x / a < b) by (apply N.div_lt_upper_bound; assumption).
  rewrite (N.add_comm (x / a)). destruct (tag_fields b (x mod a) (x / a) Hq) as [-> ->].
  rewrite N.add_comm, N.mul_comm. symmetry. apply N.div_mod'.
Qed.

(* Adding [a] and then [b] modulo [m] does nothing when a + b = 0 (mod m): "+ MASK_DELTA" then
   "- MASK_DELTA" is this at (MASK_DELTA, 2^32 - MASK_DELTA), the other order at the pair swapped. *)
Lemma add_add_mod : forall m a b r,
  (a + b) mod m = 0 -> r < m -> ((r + a) mod m + b) mod m = r.
Proof.
  intros m a b r H Hr. assert (Hm : m <> 0) by (intros ->; destruct r; discriminate).
  rewrite N.add_mod_idemp_l, <- N.add_assoc, <- N.add_mod_idemp_r, H, N.add_0_r by exact Hm.
  apply N.mod_small, Hr.
Qed.

Theorem crc_mask_bound : forall c, crc_mask c < 4294967296.
Proof. intros c. unfold crc_mask. apply N.mod_lt. discriminate. Qed.

Theorem crc_unmask_mask : forall c,
  c < 4294967296 -> crc_unmask (crc_mask c) = c.
Proof.
  intros c Hc. unfold crc_unmask, crc_mask. cbv zeta.
  rewrite <- N.add_sub_assoc, add_add_mod by (discriminate || reflexivity || exact (rot_lt 32768 131072 c Hc)).
  exact (rot_inv 32768 131072 c Hc).
Qed.

Lemma stored_crc_unmask : forall v c0 c1 c2 c3, v < 4294967296 ->
  le32 (crc_mask v) = [c0; c1; c2; c3] ->
  crc_unmask (c0 + 256 * c1 + 65536 * c2 + 16777216 * c3) = v.
Proof.
  intros v c0 c1 c2 c3 Hv H.
  rewrite (le32_sum _ _ _ _ _ (crc_mask_bound v) H). apply crc_unmask_mask. exact Hv.
Qed.

Theorem crc_unmask_bound : forall m, crc_unmask m < 4294967296.
Proof.
  intros m. unfold crc_unmask. cbv zeta.
  apply (rot_lt 131072 32768). apply N.mod_lt. discriminate.
Qed.

Theorem crc_mask_unmask : forall m,
  m < 4294967296 -> crc_mask (crc_unmask m) = m.
Proof.
  intros m Hm. unfold crc_unmask, crc_mask. cbv zeta.
  rewrite (rot_inv 131072 32768), <- N.add_sub_assoc by (discriminate || apply N.mod_lt; discriminate).
  apply add_add_mod; [reflexivity|exact Hm].
Qed.

(* Being below 2^n is a statement about bits; bounds of xors, shifts and bursts are read off it. *)
Lemma lt_pow2_bits : forall a n, a < 2 ^ n <-> (forall i, n <= i -> N.testbit a i = false).
Proof.
  intros a n. destruct (N.eq_dec a 0) as [->|Ha].
  { split; [intros _ i _; apply N.bits_0|intros _; apply N.neq_0_lt_0, N.pow_nonzero; discriminate]. }
  rewrite N.log2_lt_pow2 by (apply N.neq_0_lt_0, Ha). split.
  - intros H i Hi. apply N.bits_above_log2, N.lt_le_trans with (1 := H), Hi.
  - intros H. apply N.nle_gt. intros Hn. specialize (H _ Hn). rewrite N.bit_log2 in H by exact Ha. discriminate.
Qed.

Lemma lxor_lt_pow2 : forall a b n,
  a < 2 ^ n -> b < 2 ^ n -> N.lxor a b < 2 ^ n.
Proof.
  intros a b n Ha Hb. rewrite lt_pow2_bits in *. intros i Hi.
  rewrite N.lxor_spec, Ha, Hb by exact Hi. reflexivity.
Qed.

Lemma lxor_lt_32 : forall a b,
  a < 4294967296 -> b < 4294967296 -> N.lxor a b < 4294967296.
Proof.
  intros a b Ha Hb. change 4294967296 with (2 ^ 32) in *.
  apply lxor_lt_pow2; assumption.
Qed.

Lemma lxor_M32_involutive : forall x, N.lxor (N.lxor x M32) M32 = x.
Proof.
  intros x. rewrite N.lxor_assoc, N.lxor_nilpotent, N.lxor_0_r. reflexivity.
Qed.

Lemma crc_bit_bound : forall c, c < 4294967296 -> crc_bit c < 4294967296.
Proof.
  intros c Hc. unfold crc_bit.
  assert (Hd : N.div2 c < 4294967296).
  { rewrite N.div2_div. lia. }
  destruct (N.odd c).
  - apply lxor_lt_32; [exact Hd|]. unfold POLY. lia.
  - exact Hd.
Qed.

Lemma crc_byte_bound : forall c b,
  c < 4294967296 -> b < 256 -> crc_byte c b < 4294967296.
Proof.
  intros c b Hc Hb. unfold crc_byte. cbv zeta.
  do 8 apply crc_bit_bound.
  apply lxor_lt_32; [exact Hc|lia].
Qed.

(* One step of a fold, with the function a variable.  With [crc_byte] in its place the same
   conversion is dear: the checker first tries to match the accumulators [crc_byte c b] and [c],
   which normalises eight nested [crc_bit]s, each mentioning its argument three times. *)
Lemma fold_left_cons : forall (A B : Type) (f : A -> B -> A) b l a,
  fold_left f (b :: l) a = fold_left f l (f a b).
Proof. reflexivity. Qed.

Lemma fold_crc_byte_bound : forall data c,
  c < 4294967296 -> wf_bytes data = true ->
  fold_left crc_byte data c < 4294967296.
Proof.
  induction data as [|b data IH]; intros c Hc Hwf.
  - exact Hc.
  - rewrite fold_left_cons. apply wf_bytes_cons in Hwf. destruct Hwf as [Hb Hwf].
    apply IH; [|exact Hwf]. apply crc_byte_bound; assumption.
Qed.

Theorem crc_extend_bound : forall init data,
  init < 4294967296 -> wf_bytes data = true ->
  crc_extend init data < 4294967296.
Proof.
  intros init data Hi Hwf. unfold crc_extend.
  assert (HM : M32 < 4294967296) by (unfold M32; lia).
  apply lxor_lt_32; [|exact HM].
  apply fold_crc_byte_bound; [|exact Hwf].
  apply lxor_lt_32; assumption.
Qed.

Theorem crc_value_bound : forall data,
  wf_bytes data = true -> crc_value data < 4294967296.
Proof.
  intros data Hwf. unfold crc_value. apply crc_extend_bound; [lia|exact Hwf].
Qed.

(* No range hypotheses are needed: (x xor M32) xor M32 = x for every x. *)
Theorem crc_extend_app_gen : forall init a b,
  crc_extend (crc_extend init a) b = crc_extend init (a ++ b).
Proof.
  intros init a b. unfold crc_extend.
  rewrite lxor_M32_involutive, fold_left_app. reflexivity.
Qed.

Theorem crc_extend_app : forall init a b,
  init < 4294967296 -> wf_bytes a = true ->
  crc_extend (crc_extend init a) b = crc_extend init (a ++ b).
Proof. intros init a b _ _. apply crc_extend_app_gen. Qed.

Theorem crc_extend_nil : forall init, crc_extend init [] = init.
Proof. intros init. unfold crc_extend. cbn [fold_left]. apply lxor_M32_involutive. Qed.

Theorem crc_value_app : forall a b,
  crc_extend (crc_value a) b = crc_value (a ++ b).
Proof. intros a b. unfold crc_value. apply crc_extend_app_gen. Qed.

Theorem crc_value_cons_gen : forall ty payload,
  crc_extend (crc_value [ty]) payload = crc_value (ty :: payload).
Proof. intros ty payload. apply (crc_value_app [ty] payload). Qed.

(* CRC-32C("123456789") = 0xE3069283, the standard check value *)
Theorem crc_check_value :
  crc_value [49;50;51;52;53;54;55;56;57] = 3808858755.
Proof. vm_compute. reflexivity. Qed.

Corollary crc_unmask_mask_pow : forall c, c < 2 ^ 32 -> crc_unmask (crc_mask c) = c.
Proof. exact crc_unmask_mask. Qed.

Corollary crc_mask_bound_pow : forall c, crc_mask c < 2 ^ 32.
Proof. exact crc_mask_bound. Qed.

Corollary crc_extend_bound_pow : forall init data,
  init < 2 ^ 32 -> wf_bytes data = true -> crc_extend init data < 2 ^ 32.
Proof. exact crc_extend_bound. Qed.

Print Assumptions crc_unmask_mask.
Print Assumptions crc_extend_bound.
Print Assumptions crc_extend_app.
Print Assumptions crc_check_value.
