(* SkiplistProofs.v -- proofs of the theorem statements of SkiplistSpec.v about the
   skiplist model (Skiplist.v), from the invariant of SkiplistInv.v: sl_build yields a
   well-formed list whose order carries the sorted keys. *)
From LCDB Require Import Skiplist SkiplistSpec SkiplistLemmas SkiplistInv.
Require Import Lia.
Require Import List Arith.
Import ListNotations.
Local Open Scope nat_scope.

Lemma find_all : forall {A} (f : A -> bool) l,
  (forall x, In x l -> f x = true) -> find f l = hd_error l.
Proof.
  intros A f [|x l] H; [reflexivity|]. cbn [find hd_error].
  rewrite (H x (or_introl eq_refl)). reflexivity.
Qed.

Lemma nth_error_snoc_hd : forall {A} (l1 l2 : list A), nth_error (l1 ++ l2) (length l1) = hd_error l2.
Proof.
  intros A l1 l2. rewrite nth_error_app2 by lia. rewrite Nat.sub_diag. destruct l2; reflexivity.
Qed.

(* the last node of A (the head when A is empty), as an iterator position *)
Lemma not_head_last : forall A, ~ In 0 A ->
  not_head (last A 0) = match length A with 0 => None | S j => nth_error A j end.
Proof.
  intros A H0. induction A as [|p A0 _] using rev_ind; [reflexivity|].
  rewrite last_last, app_length, Nat.add_1_r, nth_error_snoc_hd. cbn [hd_error].
  destruct p; [|reflexivity]. exfalso. apply H0. apply in_elt.
Qed.

Lemma last_head_iff : forall A, ~ In 0 A -> (last A 0 = 0 <-> A = []).
Proof.
  intros A H0. induction A as [|p A0 _] using rev_ind; [tauto|].
  rewrite last_last. split.
  - intros ->. exfalso. apply H0. apply in_elt.
  - intros H. destruct A0; discriminate.
Qed.

Section Proofs.
Variable K : Type.
Variable cmp : K -> K -> comparison.
Hypothesis Hord : cmp_order cmp.

Lemma keys_of_length : forall (sl : skiplist K) c,
  (forall y, In y c -> node_key sl y <> None) -> length (keys_of sl c) = length c.
Proof.
  induction c as [|z c IH]; intros H; cbn [keys_of length]; auto.
  destruct (node_key sl z) eqn:Hz.
  - cbn [length]. f_equal. apply IH. intros y Hy. apply H. right; auto.
  - exfalso. apply (H z); auto. left; auto.
Qed.

Lemma keys_of_nth : forall (sl : skiplist K) c i n,
  (forall y, In y c -> node_key sl y <> None) ->
  nth_error c i = Some n -> node_key sl n = nth_error (keys_of sl c) i.
Proof.
  induction c as [|z c IH]; intros i n H Hn; [destruct i; discriminate|].
  cbn [keys_of]. destruct (node_key sl z) as [kz|] eqn:Hz.
  - destruct i as [|i]; cbn [nth_error] in *.
    + injection Hn as <-. exact Hz.
    + apply IH; auto. intros y Hy. apply H. right; auto.
  - exfalso. apply (H z); auto. left; auto.
Qed.

Lemma wf_contents : forall sl order, wf K cmp sl order ->
  skiplist_contents sl = keys_of sl order.
Proof.
  intros sl order Hwf. unfold skiplist_contents.
  rewrite (wf_level0_nodes K cmp sl order Hwf). reflexivity.
Qed.

Lemma key_last : forall sl order A, wf K cmp sl order -> (forall y, In y A -> In y order) ->
  node_key sl (last A 0) = hd_error (rev (keys_of sl A)).
Proof.
  intros sl order A Hwf Hsub. induction A as [|p A0 _] using rev_ind.
  - exact (wf_hkey _ _ _ _ Hwf).
  - rewrite last_last, keys_of_app. cbn [keys_of].
    destruct (node_key sl p) as [kp|] eqn:Hkp.
    + rewrite rev_app_distr. reflexivity.
    + exfalso. apply (wf_key _ _ _ _ Hwf p); [|exact Hkp]. apply Hsub. apply in_elt.
Qed.

Lemma find_ge_keys : forall sl k A B, wf K cmp sl (A ++ B) ->
  Forall (fun x => klt cmp x k) (keys_of sl A) -> Forall (kge cmp k) (keys_of sl B) ->
  find (ge_key cmp k) (keys_of sl (A ++ B)) = key_at sl (hd_error B).
Proof.
  intros sl k A B Hwf HA HB. rewrite keys_of_app, find_app_none.
  - destruct B as [|b B']; [reflexivity|]. cbn [keys_of hd_error key_at] in *.
    destruct (node_key sl b) as [kb|] eqn:Hkb.
    + cbn [find]. unfold ge_key. pose proof (Forall_inv HB) as H1. unfold kge, klt in H1.
      destruct (cmp kb k); congruence.
    + exfalso. apply (wf_key _ _ _ _ Hwf b); [apply in_elt | exact Hkb].
  - intros x Hx. unfold ge_key. rewrite (proj1 (Forall_forall _ _) HA x Hx). reflexivity.
Qed.

Lemma find_lt_keys : forall sl k A B, wf K cmp sl (A ++ B) ->
  Forall (fun x => klt cmp x k) (keys_of sl A) -> Forall (kge cmp k) (keys_of sl B) ->
  find (lt_key cmp k) (rev (keys_of sl (A ++ B))) = node_key sl (last A 0).
Proof.
  intros sl k A B Hwf HA HB. rewrite Forall_forall in HA, HB.
  rewrite keys_of_app, rev_app_distr, find_app_none, find_all.
  - symmetry. apply (key_last sl (A ++ B) A Hwf). intros y Hy. apply in_or_app; auto.
  - intros x Hx. apply in_rev in Hx. unfold lt_key. rewrite (HA x Hx). reflexivity.
  - intros x Hx. apply in_rev in Hx. unfold lt_key.
    pose proof (HB x Hx) as H. unfold kge, klt in H. destruct (cmp x k); congruence.
Qed.

(* What the operations compute on ANY well-formed list, in terms of its order and the keys along it
   ([keys_of sl order], strictly increasing by [wf_sorted]); the theorems below are these at
   [sl_build], where [build_wf] gives the order and its keys. *)
Lemma wf_seek : forall sl order, wf K cmp sl order -> forall k,
  key_at sl (fst (find_ge cmp sl k)) = find (ge_key cmp k) (keys_of sl order).
Proof.
  intros sl order Hwf k.
  destruct (split_exists K cmp Hord sl k order (wf_sorted _ _ _ _ Hwf)) as (A & B & -> & HA & HB).
  rewrite (wf_find_ge K cmp _ A B Hwf k HA HB). cbn [fst].
  symmetry. exact (find_ge_keys sl k A B Hwf HA HB).
Qed.

Lemma wf_find_lt_key : forall sl order, wf K cmp sl order -> forall k,
  node_key sl (find_lt cmp sl k) = find (lt_key cmp k) (rev (keys_of sl order)) /\
  (find_lt cmp sl k = 0 <-> find (lt_key cmp k) (rev (keys_of sl order)) = None).
Proof.
  intros sl order Hwf k.
  destruct (split_exists K cmp Hord sl k order (wf_sorted _ _ _ _ Hwf)) as (A & B & -> & HA & HB).
  rewrite (wf_find_lt K cmp sl A B Hwf k HA HB), (find_lt_keys sl k A B Hwf HA HB).
  split; [reflexivity|]. split.
  - intros ->. exact (wf_hkey _ _ _ _ Hwf).
  - intros Hnone. destruct (last_In A 0) as [E|Hin]; [symmetry; exact E|]. exfalso.
    apply (wf_key _ _ _ _ Hwf (last A 0)); [apply in_or_app; left; exact Hin | exact Hnone].
Qed.

Lemma wf_find_last_key : forall sl order, wf K cmp sl order ->
  node_key sl (find_last sl) = hd_error (rev (keys_of sl order)) /\ (find_last sl = 0 <-> order = []).
Proof.
  intros sl order Hwf. rewrite (wf_find_last K cmp sl order Hwf). split.
  - apply (key_last sl order order Hwf). auto.
  - apply last_head_iff. intros H. exact (wf_not_head K cmp sl order Hwf 0 H eq_refl).
Qed.

Lemma wf_order_keys : forall sl order, wf K cmp sl order ->
  length order = length (keys_of sl order) /\
  (forall i n, nth_error order i = Some n -> n <> 0 /\ node_key sl n = nth_error (keys_of sl order) i).
Proof.
  intros sl order Hwf. pose proof (wf_key _ _ _ _ Hwf) as Hkey. split.
  - symmetry. apply keys_of_length. exact Hkey.
  - intros i n Hn. split.
    + apply (wf_not_head K cmp sl order Hwf n). eapply nth_error_In; eauto.
    + apply keys_of_nth; auto.
Qed.

Lemma wf_it_first : forall sl order, wf K cmp sl order -> it_first sl = nth_error order 0.
Proof.
  intros sl order Hwf. unfold it_first.
  rewrite (wf_next0 K cmp sl order Hwf [] 0 order eq_refl). destruct order; reflexivity.
Qed.

Lemma wf_prefix_not_head : forall sl l1 l2, wf K cmp sl (l1 ++ l2) -> ~ In 0 l1.
Proof.
  intros sl l1 l2 Hwf H. apply (wf_not_head K cmp sl _ Hwf 0); [apply in_or_app; left; exact H | reflexivity].
Qed.

Lemma wf_it_last : forall sl order, wf K cmp sl order -> it_last sl = nth_error order (length order - 1).
Proof.
  intros sl order Hwf. unfold it_last. rewrite (wf_find_last K cmp _ order Hwf).
  rewrite not_head_last by (apply (wf_prefix_not_head sl order []); rewrite app_nil_r; exact Hwf).
  destruct order as [|n o]; [reflexivity|].
  cbn [length Nat.sub]. rewrite Nat.sub_0_r. reflexivity.
Qed.

Lemma wf_it_next : forall sl order, wf K cmp sl order ->
  forall i n, nth_error order i = Some n -> it_next sl n = nth_error order (S i).
Proof.
  intros sl order Hwf i n Hn. unfold it_next.
  destruct (nth_error_split order i Hn) as (l1 & l2 & -> & <-).
  rewrite (wf_next0 K cmp sl _ Hwf (0 :: l1) n l2 eq_refl).
  replace (l1 ++ n :: l2) with ((l1 ++ [n]) ++ l2) by (rewrite <- app_assoc; reflexivity).
  replace (S (length l1)) with (length (l1 ++ [n])) by (rewrite app_length; cbn [length]; lia).
  symmetry. apply nth_error_snoc_hd.
Qed.

Lemma wf_it_prev : forall sl order, wf K cmp sl order ->
  forall i n, nth_error order i = Some n ->
  it_prev cmp sl n = match i with O => None | S j => nth_error order j end.
Proof.
  intros sl order Hwf i n Hn. unfold it_prev.
  destruct (nth_error_split order i Hn) as (l1 & l2 & -> & <-).
  destruct (node_key sl n) as [kn|] eqn:Hkn;
    [|exfalso; exact (wf_key _ _ _ _ Hwf n (in_elt n l1 l2) Hkn)].
  destruct (split_at K cmp Hord sl l1 n l2 kn (wf_sorted _ _ _ _ Hwf) Hkn) as [HA HB].
  rewrite (wf_find_lt K cmp sl l1 (n :: l2) Hwf kn HA HB).
  rewrite not_head_last by exact (wf_prefix_not_head sl l1 (n :: l2) Hwf).
  destruct (length l1) as [|j] eqn:El; [reflexivity|].
  symmetry. apply nth_error_app1. lia.
Qed.

Lemma wf_it_seek : forall sl order, wf K cmp sl order ->
  forall k, exists i, it_seek cmp sl k = nth_error order i /\
    (forall j x, j < i -> nth_error (keys_of sl order) j = Some x -> cmp x k = Lt) /\
    (forall x, nth_error (keys_of sl order) i = Some x -> cmp x k <> Lt).
Proof.
  intros sl order Hwf k.
  destruct (split_exists K cmp Hord sl k order (wf_sorted _ _ _ _ Hwf)) as (A & B & -> & HA & HB).
  exists (length A). unfold it_seek.
  rewrite (wf_find_ge K cmp sl A B Hwf k HA HB). cbn [fst].
  assert (HlenA : length (keys_of sl A) = length A).
  { apply keys_of_length. intros y Hy. apply (wf_key _ _ _ _ Hwf). apply in_or_app; auto. }
  rewrite keys_of_app.
  split; [|split].
  - symmetry. apply nth_error_snoc_hd.
  - intros j x Hj Hx. rewrite nth_error_app1 in Hx by lia.
    apply nth_error_In in Hx. exact (proj1 (Forall_forall _ _) HA x Hx).
  - intros x Hx. rewrite <- HlenA, nth_error_snoc_hd in Hx.
    destruct (keys_of sl B); [discriminate|].
    cbn [hd_error] in Hx. injection Hx as ->. exact (Forall_inv HB).
Qed.

End Proofs.

Theorem skiplist_contents : forall K cmp, skiplist_contents_statement K cmp.
Proof.
  intros K cmp Hord keys hs Hd Hh.
  destruct (build_wf K cmp Hord keys hs Hd Hh) as (order & Hwf & Hkeys & _).
  rewrite (wf_contents K cmp _ _ Hwf). exact Hkeys.
Qed.
Print Assumptions skiplist_contents.

Theorem skiplist_seek : forall K cmp, skiplist_seek_statement K cmp.
Proof.
  intros K cmp Hord keys hs Hd Hh k.
  destruct (build_wf K cmp Hord keys hs Hd Hh) as (order & Hwf & <- & _).
  exact (wf_seek K cmp Hord _ order Hwf k).
Qed.
Print Assumptions skiplist_seek.

Theorem skiplist_levels : forall K cmp, skiplist_levels_statement K cmp.
Proof.
  intros K cmp Hord keys hs Hd Hh. cbv zeta.
  destruct (build_wf K cmp Hord keys hs Hd Hh) as (order & Hwf & Hkeys & Hlen & Hmap & Hmax).
  split; [|split; auto].
  intros l Hl.
  rewrite (wf_level_nodes K cmp _ order Hwf l Hl), (wf_level0_nodes K cmp _ order Hwf).
  reflexivity.
Qed.
Print Assumptions skiplist_levels.

Theorem skiplist_find_lt : forall K cmp, skiplist_find_lt_statement K cmp.
Proof.
  intros K cmp Hord keys hs Hd Hh. cbv zeta.
  destruct (build_wf K cmp Hord keys hs Hd Hh) as (order & Hwf & <- & Hlen & _).
  destruct (wf_find_last_key K cmp _ order Hwf) as [Hlast Hhead].
  split; [exact (wf_find_lt_key K cmp Hord _ order Hwf)|]. split; [exact Hlast|].
  rewrite Hhead. destruct order, keys; cbn [length] in Hlen; split; congruence.
Qed.
Print Assumptions skiplist_find_lt.

Theorem skiplist_iterator : forall K cmp, skiplist_iterator_statement K cmp.
Proof.
  intros K cmp Hord keys hs Hd Hh. cbv zeta.
  destruct (build_wf K cmp Hord keys hs Hd Hh) as (order & Hwf & <- & _).
  rewrite (wf_level0_nodes K cmp _ order Hwf).
  destruct (wf_order_keys K cmp _ order Hwf) as [Hlen Hnth].
  exact (conj Hlen (conj Hnth (conj (wf_it_first K cmp _ order Hwf) (conj (wf_it_last K cmp _ order Hwf)
    (conj (wf_it_next K cmp _ order Hwf) (conj (wf_it_prev K cmp Hord _ order Hwf)
    (wf_it_seek K cmp Hord _ order Hwf))))))).
Qed.
Print Assumptions skiplist_iterator.
