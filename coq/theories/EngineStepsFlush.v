(* EngineStepsFlush.v -- the steps OFlush and OReopen: both turn entries of the memtable tier into
   new tables of one level (drain_state; drain_SInv: LevInv_add and RecT_step without removals);
   invariant and stored entries. *)
From LCDB Require Import Base Engine EngineSpec EngineStepsBase EngineStepsInv EngineStepsBasic.
From Coq Require Import Sorting.Sorted.
Require Import Lia.
Local Open Scope N_scope.

Section Flush.
Variable ucmp : bytes -> bytes -> comparison.
Context {TO : total_order ucmp}.

Notation ueq := (Engine.ueq ucmp).
Notation Srt := (EngineStepsBase.Srt ucmp).
Notation SInv := (EngineStepsInv.SInv ucmp).
Notation NO := (EngineStepsBase.NO ucmp).
Notation FOK := (EngineStepsInv.FOK ucmp).
Notation FB := (EngineStepsInv.FB ucmp).
Notation FC := (EngineStepsInv.FC ucmp).

(* memtable entries become new tables of level T (flush, recovery): m' is what the memtable
   keeps, there is no immutable memtable afterwards *)
Definition drain_state (s : state) (m' : list entry) (T : nat) (news : list file) (sn : list N) (nf : N) : state :=
  mkS m' None (set_level (levels s) T (add_files ucmp (level_files (levels s) T) news))
      (last_seq s) sn nf (hist s).

Lemma drain_entries s m' T news sn nf e : (T < length (levels s))%nat ->
  (In e (all_entries (drain_state s m' T news sn nf)) <->
   (In e m' \/ In e (level_entries news)) \/ In e (tables (levels s))).
Proof.
  intros Hl. rewrite all_entries_eq. unfold imm_run. cbn [drain_state mem imm levels app].
  rewrite in_app_iff, tables_add, or_assoc by exact Hl. apply or_iff_compat_l, or_comm.
Qed.

(* every user key of f strictly below every user key of g *)
Definition UB (f g : file) : Prop :=
  forall x y, In x (fents f) -> In y (fents g) -> ucmp (ek x) (ek y) = Lt.

Lemma UB_FB f g : UB f g -> FB f g.
Proof. intros H x y Hx Hy. apply ilt_iff. left. apply H; auto. Qed.

Lemma UB_no_ueq f g x y :
  UB f g \/ UB g f -> In x (fents f) -> In y (fents g) -> ueq (ek x) (ek y) = true -> False.
Proof.
  intros [H|H] Hx Hy Hk; apply ueq_iff in Hk.
  - rewrite (H x y Hx Hy) in Hk. discriminate.
  - apply (cmp_eq_sym TO) in Hk. rewrite (H y x Hy Hx) in Hk. discriminate.
Qed.

Lemma no_overlap_iff lvls lo hi n :
  no_overlap_upto ucmp lvls lo hi n = true <->
  forall i, (i <= n)%nat -> existsb (overlaps_user ucmp lo hi) (level_files lvls i) = false.
Proof.
  revert lvls. induction n as [|n IH]; intros [|fs r]; cbn [no_overlap_upto].
  - split; [intros _ [|i] _; reflexivity|reflexivity].
  - rewrite negb_true_iff. split; [intros H i Hi; apply Nat.le_0_r in Hi; subst i; exact H|intros H; exact (H 0%nat (Nat.le_refl 0))].
  - split; [intros _ [|i] _; reflexivity|reflexivity].
  - rewrite andb_true_iff, negb_true_iff, IH. split.
    + intros [H1 H2] [|i] Hi; [exact H1|apply H2, le_S_n, Hi].
    + intros H. split; [exact (H 0%nat (Nat.le_0_l _))|intros i Hi; apply (H (S i)), le_n_S, Hi].
Qed.

Lemma overlaps_UB F g e0 r :
  FOK F -> FOK g -> fents F = e0 :: r ->
  overlaps_user ucmp (ek e0) (ek (last r e0)) g = false -> UB g F \/ UB F g.
Proof.
  intros HF Hg EF Ho. pose proof HF as [_ SF]. pose proof Hg as [_ Sg].
  destruct (FOK_ends ucmp g Hg) as (a & t & G1 & G2 & G3).
  unfold overlaps_user in Ho. rewrite G2, G3 in Ho. rewrite EF in SF. rewrite G1 in Sg.
  apply andb_false_iff in Ho. destruct Ho as [Ho|Ho]; apply negb_false_iff, ult_iff in Ho.
  - left. intros x y Hx Hy. rewrite G1 in Hx. rewrite EF in Hy.
    exact (Srt_ends_ult ucmp a t e0 r x y Sg SF Ho Hx Hy).
  - right. intros x y Hx Hy. rewrite G1 in Hy. rewrite EF in Hx.
    exact (Srt_ends_ult ucmp e0 r a t x y SF Sg Ho Hx Hy).
Qed.

Lemma flush_guard_UB lvls im lvl num :
  Srt im -> im <> [] -> flush_level_ok ucmp lvls im lvl = true -> (1 <= lvl)%nat ->
  forall i g, (i <= lvl)%nat -> In g (level_files lvls i) -> FOK g ->
              UB g (mkF num im) \/ UB (mkF num im) g.
Proof.
  intros HS Hne HG Hl i g Hi Hg Hok.
  destruct im as [|e0 r]; [congruence|].
  unfold flush_level_ok in HG. cbv zeta in HG.
  apply orb_true_iff in HG. destruct HG as [HG|HG].
  - apply Nat.eqb_eq in HG. lia.
  - apply andb_true_iff in HG. destruct HG as [_ HG].
    apply (overlaps_UB (mkF num (e0 :: r)) g e0 r); auto.
    + split; cbn [fents]; auto.
    + exact (proj1 (existsb_false_iff _ _) (proj1 (no_overlap_iff _ _ _ _) HG i Hi) g Hg).
Qed.

Lemma pending_eq s : pending_entries ucmp s = fold_right (insert_sorted ucmp) (mem s) (imm_run s).
Proof. unfold pending_entries, imm_run. destruct (imm s); reflexivity. Qed.

Lemma pending_In s e : In e (pending_entries ucmp s) <-> In e (imm_run s) \/ In e (mem s).
Proof. rewrite pending_eq. apply fold_insert_In. Qed.

Lemma all_entries_pending s e :
  In e (all_entries s) <-> In e (pending_entries ucmp s) \/ In e (tables (levels s)).
Proof.
  rewrite all_entries_eq, in_app_iff, in_app_iff, pending_In, <- or_assoc.
  apply or_iff_compat_r, or_comm.
Qed.

Lemma pending_Srt s : SInv s -> Srt (pending_entries ucmp s).
Proof.
  intros HI. rewrite pending_eq. apply (fold_insert_Srt ucmp).
  - apply HI.
  - apply (Srt_FOP_Cmp ucmp), HI.
  - intros x y Hx Hy. apply or_comm. exact (NO_Cmp ucmp _ _ y x (si_mi _ _ HI) Hy Hx).
Qed.

(* Entries of the memtable tier become new tables of level T.  The numbers are above those of
   every table there is; a level T >= 1 takes them only where no table down to T shares a user
   key with them; in level 0 a new table numbered higher holds the newer entries. *)
Lemma drain_SInv s m' T news sn nf :
  SInv s -> (T < NUM_LEVELS)%nat ->
  Srt m' -> incl m' (pending_entries ucmp s) -> NO m' (level_entries news) ->
  (forall f, In f news -> FOK f /\ incl (fents f) (pending_entries ucmp s) /\ fnum f < nf /\
     forall j g, In g (level_files (levels s) j) -> fnum g < fnum f) ->
  ForallOrdPairs (fun f g => fnum f < fnum g /\ NO (fents g) (fents f)) news ->
  (forall j g, In g (level_files (levels s) j) -> fnum g < nf) ->
  ((1 <= T)%nat -> ForallOrdPairs FC news /\
     forall f i g, In f news -> (i <= T)%nat -> In g (level_files (levels s) i) -> UB g f \/ UB f g) ->
  (forall q, In q sn -> q <= last_seq s) -> StronglySorted N.le sn ->
  SInv (drain_state s m' T news sn nf).
Proof.
  intros HI HT Sm Hm Hmn Hnews Hord Hnf Hdeep Hsn Hss.
  pose proof (level_lt ucmp s T HI HT) as Hl.
  assert (Hpt: NO (pending_entries ucmp s) (tables (levels s))).
  { intros o m Ho. apply pending_In in Ho. destruct Ho; [apply (si_it _ _ HI)|apply (si_mt _ _ HI)]; auto. }
  constructor; cbn [drain_state levels next_file mem imm_run imm last_seq snaps]; auto.
  - apply (LevInv_add ucmp _ (next_file s)); auto; try exact (si_lev _ _ HI).
    + intros f Hf. apply Hnews, Hf.
    + apply NoDup_nums_FOP. eapply FOP_impl; [|exact Hord]. intros f g _ _ [H _]. lia.
    + intros f Hf. destruct (Hnews f Hf) as (_ & _ & A & B). split; [exact A|].
      intros j g Hg. pose proof (B j g Hg). lia.
    + intros H1. destruct (Hdeep H1) as [A B]. split; [exact A|]. intros f g Hf Hg.
      destruct (B f T g Hf (Nat.le_refl _) Hg) as [U|U]; [right|left]; apply UB_FB, U.
  - apply (RecT_step ucmp (levels s) _ T news (fun _ _ => True)); [apply HI|..].
    + intros i f Hf. apply (add_level_In ucmp) in Hf; tauto.
    + (* an old table searched before a new one: above level T, and they share no user key *)
      intros i f g Hf _ Hg [Hb|(-> & -> & Hb)].
      * intros o m Ho Hm' Hk. assert (H1: (1 <= T)%nat) by lia.
        destruct (UB_no_ueq f g o m); auto. apply (proj2 (Hdeep H1) g i f); auto; lia.
      * pose proof (proj2 (proj2 (proj2 (Hnews g Hg))) _ f Hf). lia.
    + intros f j g Hf Hg _ _.
      apply (NO_sub ucmp _ _ _ _ (NO_table ucmp _ _ j g Hpt Hg)); [apply Hnews, Hf|apply incl_refl].
    + intros f g Hf Hg [Hb|(_ & _ & Hb)]; [lia|].
      destruct (ForallOrdPairs_In Hord f g Hf Hg) as [E|[[E1 E2]|[E1 E2]]]; [subst; lia|lia|exact E2].
  - apply Srt_nil.
  - intros o m _ [].
  - intros o m Ho Hm'. apply (tables_add ucmp) in Hm'; auto. destruct Hm'; [apply Hpt|apply Hmn]; auto.
  - intros o m [].
  - intros e He. apply (si_seq _ _ HI), all_entries_pending. apply drain_entries in He; auto.
    destruct He as [[He|He]|He]; [left; apply Hm, He|left|right; exact He].
    apply level_entries_In in He. destruct He as (f & Hf & He). apply (Hnews f Hf), He.
Qed.

(* ldb_compact_memtable writes no table for an empty memtable *)
Definition flush_news (num : N) (im : list entry) : list file :=
  match im with [] => [] | _ => [mkF num im] end.

Lemma flush_news_In num im f : In f (flush_news num im) <-> f = mkF num im /\ im <> [].
Proof.
  destruct im as [|e0 r]; cbn [flush_news In].
  - split; [intros []|intros [_ H]; congruence].
  - split; [intros [<-|[]]; split; [reflexivity|discriminate]|intros [-> _]; auto].
Qed.

Lemma flush_news_FOP R num im : ForallOrdPairs R (flush_news num im).
Proof. destruct im; repeat constructor. Qed.

Lemma flush_state s lvl num nf s' :
  do_flush ucmp s lvl num nf = Some s' ->
  exists im, imm s = Some im /\ next_file s <= num /\ num < nf /\
             flush_level_ok ucmp (levels s) im lvl = true /\ (lvl < NUM_LEVELS)%nat /\
             s' = drain_state s (mem s) lvl (flush_news num im) (snaps s) nf.
Proof.
  unfold do_flush. destruct (imm s) as [im|] eqn:Eim; [|discriminate].
  destruct (fresh_num s num && (num <? nf) && flush_level_ok ucmp (levels s) im lvl && (lvl <? NUM_LEVELS)%nat) eqn:G;
    [|discriminate].
  intros H; injection H as <-.
  apply andb_prop in G as [G G4]. apply andb_prop in G as [G G3]. apply andb_prop in G as [G1 G2].
  unfold fresh_num in G1. apply N.leb_le in G1. apply N.ltb_lt in G2. apply Nat.ltb_lt in G4.
  exists im. repeat split; auto; try lia. unfold drain_state.
  destruct im; [rewrite set_level_same|]; reflexivity.
Qed.

Lemma flush_all_entries s lvl num nf s' e : SInv s -> do_flush ucmp s lvl num nf = Some s' ->
  (In e (all_entries s') <-> In e (all_entries s)).
Proof.
  intros HI H. apply flush_state in H. destruct H as (im & Eim & _ & _ & _ & G4 & ->).
  rewrite drain_entries, all_entries_pending, pending_In by exact (level_lt ucmp s lvl HI G4).
  apply or_iff_compat_r. rewrite or_comm. apply or_iff_compat_r. unfold imm_run. rewrite Eim.
  unfold level_entries. destruct im; cbn [flush_news map concat fents]; [reflexivity|rewrite app_nil_r; reflexivity].
Qed.

Lemma flush_SInv s lvl num nf s' : SInv s -> do_flush ucmp s lvl num nf = Some s' -> SInv s'.
Proof.
  intros HI H. apply flush_state in H. destruct H as (im & Eim & G1 & G2 & G3 & G4 & ->).
  assert (Him: im = imm_run s). { unfold imm_run. rewrite Eim. reflexivity. }
  subst im. pose proof (fun f => proj1 (flush_news_In num (imm_run s) f)) as Hnews.
  assert (Hold: forall j g, In g (level_files (levels s) j) -> fnum g < num).
  { intros j g Hg. pose proof (si_num _ _ HI j g Hg). lia. }
  apply drain_SInv; auto; try apply HI; try apply flush_news_FOP.
  - intros e He. apply pending_In. auto.
  - intros o m Ho Hm. apply level_entries_In in Hm. destruct Hm as (f & Hf & Hm).
    destruct (Hnews f Hf) as [-> _]. apply (si_mi _ _ HI); auto.
  - intros f Hf. destruct (Hnews f Hf) as [-> Hne]. split; [split; [exact Hne|exact (si_imm _ _ HI)]|].
    split; [intros e He; apply pending_In; auto|]. split; [exact G2|exact Hold].
  - intros j g Hg. pose proof (Hold j g Hg). lia.
  - intros H1. split; [apply flush_news_FOP|]. intros f i g Hf Hi Hg. destruct (Hnews f Hf) as [-> Hne].
    exact (flush_guard_UB (levels s) (imm_run s) lvl num (si_imm _ _ HI) Hne G3 H1 i g Hi Hg (si_fok _ _ HI i g Hg)).
Qed.

Lemma chunk_In l b pend e : In e (chunk l b pend) <-> In e pend /\ l < es e <= b.
Proof.
  unfold chunk. rewrite filter_In, andb_true_iff, N.ltb_lt, N.leb_le. reflexivity.
Qed.

Lemma reopen_files_spec pend bounds : forall lo nums fs top,
  reopen_files lo bounds nums pend = Some (fs, top) ->
  map fnum fs = nums /\ lo <= top /\
  (forall f, In f fs -> (exists l b, fents f = chunk l b pend) /\
                        forall e, In e (fents f) -> In e pend /\ lo < es e <= top) /\
  ForallOrdPairs (fun f g => NO (fents g) (fents f)) fs /\
  (forall e, In e pend -> lo < es e <= top -> exists f, In f fs /\ In e (fents f)).
Proof.
  induction bounds as [|b bs IH]; intros lo nums fs top H; cbn [reopen_files] in H.
  - destruct nums; [|discriminate]. injection H as <- <-.
    split; auto. split. lia. split. intros f []. split. constructor. intros e _ He. lia.
  - destruct nums as [|n ns]; [discriminate|].
    destruct (N.ltb_spec lo b) as [Elo|Elo]; [|discriminate].
    destruct (reopen_files b bs ns pend) as [[fs0 top0]|] eqn:ER; [|discriminate].
    injection H as <- <-.
    destruct (IH b ns fs0 top0 ER) as (I1 & I2 & I3 & I4 & I5).
    split. cbn [map fnum]. f_equal. exact I1.
    split. lia.
    split; [|split].
    + intros f [<-|Hf].
      * cbn [fents]. split. eauto. intros e He. apply chunk_In in He. split. apply He. lia.
      * destruct (I3 f Hf) as [Ha Hb]. split; auto. intros e He. destruct (Hb e He). split; auto. lia.
    + (* a later chunk holds the later sequences *)
      constructor; auto. apply Forall_forall. intros g Hg c a Hc Ha _. cbn [fents] in Ha.
      apply chunk_In in Ha. destruct (I3 g Hg) as [_ Hb]. destruct (Hb c Hc). lia.
    + intros e He Hr. destruct (N.le_gt_cases (es e) b) as [Hle|Hgt].
      * exists (mkF n (chunk lo b pend)). split. left; auto. cbn [fents]. apply chunk_In. split; auto. lia.
      * destruct (I5 e He) as (f & Hf1 & Hf2). lia. exists f. split; auto. right; auto.
Qed.

Definition nonempty_file (f : file) : bool := match fents f with [] => false | _ => true end.

Lemma nonempty_file_iff f : nonempty_file f = true <-> fents f <> [].
Proof. unfold nonempty_file. destruct (fents f); split; intros; congruence. Qed.

Lemma reopen_state s bounds nums nf s' :
  do_reopen ucmp s bounds nums nf = Some s' ->
  exists fs top, reopen_files 0 bounds nums (pending_entries ucmp s) = Some (fs, top) /\
    (forall n, In n nums -> n < nf /\ forall j g, In g (level_files (levels s) j) -> fnum g < n) /\
    strictly_increasing nums = true /\
    (forall j g, In g (level_files (levels s) j) -> fnum g < nf) /\
    s' = drain_state s (filter (fun e => top <? es e) (pending_entries ucmp s)) 0
                     (filter nonempty_file fs) [] nf.
Proof.
  unfold do_reopen.
  destruct (forallb (fun n => forallb (fun f => fnum f <? n) (concat (levels s))) nums
            && strictly_increasing nums && forallb (fun n => n <? nf) nums
            && forallb (fun f => fnum f <? nf) (concat (levels s))
            && forallb (fun b => b <=? last_seq s) bounds) eqn:G; [|discriminate].
  destruct (reopen_files 0 bounds nums (pending_entries ucmp s)) as [[fs top]|] eqn:ER; [|discriminate].
  intros H; injection H as <-.
  apply andb_prop in G as [G G5]. apply andb_prop in G as [G G4]. apply andb_prop in G as [G G3].
  apply andb_prop in G as [G1 G2].
  exists fs, top. split; auto. split; [|split; [|split]]; auto.
  - intros n Hn. pose proof (proj1 (forallb_forall _ _) G1 _ Hn) as H1. split.
    + apply N.ltb_lt, (proj1 (forallb_forall _ _) G3 _ Hn).
    + apply concat_levels_forall, (forallb_iff _ (fun g => fnum g < n) _ (fun g => N.ltb_lt _ _)), H1.
  - apply concat_levels_forall, (forallb_iff _ (fun g => fnum g < nf) _ (fun g => N.ltb_lt _ _)), G4.
Qed.

Lemma reopen_SInv s bounds nums nf s' : SInv s -> do_reopen ucmp s bounds nums nf = Some s' -> SInv s'.
Proof.
  intros HI H. apply reopen_state in H. destruct H as (fs & top & ER & Hn & Hinc & Hnf & ->).
  destruct (reopen_files_spec _ _ _ _ _ _ ER) as (I1 & I2 & I3 & I4 & I5).
  pose proof (pending_Srt s HI) as SP.
  assert (HFN: ForallOrdPairs (fun f g => fnum f < fnum g) fs).
  { apply -> (FOP_map fnum N.lt fs). rewrite I1. apply SS_FOP, strictly_increasing_SS; auto. }
  apply drain_SInv; auto.
  - unfold NUM_LEVELS. lia.
  - apply Srt_filter, SP.
  - intros e He. apply filter_In in He. apply He.
  - (* what stays in the memtable lies above the last chunk *)
    intros o m Ho Hm _. apply filter_In in Ho. destruct Ho as [_ Ht]. apply N.ltb_lt in Ht.
    apply level_entries_In in Hm. destruct Hm as (f & Hf & Hm). apply filter_In in Hf.
    destruct (proj2 (I3 f (proj1 Hf)) m Hm) as [_ Hmt]. lia.
  - intros f Hf. apply filter_In in Hf. rewrite nonempty_file_iff in Hf. destruct Hf as [Hf Hne].
    destruct (I3 f Hf) as [(l & b & E) Hsub]. destruct (Hn (fnum f)) as [A B]; [rewrite <- I1; apply in_map, Hf|].
    repeat split; auto; [rewrite E; apply Srt_filter, SP|intros e He; apply Hsub, He].
  - (* of two new tables the one numbered higher holds the later chunk *)
    exact (FOP_filter _ _ _ (FOP_conj _ _ _ HFN I4)).
  - intros H1. inversion H1.
  - intros q [].
  - constructor.
Qed.

(* seqs_pos: reopen_files starts at lo = 0 and every test against lo is strict (the first
   chunk is (0, b]; with bounds = [], as in EngineSteps.cex_reopen_seq0, rest keeps 0 <? es e),
   so an entry with sequence 0 would be lost *)
Lemma reopen_all_entries s bounds nums nf s' e : SInv s -> seqs_pos s -> do_reopen ucmp s bounds nums nf = Some s' ->
  (In e (all_entries s') <-> In e (all_entries s)).
Proof.
  intros HI HP H. apply reopen_state in H. destruct H as (fs & top & ER & _ & _ & _ & ->).
  destruct (reopen_files_spec _ _ _ _ _ _ ER) as (_ & _ & I3 & _ & I5).
  assert (H0: (0 < NUM_LEVELS)%nat) by (unfold NUM_LEVELS; lia).
  rewrite drain_entries, all_entries_pending by exact (level_lt ucmp s 0%nat HI H0).
  (* the new memtable and the new tables together hold the pending entries *)
  apply or_iff_compat_r. rewrite filter_In, level_entries_In. split.
  - intros [[Hp _]|(f & Hf & He)]; [exact Hp|]. apply filter_In in Hf. apply (I3 f (proj1 Hf)), He.
  - intros Hp. destruct (N.ltb_spec top (es e)) as [Ht|Ht]; [left; auto|right].
    destruct (I5 e Hp) as (f & Hf1 & Hf2).
    { assert (0 < es e); [|lia]. apply HP, all_entries_pending. left. exact Hp. }
    exists f. split; [|exact Hf2]. apply filter_In. split; [exact Hf1|].
    apply nonempty_file_iff. intros E. rewrite E in Hf2. destruct Hf2.
Qed.

End Flush.
