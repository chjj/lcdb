(* SkiplistInv.v -- the well-formedness invariant [wf sl order] of the skiplist model
   (Skiplist.v): what the three search loops compute on a well-formed list, and the
   preservation of the invariant by sl_insert / sl_insert_all; what sl_build produces. *)
From LCDB Require Import SkiplistSpec SkiplistLemmas.
From Coq Require Import Permutation.
Import ListNotations.
Local Open Scope nat_scope.

Lemma max_height_pos : 0 < MAX_HEIGHT.
Proof. unfold MAX_HEIGHT. lia. Qed.

Section Inv.
Variable K : Type.
Variable cmp : K -> K -> comparison.
Hypothesis Hord : cmp_order cmp.

(* "node y has a link at level l" *)
Definition lf (sl : skiplist K) (l y : nat) : bool := l <? node_height sl y.
(* the nodes of c are linked in this order at level l, the last one has no successor *)
Fixpoint chain (sl : skiplist K) (l : nat) (c : list nat) : Prop :=
  match c with
  | [] => True
  | x :: r => node_next sl x l = hd_error r /\ chain sl l r
  end.
(* the last node of level i among A (the head when there is none) *)
Definition pred_at (sl : skiplist K) (A : list nat) (i : nat) : nat := last (filter (lf sl i) A) 0.
Lemma lf_iff : forall sl l y, lf sl l y = true <-> l < node_height sl y.
Proof. intros. apply Nat.ltb_lt. Qed.

(* the order of the keys, and sorted insertion into a sorted key list *)
Definition klt (x y : K) : Prop := cmp x y = Lt.

Lemma In_insert_key : forall k l x, In x (insert_key cmp k l) <-> In x (k :: l).
Proof.
  induction l as [|y r IH]; intros x; cbn [insert_key]; [reflexivity|].
  destruct (cmp k y); cbn [In]; rewrite ?IH; cbn [In]; tauto.
Qed.

Lemma keys_of_app : forall (sl : skiplist K) a b, keys_of sl (a ++ b) = keys_of sl a ++ keys_of sl b.
Proof.
  induction a as [|y a IH]; intros b; cbn [app keys_of]; auto.
  destruct (node_key sl y); rewrite IH; reflexivity.
Qed.

Lemma keys_of_ext : forall (sl sl' : skiplist K) c,
  (forall y, In y c -> node_key sl' y = node_key sl y) -> keys_of sl' c = keys_of sl c.
Proof.
  induction c as [|y c IH]; intros H; cbn [keys_of]; auto.
  rewrite (H y (or_introl eq_refl)). rewrite IH; auto. intros z Hz. apply H. right; auto.
Qed.

Lemma keys_of_In : forall (sl : skiplist K) c y x, In y c -> node_key sl y = Some x ->
  In x (keys_of sl c).
Proof.
  induction c as [|z c IH]; intros y x Hy Hk; [destruct Hy|].
  destruct Hy as [<-|Hy]; cbn [keys_of].
  - rewrite Hk. left. reflexivity.
  - destruct (node_key sl z); [right|]; exact (IH y x Hy Hk).
Qed.

Lemma chain_app_r : forall sl l a b, chain sl l (a ++ b) -> chain sl l b.
Proof.
  induction a as [|z a IH]; cbn [app chain]; intros b H; auto.
  apply IH. destruct H; auto.
Qed.

Lemma chain_ext : forall sl sl' l c,
  (forall y, In y c -> node_next sl' y l = node_next sl y l) -> chain sl l c -> chain sl' l c.
Proof.
  induction c as [|z c IH]; cbn [chain]; intros He H; auto.
  destruct H as [H1 H2]. split.
  - rewrite He by (left; auto). exact H1.
  - apply IH; auto. intros y Hy. apply He. right; auto.
Qed.

(* xn goes in after p *)
Lemma chain_splice : forall sl sl' l xn p F G,
  chain sl l (F ++ p :: G) -> NoDup (F ++ p :: G) -> ~ In xn (F ++ p :: G) ->
  (forall y, node_next sl' y l = if y =? xn then node_next sl p l
                                 else if y =? p then Some xn else node_next sl y l) ->
  chain sl' l (F ++ p :: xn :: G).
Proof.
  intros sl sl' l xn p F G Hc Hnd Hni Hn'.
  induction F as [|z F IH]; cbn [app chain] in *; destruct Hc as [Hz Hc]; rewrite !Hn';
    apply NoDup_cons_iff in Hnd; destruct Hnd as [Hzn Hnd].
  - destruct (Nat.eqb_spec p xn) as [E|_]; [destruct (Hni (or_introl E))|].
    rewrite !Nat.eqb_refl. repeat split; [exact Hz|].
    apply chain_ext with sl; [|exact Hc]. intros y Hy. rewrite Hn'.
    destruct (Nat.eqb_spec y xn) as [->|_]; [destruct (Hni (or_intror Hy))|].
    destruct (Nat.eqb_spec y p) as [->|_]; [destruct (Hzn Hy)|reflexivity].
  - destruct (Nat.eqb_spec z xn) as [E|_]; [destruct (Hni (or_introl E))|].
    destruct (Nat.eqb_spec z p) as [->|_]; [destruct Hzn; apply in_elt|].
    split; [rewrite Hz; destruct F; reflexivity|].
    exact (IH Hc Hnd (fun H => Hni (or_intror H))).
Qed.

Lemma chain_from_spec : forall (sl : skiplist K) l fuel c,
  chain sl l c -> length c <= fuel -> chain_from fuel sl l (hd_error c) = c.
Proof.
  induction fuel as [|fuel IH]; intros c Hc Hlen.
  - destruct c; [reflexivity | cbn [length] in Hlen; lia].
  - destruct c as [|y r]; [reflexivity|]. cbn [hd_error chain_from].
    destruct Hc as [Hn Hc]. rewrite Hn. f_equal. apply IH; auto. cbn [length] in Hlen. lia.
Qed.

(* [pred_at] is the last node of its level in 0 :: A, where the head always stands *)
Lemma pred_at_last : forall sl A i, lf sl i 0 = true ->
  exists F, filter (lf sl i) (0 :: A) = F ++ [pred_at sl (0 :: A) i].
Proof.
  intros sl A i H. exists (removelast (filter (lf sl i) (0 :: A))).
  apply app_removelast_last. rewrite filter_cons', H. discriminate.
Qed.

Lemma pred_at_spec : forall sl A i, lf sl i 0 = true ->
  In (pred_at sl (0 :: A) i) (0 :: A) /\ lf sl i (pred_at sl (0 :: A) i) = true.
Proof.
  intros sl A i H. destruct (pred_at_last sl A i H) as (F & E).
  apply filter_In. rewrite E. apply in_elt.
Qed.

Lemma pred_at_high : forall sl A i, (forall y, In y A -> node_height sl y <= i) ->
  pred_at sl (0 :: A) i = 0.
Proof.
  intros sl A i H. unfold pred_at. rewrite filter_cons'.
  rewrite (filter_false (lf sl i) A).
  - destruct (lf sl i 0); reflexivity.
  - intros y Hy. apply Nat.ltb_ge. auto.
Qed.

(* prev[] as sl_insert completes it: the levels above max_height start at the head *)
Lemma prev_firstn : forall sl A maxh h, (forall y, In y A -> node_height sl y <= maxh) ->
  firstn h (map (pred_at sl (0 :: A)) (seq 0 maxh) ++ repeat 0 (h - maxh))
  = map (pred_at sl (0 :: A)) (seq 0 h).
Proof.
  intros sl A maxh h H. destruct (le_lt_dec h maxh) as [Hle|Hgt].
  - replace (h - maxh) with 0 by lia. cbn [repeat].
    rewrite app_nil_r, firstn_map, firstn_seq'; auto.
  - replace (repeat 0 (h - maxh)) with (map (pred_at sl (0 :: A)) (seq maxh (h - maxh))).
    + pose proof (seq_app maxh (h - maxh) 0) as E. cbn [Nat.add] in E.
      rewrite <- map_app, <- E. replace (maxh + (h - maxh)) with h by lia.
      apply firstn_all2. rewrite map_length, seq_length. lia.
    + rewrite map_const_repeat.
      * rewrite seq_length. reflexivity.
      * intros i Hi. apply in_seq in Hi. apply pred_at_high.
        intros y Hy. specialize (H y Hy). lia.
Qed.

(* the invariant; [order]: the non-head nodes in key order *)
Record wf (sl : skiplist K) (order : list nat) : Prop := {
  (* the arena is the head (node 0) and the nodes of [order], each once *)
  wf_arena : Permutation (0 :: order) (seq 0 (length (sl_nodes sl)));
  (* the head has no key and a link at every level; every other node has a key and a
     height between 1 and max_height *)
  wf_hkey : node_key sl 0 = None;
  wf_hht : node_height sl 0 = MAX_HEIGHT;
  wf_key : forall y, In y order -> node_key sl y <> None;
  wf_ht : forall y, In y order -> 1 <= node_height sl y <= sl_maxh sl;
  wf_maxh : 1 <= sl_maxh sl <= MAX_HEIGHT;
  (* the keys along [order] ([keys_of]) increase strictly: each is below ([klt]) all later ones *)
  wf_sorted : ForallOrdPairs klt (keys_of sl order);
  (* level l links ([chain]) exactly the nodes taller than l ([lf sl l]), in the order of
     [order], starting at the head; the last one has no successor *)
  wf_chain : forall l, l < MAX_HEIGHT -> chain sl l (filter (lf sl l) (0 :: order))
}.

Lemma wf_empty : wf sl_empty [].
Proof.
  constructor.
  - apply Permutation_refl.
  - reflexivity.
  - reflexivity.
  - intros y [].
  - intros y [].
  - cbn [sl_empty sl_maxh]. unfold MAX_HEIGHT. lia.
  - constructor.
  - intros l Hl. rewrite filter_cons'. cbn [filter].
    rewrite (proj2 (lf_iff (@sl_empty K) l 0) Hl). cbn [chain]. split; auto.
    unfold node_next, nodes_next. cbn [sl_empty sl_nodes nth_error nnext hd_error].
    apply nth_repeat.
Qed.

(* what the invariant says of a well-formed list *)
Section Wf.
Variable sl : skiplist K.
Variable order : list nat.
Hypothesis Hwf : wf sl order.

Lemma wf_len : length (sl_nodes sl) = S (length order).
Proof.
  rewrite <- (seq_length (length (sl_nodes sl)) 0).
  symmetry. exact (Permutation_length (wf_arena _ _ Hwf)).
Qed.

Lemma wf_nodup : NoDup (0 :: order).
Proof. exact (Permutation_NoDup (Permutation_sym (wf_arena _ _ Hwf)) (seq_NoDup _ _)). Qed.

Lemma wf_fresh : ~ In (length (sl_nodes sl)) (0 :: order).
Proof.
  intros H. apply (Permutation_in _ (wf_arena _ _ Hwf)), in_seq in H.
  exact (Nat.lt_irrefl _ (proj2 H)).
Qed.

Lemma lf_head : forall l, l < MAX_HEIGHT -> lf sl l 0 = true.
Proof. intros l Hl. apply lf_iff. rewrite (wf_hht _ _ Hwf). exact Hl. Qed.

Lemma wf_not_head : forall y, In y order -> y <> 0.
Proof. intros y Hy ->. pose proof wf_nodup as Hnd. inversion Hnd; auto. Qed.

(* level 0 holds every node *)
Lemma wf_level0_in : forall y, In y (0 :: order) -> lf sl 0 y = true.
Proof.
  intros y [<-|Hy]; [exact (lf_head 0 max_height_pos)|].
  apply lf_iff. exact (proj1 (wf_ht _ _ Hwf y Hy)).
Qed.

(* [wf_chain] read at one node: its successor on a level is the next node of that level; on
   level 0, the next node *)
Lemma wf_next : forall l a x b, 0 :: order = a ++ x :: b ->
  l < MAX_HEIGHT -> lf sl l x = true -> node_next sl x l = hd_error (filter (lf sl l) b).
Proof.
  intros l a x b E Hl Hx. pose proof (wf_chain _ _ Hwf l Hl) as Hc.
  rewrite E, filter_app, filter_cons', Hx in Hc. apply chain_app_r in Hc. exact (proj1 Hc).
Qed.

Lemma wf_next0 : forall a x b, 0 :: order = a ++ x :: b -> node_next sl x 0 = hd_error b.
Proof.
  intros a x b E. pose proof wf_level0_in as H0. rewrite E in H0.
  rewrite (wf_next 0 a x b E max_height_pos (H0 x (in_elt x a b))).
  f_equal. apply filter_true. intros y Hy. apply H0, in_or_app. right. right. exact Hy.
Qed.

(* and read whole: the model's walk along a level finds the nodes taller than the level *)
Lemma wf_level_nodes : forall l, l < MAX_HEIGHT -> level_nodes sl l = filter (lf sl l) order.
Proof.
  intros l Hl. unfold level_nodes. pose proof (wf_chain _ _ Hwf l Hl) as Hc.
  rewrite filter_cons', (lf_head l Hl) in Hc. destruct Hc as [Hn Hc]. rewrite Hn.
  apply chain_from_spec; auto.
  rewrite wf_len. pose proof (filter_length_le (lf sl l) order). lia.
Qed.

Lemma wf_level0_nodes : level_nodes sl 0 = order.
Proof.
  rewrite (wf_level_nodes 0 max_height_pos). apply filter_true.
  intros y Hy. apply wf_level0_in. right. exact Hy.
Qed.

End Wf.

(* A key k cuts the order in two: the nodes with keys below k, then the others.  The cut is
   stated over the keys; only [ka_A] and [ka_hd_B] below turn it into the test of the loops. *)
Definition kge (k x : K) : Prop := ~ klt x k.

Lemma klt_kge : forall k x, klt k x -> kge k x.
Proof. unfold kge, klt. intros k x H H'. rewrite (co_antisym _ _ Hord), H' in H. discriminate. Qed.

Lemma split_exists : forall sl k order, ForallOrdPairs klt (keys_of sl order) ->
  exists A B, order = A ++ B /\
    Forall (fun x => klt x k) (keys_of sl A) /\ Forall (kge k) (keys_of sl B).
Proof.
  induction order as [|y r IH]; intros Hs.
  - exists [], []. repeat split; constructor.
  - cbn [keys_of] in Hs. destruct (node_key sl y) as [ky|] eqn:Hky.
    + apply FOP_cons_iff in Hs. destruct Hs as [Hy Hr].
      assert (Hdec : klt ky k \/ kge k ky)
        by (unfold kge, klt; destruct (cmp ky k); [right|left|right]; congruence).
      destruct Hdec as [Hlt|Hge].
      * destruct (IH Hr) as (A & B & -> & HA & HB).
        exists (y :: A), B. cbn [app keys_of]. rewrite Hky. repeat split; auto.
      * (* the keys after ky are above it, so not below k either *)
        exists [], (y :: r). cbn [app keys_of]. rewrite Hky. repeat split; [constructor|].
        constructor; [exact Hge|]. rewrite Forall_forall in *. intros z Hz Hzk.
        exact (Hge (co_trans _ _ Hord _ _ _ (Hy z Hz) Hzk)).
    + destruct (IH Hs) as (A & B & -> & HA & HB).
      exists (y :: A), B. cbn [app keys_of]. rewrite Hky. repeat split; auto.
Qed.

Lemma split_at : forall sl l1 n l2 kn,
  ForallOrdPairs klt (keys_of sl (l1 ++ n :: l2)) -> node_key sl n = Some kn ->
  Forall (fun x => klt x kn) (keys_of sl l1) /\ Forall (kge kn) (keys_of sl (n :: l2)).
Proof.
  intros sl l1 n l2 kn Hs Hkn. rewrite keys_of_app in Hs. cbn [keys_of] in *. rewrite Hkn in *.
  apply FOP_app in Hs. destruct Hs as (_ & Hn2 & Hs12). apply FOP_cons_iff, proj1 in Hn2.
  split; apply Forall_forall.
  - intros x Hx. exact (Hs12 x kn Hx (or_introl eq_refl)).
  - intros y [<-|Hy]; unfold kge, klt.
    + rewrite (co_refl _ _ Hord). discriminate.
    + rewrite (co_antisym _ _ Hord), (proj1 (Forall_forall _ _) Hn2 y Hy). discriminate.
Qed.

(* the search loops on a well-formed list that the key splits as A ++ B *)
Section Loops.
Variable sl : skiplist K.
Variables A B : list nat.
Hypothesis Hwf : wf sl (A ++ B).

(* Every search walks the same way: it starts at the head on the top level in use; standing
   at node x of 0 :: A on [level], either the next node of the level is still in A, and the
   search moves on to it, or x is the last node of the level before B ([pred_at]), and the
   search steps down; on level 0 it ends.  [P fuel x level] is what a loop is to satisfy
   when it stands at x on [level].  The fuel premise of the induction is where "the fuel
   never runs out" is shown: a step forward shortens c, a step down lowers the level. *)
Lemma search_ind : forall P : nat -> nat -> nat -> Prop,
  (forall fuel x y level, node_next sl x level = Some y -> In y A -> P fuel y level -> P (S fuel) x level) ->
  (forall fuel x level, node_next sl x (S level) = hd_error (filter (lf sl (S level)) B) ->
     pred_at sl (0 :: A) (S level) = x -> P fuel x level -> P (S fuel) x (S level)) ->
  (forall fuel x, node_next sl x 0 = hd_error B -> pred_at sl (0 :: A) 0 = x -> P (S fuel) x 0) ->
  P (sl_fuel sl) 0 (sl_maxh sl - 1).
Proof.
  intros P Hfwd Hdown Hstop.
  assert (H : forall fuel a x c level, 0 :: A = a ++ x :: c -> level < node_height sl x ->
            level < MAX_HEIGHT -> length c + level < fuel -> P fuel x level).
  { induction fuel as [|fuel IH]; intros a x c level Hs Hlx Hl12 Hfuel; [inversion Hfuel|].
    pose proof (proj2 (lf_iff sl level x) Hlx) as Hlfx.
    assert (Hs' : 0 :: A ++ B = a ++ x :: c ++ B).
    { change (0 :: A ++ B) with ((0 :: A) ++ B). rewrite Hs, <- app_assoc. reflexivity. }
    pose proof (wf_next sl _ Hwf level a x (c ++ B) Hs' Hl12 Hlfx) as Hn. rewrite filter_app in Hn.
    destruct (filter (lf sl level) c) as [|y fc] eqn:Hfc.
    - assert (Hp : pred_at sl (0 :: A) level = x).
      { unfold pred_at. rewrite Hs, filter_app, filter_cons', Hlfx, Hfc. apply last_last. }
      destruct level as [|level].
      + apply Hstop; [|exact Hp]. rewrite Hn. cbn [app]. f_equal. apply filter_true.
        intros z Hz. apply (wf_level0_in _ _ Hwf). right. apply in_or_app. right. exact Hz.
      + apply (Hdown fuel x level Hn Hp). apply (IH a x c level Hs); lia.
    - destruct (filter_hd_split (lf sl level) c y) as (c1 & c2 & Hc & _ & Hy).
      { rewrite Hfc. reflexivity. }
      rewrite Hc, app_length in Hfuel. cbn [length] in Hfuel.
      apply (Hfwd fuel x y level Hn).
      + destruct a; injection Hs as _ ->; rewrite Hc; [|apply in_or_app; right; right]; apply in_elt.
      + apply (IH (a ++ x :: c1) y c2 level); [|apply lf_iff; exact Hy|exact Hl12|lia].
        rewrite Hs, Hc, <- app_assoc. reflexivity. }
  pose proof (wf_maxh _ _ Hwf) as Hm.
  apply (H (sl_fuel sl) [] 0 A); [reflexivity | rewrite (wf_hht _ _ Hwf); lia | lia |].
  unfold sl_fuel. rewrite (wf_len _ _ Hwf), app_length. lia.
Qed.

Lemma pred_at_0 : pred_at sl (0 :: A) 0 = last A 0.
Proof.
  unfold pred_at. rewrite filter_true; [apply last_cons_default|].
  intros y Hy. apply (wf_level0_in _ _ Hwf). change (In y ((0 :: A) ++ B)). apply in_or_app. left. exact Hy.
Qed.

Variable k : K.
Hypothesis HA : Forall (fun x => klt x k) (keys_of sl A).
Hypothesis HB : Forall (kge k) (keys_of sl B).

Lemma ka_A : forall y, In y A -> key_after_node cmp sl k (Some y) = true.
Proof.
  intros y Hy. cbn [key_after_node]. destruct (node_key sl y) as [ky|] eqn:Hky.
  - rewrite (proj1 (Forall_forall _ _) HA ky (keys_of_In sl A y ky Hy Hky)). reflexivity.
  - destruct (wf_key _ _ Hwf y (in_or_app _ _ _ (or_introl Hy)) Hky).
Qed.

Lemma ka_hd_B : forall B', incl B' B -> key_after_node cmp sl k (hd_error B') = false.
Proof.
  intros [|b B'] H; [reflexivity|]. cbn [hd_error key_after_node].
  destruct (node_key sl b) as [kb|] eqn:Hkb; [|reflexivity].
  pose proof (proj1 (Forall_forall _ _) HB kb (keys_of_In sl B b kb (H b (or_introl eq_refl)) Hkb)) as Hn.
  unfold kge, klt in Hn. destruct (cmp kb k); congruence.
Qed.

Lemma wf_find_ge :
  find_ge cmp sl k = (hd_error B, map (pred_at sl (0 :: A)) (seq 0 (sl_maxh sl))).
Proof.
  pose proof (wf_maxh _ _ Hwf) as Hm. unfold find_ge.
  set (top := sl_maxh sl - 1). replace (sl_maxh sl) with (S top) by (unfold top; lia).
  rewrite <- (app_nil_r (map _ _)). generalize (@nil nat).
  apply search_ind with (P := fun fuel x level => forall prev,
    find_ge_loop cmp fuel sl k x level prev
    = (hd_error B, map (pred_at sl (0 :: A)) (seq 0 (S level)) ++ prev));
    intros fuel x; [intros y level Hn Hy IH prev | intros level Hn Hp IH prev | intros Hn Hp prev];
    cbn [find_ge_loop]; rewrite Hn.
  - rewrite (ka_A y Hy). apply IH.
  - rewrite (ka_hd_B _ (incl_filter _ B)), IH, (seq_S (S level) 0), map_app, <- app_assoc. cbn [map app Nat.add].
    rewrite Hp. reflexivity.
  - rewrite (ka_hd_B B (incl_refl B)). cbn [seq map app]. rewrite Hp. reflexivity.
Qed.

Lemma wf_find_lt : find_lt cmp sl k = last A 0.
Proof.
  rewrite <- pred_at_0. unfold find_lt.
  apply search_ind with (P := fun fuel x level =>
    find_lt_loop cmp fuel sl k x level = pred_at sl (0 :: A) 0);
    intros fuel x; [intros y level Hn Hy IH | intros level Hn _ IH | intros Hn Hp];
    cbn [find_lt_loop]; rewrite Hn.
  - rewrite (ka_A y Hy). exact IH.
  - rewrite (ka_hd_B _ (incl_filter _ B)). exact IH.
  - rewrite (ka_hd_B B (incl_refl B)). symmetry. exact Hp.
Qed.

End Loops.

Lemma wf_find_last : forall sl order, wf sl order -> find_last sl = last order 0.
Proof.
  intros sl order Hwf. rewrite <- (app_nil_r order) in Hwf.
  rewrite <- (pred_at_0 sl order [] Hwf). unfold find_last.
  apply (search_ind sl order [] Hwf) with (P := fun fuel x level =>
    find_last_loop fuel sl x level = pred_at sl (0 :: order) 0);
    intros fuel x; [intros y level Hn _ IH | intros level Hn _ IH | intros Hn Hp];
    cbn [find_last_loop]; rewrite Hn.
  - exact IH.
  - exact IH.
  - symmetry. exact Hp.
Qed.

(* sorted insertion where k cuts a sorted key list: KA below k, KB above it *)
Lemma insert_key_cut : forall k KA KB, Forall (fun x => klt x k) KA -> Forall (klt k) KB ->
  insert_key cmp k (KA ++ KB) = KA ++ k :: KB.
Proof.
  induction KA as [|a KA IH]; intros KB HA HB; cbn [app insert_key].
  - destruct HB as [|b KB Hb _]; [reflexivity|]. cbn [insert_key]. rewrite Hb. reflexivity.
  - rewrite (co_antisym _ _ Hord k a), (Forall_inv HA). cbn [CompOpp]. f_equal.
    exact (IH KB (Forall_inv_tail HA) HB).
Qed.

Lemma FOP_cut : forall k KA KB, ForallOrdPairs klt (KA ++ KB) ->
  Forall (fun x => klt x k) KA -> Forall (klt k) KB -> ForallOrdPairs klt (KA ++ k :: KB).
Proof.
  intros k KA KB Hs HA HB. apply FOP_app in Hs. destruct Hs as (Ha & Hb & Hab).
  apply FOP_app. split; [exact Ha|]. split; [constructor; assumption|].
  rewrite Forall_forall in HA. intros x y Hx [<-|Hy]; [exact (HA x Hx) | exact (Hab x y Hx Hy)].
Qed.

(* sl_insert node by node: keys and heights whatever the list, links on a well-formed one *)
Lemma sl_insert_shape : forall sl k h,
  let sl' := sl_insert cmp sl k h in
  let xn := length (sl_nodes sl) in
  length (sl_nodes sl') = S xn /\
  sl_maxh sl' = Nat.max (sl_maxh sl) h /\
  (forall y, node_key sl' y = if y =? xn then Some k else node_key sl y) /\
  (forall y, node_height sl' y = if y =? xn then h else node_height sl y).
Proof.
  intros sl k h. unfold sl_insert. destruct (find_ge cmp sl k) as [o prev]. cbv beta iota zeta.
  set (P := firstn h (prev ++ repeat 0 (h - sl_maxh sl))).
  set (n := mkNode (Some k) (repeat None h)).
  cbn [sl_nodes sl_maxh]. split; [|split; [|split]].
  - rewrite link_loop_length, app_length. apply Nat.add_1_r.
  - destruct (Nat.ltb_spec (sl_maxh sl) h); lia.
  - intros y. change (nkeyof (link_loop (sl_nodes sl ++ [n]) (length (sl_nodes sl)) P 0) y
                      = if y =? length (sl_nodes sl) then Some k else nkeyof (sl_nodes sl) y).
    rewrite link_loop_key. apply nkeyof_snoc.
  - intros y. change (nheight (link_loop (sl_nodes sl ++ [n]) (length (sl_nodes sl)) P 0) y
                      = if y =? length (sl_nodes sl) then h else nheight (sl_nodes sl) y).
    rewrite link_loop_height, nheight_snoc. unfold n. cbn [nnext]. rewrite repeat_length. reflexivity.
Qed.

(* sl_insert on a well-formed list that the new key splits as A ++ B, the keys of B above it
   (the REQUIRES of ldb_skiplist_insert: nothing in the list is equivalent to the new key):
   the new node, xn, goes between A and B *)
Section Insert.
Variable sl : skiplist K.
Variables A B : list nat.
Variable k : K.
Variable h : nat.
Hypothesis Hwf : wf sl (A ++ B).
Hypothesis Hh : 1 <= h <= MAX_HEIGHT.
Hypothesis HA : Forall (fun x => klt x k) (keys_of sl A).
Hypothesis HB : Forall (klt k) (keys_of sl B).
Local Notation sl' := (sl_insert cmp sl k h).
Local Notation xn := (length (sl_nodes sl)).
Local Notation pr := (pred_at sl (0 :: A)).

Lemma insert_old : forall y, In y (0 :: A ++ B) ->
  node_key sl' y = node_key sl y /\ node_height sl' y = node_height sl y.
Proof.
  intros y Hy. destruct (sl_insert_shape sl k h) as (_ & _ & Hkey' & Hheight').
  rewrite Hkey', Hheight'.
  destruct (Nat.eqb_spec y xn) as [->|_]; [destruct (wf_fresh sl _ Hwf Hy)|split; reflexivity].
Qed.

Lemma insert_new : node_key sl' xn = Some k /\ node_height sl' xn = h.
Proof.
  destruct (sl_insert_shape sl k h) as (_ & _ & Hkey' & Hheight').
  rewrite Hkey', Hheight', Nat.eqb_refl. split; reflexivity.
Qed.

Lemma sl_insert_next :
  (forall y l, l < h -> node_next sl' y l =
     if y =? xn then node_next sl (pr l) l
     else if y =? pr l then Some xn else node_next sl y l) /\
  (forall y l, h <= l -> node_next sl' y l = if y =? xn then None else node_next sl y l).
Proof.
  set (n := mkNode (Some k) (repeat None h)).
  set (P := map pr (seq 0 h)).
  assert (Esl' : sl' = mkSL (link_loop (sl_nodes sl ++ [n]) xn P 0)
                            (if sl_maxh sl <? h then h else sl_maxh sl)).
  { unfold sl_insert. rewrite (wf_find_ge sl A B Hwf k HA (Forall_impl _ (klt_kge k) HB)). cbv beta iota zeta.
    rewrite prev_firstn; [reflexivity|].
    intros y Hy. apply (wf_ht _ _ Hwf). apply in_or_app; left; auto. }
  assert (Hn0 : forall y l, nodes_next (sl_nodes sl ++ [n]) y l
                            = if y =? xn then None else node_next sl y l).
  { intros y l. rewrite nodes_next_snoc. destruct (y =? xn); [|reflexivity].
    apply nth_repeat. }
  assert (HlenP : length P = h) by (unfold P; rewrite map_length; apply seq_length).
  rewrite Esl'. split.
  - intros y l Hl. unfold node_next at 1. cbn [sl_nodes].
    assert (HP : nth l P 0 = pr l) by (unfold P; rewrite nth_map_seq by exact Hl; reflexivity).
    destruct (pred_at_spec sl A l (lf_head sl _ Hwf l (Nat.lt_le_trans _ _ _ Hl (proj2 Hh)))) as [Hpin Hplf].
    assert (Hne : pr l <> xn).
    { intros E. apply (wf_fresh sl _ Hwf). rewrite <- E.
      change (In (pr l) ((0 :: A) ++ B)). apply in_or_app. left. exact Hpin. }
    pose proof (link_loop_next_in K xn P 0 (sl_nodes sl ++ [n]) l y) as Hin.
    cbn [Nat.add] in Hin. rewrite HP in Hin. rewrite Hin.
    + rewrite !Hn0. rewrite (proj2 (Nat.eqb_neq _ _) Hne).
      destruct (y =? xn); [reflexivity|]. destruct (y =? pr l); reflexivity.
    + rewrite HlenP. exact Hl.
    + exact Hne.
    + rewrite nheight_snoc, (proj2 (Nat.eqb_neq _ _) Hne). apply lf_iff. exact Hplf.
    + rewrite nheight_snoc, Nat.eqb_refl. unfold n. cbn [nnext]. rewrite repeat_length. exact Hl.
  - intros y l Hl. unfold node_next at 1. cbn [sl_nodes].
    rewrite link_loop_next_out; [apply Hn0|]. right. rewrite HlenP. exact Hl.
Qed.

(* the nodes of a level after sl_insert: the new one stands on the levels below its height *)
Lemma insert_level : forall l, filter (lf sl' l) (0 :: A ++ xn :: B)
  = filter (lf sl l) (0 :: A) ++ (if l <? h then [xn] else []) ++ filter (lf sl l) B.
Proof.
  intros l. assert (Hlf' : forall y, In y ((0 :: A) ++ B) -> lf sl' l y = lf sl l y).
  { intros y Hy. unfold lf. rewrite (proj2 (insert_old y Hy)). reflexivity. }
  change (0 :: A ++ xn :: B) with ((0 :: A) ++ [xn] ++ B). rewrite !filter_app. f_equal; [|f_equal].
  - apply filter_ext_in. intros y Hy. apply Hlf', in_or_app. left. exact Hy.
  - cbn [filter]. unfold lf. rewrite (proj2 insert_new). destruct (l <? h); reflexivity.
  - apply filter_ext_in. intros y Hy. apply Hlf', in_or_app. right. exact Hy.
Qed.

(* and its links: below the height of the new node it is spliced in after the predecessor the
   search recorded ([pr l] is the last node of the level in 0 :: A), above nothing changes *)
Lemma insert_chain : forall l, l < MAX_HEIGHT ->
  chain sl' l (filter (lf sl' l) (0 :: A ++ xn :: B)).
Proof.
  intros l Hl. destruct sl_insert_next as (Hlow & Hhigh). rewrite insert_level.
  pose proof (wf_chain _ _ Hwf l Hl) as Hc.
  pose proof (NoDup_filter (lf sl l) (wf_nodup _ _ Hwf)) as Hnd.
  assert (Hni : ~ In xn (filter (lf sl l) (0 :: A ++ B))).
  { intros H. apply filter_In in H. exact (wf_fresh sl _ Hwf (proj1 H)). }
  change (0 :: A ++ B) with ((0 :: A) ++ B) in Hc, Hnd, Hni. rewrite filter_app in Hc, Hnd, Hni.
  destruct (Nat.ltb_spec l h) as [Hlh|Hlh]; cbn [app].
  - destruct (pred_at_last sl A l (lf_head sl _ Hwf l Hl)) as (F & E).
    rewrite E, <- app_assoc in Hc, Hnd, Hni |- *.
    exact (chain_splice sl sl' l xn (pr l) F _ Hc Hnd Hni (fun y => Hlow y l Hlh)).
  - apply chain_ext with (sl := sl); [|exact Hc]. intros y Hy. rewrite Hhigh by exact Hlh.
    destruct (Nat.eqb_spec y xn) as [->|_]; [destruct (Hni Hy)|reflexivity].
Qed.

Lemma insert_keys : keys_of sl' (A ++ xn :: B) = keys_of sl A ++ k :: keys_of sl B.
Proof.
  rewrite keys_of_app. cbn [keys_of]. rewrite (proj1 insert_new).
  rewrite (keys_of_ext sl sl' A) by (intros y Hy; apply insert_old; right; apply in_or_app; auto).
  rewrite (keys_of_ext sl sl' B) by (intros y Hy; apply insert_old; right; apply in_or_app; auto).
  reflexivity.
Qed.

Lemma insert_wf_cut : wf sl' (A ++ xn :: B).
Proof.
  destruct (sl_insert_shape sl k h) as (Hlen' & Hmaxh' & _).
  destruct insert_new as [Hxn_key Hxn_ht].
  pose proof (wf_maxh _ _ Hwf) as Hm.
  constructor.
  - (* wf_arena: the new node is the new last index *)
    rewrite Hlen', seq_S. change (0 :: A ++ xn :: B) with ((0 :: A) ++ xn :: B).
    apply Permutation_trans with (xn :: (0 :: A) ++ B); [symmetry; apply Permutation_middle|].
    apply Permutation_trans with (xn :: seq 0 xn); [|apply Permutation_cons_append].
    apply perm_skip. exact (wf_arena _ _ Hwf).
  - (* wf_hkey *) rewrite (proj1 (insert_old 0 (or_introl eq_refl))). exact (wf_hkey _ _ Hwf).
  - (* wf_hht *) rewrite (proj2 (insert_old 0 (or_introl eq_refl))). exact (wf_hht _ _ Hwf).
  - (* wf_key *)
    intros y Hy. apply in_elt_inv in Hy. destruct Hy as [->|Hy].
    + rewrite Hxn_key. discriminate.
    + rewrite (proj1 (insert_old y (or_intror Hy))). exact (wf_key _ _ Hwf y Hy).
  - (* wf_ht *)
    intros y Hy. rewrite Hmaxh'. apply in_elt_inv in Hy. destruct Hy as [->|Hy].
    + rewrite Hxn_ht. split; [apply Hh|apply Nat.le_max_r].
    + rewrite (proj2 (insert_old y (or_intror Hy))). destruct (wf_ht _ _ Hwf y Hy) as [H1 H2].
      split; [exact H1|]. exact (Nat.le_trans _ _ _ H2 (Nat.le_max_l _ _)).
  - (* wf_maxh *) rewrite Hmaxh'. split.
    + exact (Nat.le_trans _ _ _ (proj1 Hm) (Nat.le_max_l _ _)).
    + apply Nat.max_lub; [apply Hm|apply Hh].
  - (* wf_sorted *)
    rewrite insert_keys. apply FOP_cut; [rewrite <- keys_of_app; exact (wf_sorted _ _ Hwf) | exact HA | exact HB].
  - (* wf_chain *) exact insert_chain.
Qed.

End Insert.

Lemma insert_wf : forall sl order k h,
  wf sl order -> 1 <= h <= MAX_HEIGHT ->
  (forall x, In x (keys_of sl order) -> cmp x k <> Eq) ->
  exists order', wf (sl_insert cmp sl k h) order' /\
    keys_of (sl_insert cmp sl k h) order' = insert_key cmp k (keys_of sl order).
Proof.
  intros sl order k h Hwf Hh Hdist.
  destruct (split_exists sl k order (wf_sorted _ _ Hwf)) as (A & B & -> & HA & HB).
  (* nothing in the list is equivalent to k, so the keys of B are above it *)
  assert (HB' : Forall (klt k) (keys_of sl B)).
  { rewrite keys_of_app in Hdist. rewrite Forall_forall in *. intros x Hx.
    pose proof (HB x Hx) as H1. pose proof (Hdist x (in_or_app _ _ _ (or_intror Hx))) as H2.
    unfold kge, klt in *. rewrite (co_antisym _ _ Hord). destruct (cmp x k); cbn [CompOpp]; congruence. }
  exists (A ++ length (sl_nodes sl) :: B). split; [exact (insert_wf_cut sl A B k h Hwf Hh HA HB')|].
  rewrite (insert_keys sl A B k h Hwf), keys_of_app. symmetry. exact (insert_key_cut k _ _ HA HB').
Qed.

(* sl_insert_all: the invariant and the key list, then lengths and heights *)
Lemma insert_all_wf : forall keys hs sl order,
  wf sl order -> length hs = length keys -> Forall (fun h => 1 <= h <= MAX_HEIGHT) hs ->
  keys_distinct cmp keys ->
  (forall ky, In ky (keys_of sl order) -> Forall (fun x => cmp ky x <> Eq) keys) ->
  exists order',
    wf (sl_insert_all cmp sl keys hs) order' /\
    keys_of (sl_insert_all cmp sl keys hs) order'
      = fold_left (fun acc k => insert_key cmp k acc) keys (keys_of sl order).
Proof.
  induction keys as [|k keys IH]; intros hs sl order Hwf Hlen Hhs Hdist Hex.
  - exists order. split; [destruct hs; exact Hwf | destruct hs; reflexivity].
  - destruct hs as [|h hs]; [discriminate Hlen|].
    cbn [sl_insert_all]. injection Hlen as Hlen.
    inversion Hhs as [|? ? Hh Hhs']; subst.
    destruct Hdist as [Hk Hdist'].
    destruct (insert_wf sl order k h Hwf Hh) as (order1 & Hwf1 & Hkeys1).
    { intros ky Hky. specialize (Hex ky Hky). inversion Hex; auto. }
    destruct (IH hs _ _ Hwf1 Hlen Hhs' Hdist') as (order' & Hwf' & Hkeys').
    { intros ky Hky. rewrite Hkeys1 in Hky. apply In_insert_key in Hky.
      destruct Hky as [<-|Hky]; [exact Hk|]. specialize (Hex ky Hky). inversion Hex; auto. }
    exists order'. split; [exact Hwf'|].
    rewrite Hkeys', Hkeys1. reflexivity.
Qed.

Lemma fold_right_max_init : forall r m h,
  fold_right Nat.max (Nat.max m h) r = Nat.max h (fold_right Nat.max m r).
Proof. induction r as [|x r IH]; intros m h; cbn [fold_right]; [lia|]. rewrite IH. lia. Qed.

Lemma insert_all_shape : forall keys hs sl, length hs = length keys ->
  length (sl_nodes (sl_insert_all cmp sl keys hs)) = length (sl_nodes sl) + length keys /\
  (forall y, y < length (sl_nodes sl) ->
     node_height (sl_insert_all cmp sl keys hs) y = node_height sl y) /\
  map (node_height (sl_insert_all cmp sl keys hs)) (seq (length (sl_nodes sl)) (length keys)) = hs /\
  sl_maxh (sl_insert_all cmp sl keys hs) = fold_right Nat.max (sl_maxh sl) hs.
Proof.
  induction keys as [|k keys IH]; intros hs sl Hlen.
  - destruct hs; [|discriminate Hlen].
    cbn [sl_insert_all length seq map fold_right]. rewrite Nat.add_0_r. auto.
  - destruct hs as [|h hs]; [discriminate Hlen|]. injection Hlen as Hlen.
    cbn [sl_insert_all].
    destruct (sl_insert_shape sl k h) as (Hlen1 & Hmax1 & _ & Hht1).
    destruct (IH hs (sl_insert cmp sl k h) Hlen) as (Hlen' & Hold' & Hmap' & Hmax').
    set (sl1 := sl_insert cmp sl k h) in *.
    set (xn := length (sl_nodes sl)) in *.
    rewrite Hlen1 in Hlen', Hold', Hmap'.
    split; [|split; [|split]].
    + rewrite Hlen'. apply Nat.add_succ_comm.
    + intros y Hy. rewrite (Hold' y (Nat.lt_lt_succ_r _ _ Hy)), Hht1.
      rewrite (proj2 (Nat.eqb_neq y xn) (Nat.lt_neq _ _ Hy)). reflexivity.
    + cbn [length seq map]. rewrite Hmap', (Hold' xn (Nat.lt_succ_diag_r xn)), Hht1, Nat.eqb_refl.
      reflexivity.
    + rewrite Hmax', Hmax1. cbn [fold_right]. apply fold_right_max_init.
Qed.

Lemma build_wf : forall keys hs, keys_distinct cmp keys -> heights_ok keys hs ->
  exists order,
    wf (sl_build cmp keys hs) order /\
    keys_of (sl_build cmp keys hs) order = sort_keys cmp keys /\
    length order = length keys /\
    map (node_height (sl_build cmp keys hs)) (seq 1 (length keys)) = hs /\
    sl_maxh (sl_build cmp keys hs) = fold_right Nat.max 1 hs.
Proof.
  intros keys hs Hd [Hlen Hhs]. unfold sl_build.
  destruct (insert_all_wf keys hs sl_empty [] wf_empty Hlen Hhs Hd) as (order & Hwf & Hkeys).
  { intros ky []. }
  destruct (insert_all_shape keys hs sl_empty Hlen) as (Hl & _ & Hmap & Hmax).
  exists order. split; [exact Hwf|]. split; [exact Hkeys|]. split; [|split].
  - pose proof (wf_len _ _ Hwf) as H. rewrite Hl in H. cbn [sl_empty sl_nodes length] in H. lia.
  - exact Hmap.
  - exact Hmax.
Qed.

End Inv.

Arguments lf {K}.
Arguments klt {K}.
Arguments kge {K}.
Arguments chain {K}.
Arguments pred_at {K}.
