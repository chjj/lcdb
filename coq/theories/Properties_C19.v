(* Properties_C19.v -- C19: repair recovers all surviving data.  The model of repair is
   Repair.do_repair; the lookup theorem is EngineRead.get_correct; the log salvage part is
   in Properties_C19b.v (RepairLog.v). *)
From LCDB Require Import Base Engine EngineSpec EngineRead Repair.
Local Open Scope N_scope.

(* Point lookups are right in a repaired state that satisfies the invariant: EngineRead.get_correct
   at that state (the repair premise is not used). *)
Theorem C19_get_after_repair_partial : forall ucmp, total_order ucmp -> forall s nums nf s',
  do_repair ucmp s nums nf = Some s' -> inv_b ucmp s' = true ->
  forall k q, get ucmp s' k q = result_of (best ucmp (all_entries s') k q).
Proof. intros ucmp TO s nums nf s' _ Hinv k q. exact (get_correct ucmp TO s' k q Hinv). Qed.
Print Assumptions C19_get_after_repair_partial.

(* Repair keeps exactly the surviving entries: the history is re-based on them, the last
   sequence is their maximum, memtable and snapshots are empty. *)
Theorem C19_survivors_kept : forall ucmp s nums nf s',
  do_repair ucmp s nums nf = Some s' ->
  hist s' = pending_entries ucmp s ++ concat (map level_entries (levels s)) /\
  last_seq s' = max_seq (hist s') /\ mem s' = [] /\ snaps s' = [].
Proof.
  intros ucmp s nums nf s' H. unfold do_repair in H.
  destruct (match pending_entries ucmp s with [] => _ | _ :: _ => _ end) as [nw|]; [|discriminate].
  destruct (forallb _ _); [|discriminate]. inversion H; subst; cbn. repeat split; reflexivity.
Qed.
Print Assumptions C19_survivors_kept.

(* In general point lookups after repair are WRONG (finding F1): a valid state whose repair makes
   get return an older value than the newest surviving one. *)
Definition f1_state : state :=
  mkS [] None [[mkF 9 [mkE [107] 4 true [2]]]; [];
               [mkF 12 [mkE [97] 2 true [1]; mkE [107] 3 true [1]]]; []; []; []; []] 4 [] 13 [].

Theorem C19_get_after_repair_refuted : exists s nums nf s' k,
  inv_b bytes_compare s = true /\ do_repair bytes_compare s nums nf = Some s' /\
  visible (get bytes_compare s' k (last_seq s')) = Some [1] /\
  visible (result_of (best bytes_compare (all_entries s') k (last_seq s'))) = Some [2].
Proof.
  exists f1_state, [], 13.
  eexists. exists [107]. split; [vm_compute; reflexivity|]. split; [vm_compute; reflexivity|].
  split; vm_compute; reflexivity.
Qed.
Print Assumptions C19_get_after_repair_refuted.
