(* PolicyExamples.v -- computed examples for the selection replicas (ucmp := bytes_compare). *)
From LCDB Require Import Base Engine Policy.
Local Open Scope N_scope.

Definition e (k : N) (q : N) : entry := mkE [k] q true [].

(* 1. the level-0 restart loop of ldb_version_get_overlapping_inputs: with n files up to 2n
   restarts occur (each file can extend the range once at its start and once at its limit);
   ov_fuel = 2n + 1 passes always suffice (PolicyOverlap.overlapping_inputs_fuel).
   files [c..x] and [a..z], range [m,m]: passes  [m,m] -> [c,m] -> [c,x] -> [a,x] -> [a,z]. *)
Definition f1 := mkF 10 [e 99 1; e 120 2].     (* c .. x *)
Definition f2 := mkF 11 [e 97 3; e 122 4].     (* a .. z *)
Example ov_restarts_2n :
  ov_loop bytes_compare 4 true [f1; f2] (Some [109]) (Some [109]) = [] /\          (* n + 2 passes: fuel exhausted *)
  ov_loop bytes_compare 5 true [f1; f2] (Some [109]) (Some [109]) = [f1; f2] /\    (* 2n + 1 passes *)
  overlapping_inputs bytes_compare true [f1; f2] (Some [109]) (Some [109]) = [f1; f2].
Proof. vm_compute. repeat split. Qed.

(* 2. add_boundary_inputs: level 1 holds user key 'k' in two files (the newer entry k@9 ends
   file 20, the older k@5 starts file 21); compacting file 20 alone would leave the older entry
   above the newer one, so file 21 is pulled in; the range of the two, [d..p], overlaps both
   level-2 files. *)
Definition g20 := mkF 20 [e 100 8; e 107 9].
Definition g21 := mkF 21 [e 107 5; e 112 6].
Definition g22 := mkF 22 [e 113 7].
Definition h30 := mkF 30 [e 101 1; e 112 4].
Definition h31 := mkF 31 [e 112 3; e 115 2].
Definition st : state := mkS [] None [[]; [g20; g21; g22]; [h30; h31]; []; []; []; []] 9 [] 40 [].
Example boundary_pulled_in :
  inv_b bytes_compare st = true /\
  picked_inputs bytes_compare st 1 20 false = ([g20; g21], [h30; h31]) /\
  manual_inputs bytes_compare st 1 (Some [100]) (Some [101]) 1 false = ([g20; g21], [h30; h31]) /\
  compaction_guard bytes_compare st
    (to_compaction 1 (picked_inputs bytes_compare st 1 20 false) [] [40] 41) = true /\
  (* without the boundary file the guard is false *)
  compaction_guard bytes_compare st (mkC 1 [20] [30; 31] [] [40] 41) = false.
Proof. vm_compute. repeat split. Qed.
