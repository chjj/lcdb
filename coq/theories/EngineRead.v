(* EngineRead.v -- the read path of the engine model returns the newest visible
   entry: in every state satisfying the executable invariant [inv_b],
   [get] (the replica of ldb_get -> ldb_memtable_get -> ldb_version_get) equals
   [result_of (best (all_entries s) k q)].

   [get] is a first-hit search over [places s]: memtable, immutable memtable, the
   level-0 files newest first, the deeper levels.  Each place is a strictly sorted
   run, a seek in a sorted run finds the newest visible entry of that run, and
   [recency] makes the first place with a hit the right one. *)
From LCDB Require Import Base BaseProofs Engine EngineSpec EngineStepsBase EngineStepsInv.
Require Import Lia Sorted.
Local Open Scope N_scope.

Lemma bytes_compare_total : total_order bytes_compare.
Proof. exact (order_total_order _ bytes_compare_order). Qed.

Lemma rev_compare_total : total_order (fun a b => bytes_compare b a).
Proof. exact (order_total_order _ (order_flip _ bytes_compare_order)). Qed.

Definition pick (r1 r2 : lookup) : lookup :=
  match r1 with Found v => Found v | Deleted => Deleted | NotHere => r2 end.

Definition first_found (rs : list lookup) : lookup := fold_right pick NotHere rs.

Lemma first_found_cons r rs : first_found (r :: rs) = pick r (first_found rs).
Proof. reflexivity. Qed.

Lemma first_found_app a b : first_found (a ++ b) = pick (first_found a) (first_found b).
Proof.
  induction a as [|r a IH]; cbn [app].
  - reflexivity.
  - rewrite !first_found_cons, IH. destruct r; reflexivity.
Qed.

Lemma first_found_filter {A} (g : A -> lookup) (P : A -> bool) (l : list A) :
  (forall x, In x l -> P x = false -> g x = NotHere) ->
  first_found (map g (filter P l)) = first_found (map g l).
Proof.
  induction l as [|x l IH]; intros H; cbn [filter map].
  - reflexivity.
  - assert (IH' : first_found (map g (filter P l)) = first_found (map g l)).
    { apply IH. intros y Hy. apply H. right. exact Hy. }
    destruct (P x) eqn:HP.
    + cbn [map]. rewrite !first_found_cons, IH'. reflexivity.
    + rewrite first_found_cons, (H x (or_introl eq_refl) HP), IH'. reflexivity.
Qed.

Lemma result_of_entry_hit e : result_of_entry e <> NotHere.
Proof. unfold result_of_entry. destruct (et e); discriminate. Qed.

Lemma search_files_first_found ucmp fs k q :
  search_files ucmp fs k q = first_found (map (fun f => get_in_run ucmp (fents f) k q) fs).
Proof.
  induction fs as [|f r IH].
  - reflexivity.
  - cbn [search_files map]. rewrite first_found_cons, IH.
    destruct (get_in_run ucmp (fents f) k q); reflexivity.
Qed.

Lemma deeper_get_first_found ucmp lv k q :
  deeper_get ucmp lv k q = first_found (map (fun fs => level_get ucmp fs k q) lv).
Proof.
  induction lv as [|fs r IH].
  - reflexivity.
  - cbn [deeper_get map]. rewrite first_found_cons, IH.
    destruct (level_get ucmp fs k q); reflexivity.
Qed.

Section Read.
Variable ucmp : bytes -> bytes -> comparison.
Hypothesis TO : total_order ucmp.

Notation Srt := (EngineStepsBase.Srt ucmp).
Notation NO := (EngineStepsBase.NO ucmp).
Notation is_best := (EngineStepsBase.is_best ucmp).
Notation FOK := (EngineStepsInv.FOK ucmp).
Notation SInv := (EngineStepsInv.SInv ucmp).

Lemma ucmp_refl a : ucmp a a = Eq.
Proof. apply (to_refl ucmp TO). Qed.

(* the lookup target is an internal key, and the seek predicate the internal order against it *)
Lemma ge_target_ilt k q e : ge_target ucmp k q e = negb (ilt ucmp e (mkE k q true [])).
Proof.
  unfold ge_target, ilt, icmp. cbn [ek es]. destruct (ucmp (ek e) k); try reflexivity.
  rewrite N.leb_compare, (N.compare_antisym (es e) q). destruct (es e ?= q); reflexivity.
Qed.

Lemma ge_target_spec k q e :
  ge_target ucmp k q e = true <->
  (ucmp (ek e) k = Gt \/ (ucmp (ek e) k = Eq /\ es e <= q)).
Proof. rewrite ge_target_ilt, negb_true_iff. exact (ilt_false_iff ucmp e (mkE k q true [])). Qed.

Lemma matches_key_ne k q e : ucmp (ek e) k <> Eq -> matches ucmp k q e = false.
Proof.
  intros H. destruct (matches ucmp k q e) eqn:M; [|reflexivity].
  apply (matches_iff ucmp) in M. destruct M as [M _]. apply (ueq_iff ucmp) in M. contradiction.
Qed.

Lemma key_gt_mono k x e : ucmp (ek x) k = Gt -> ilt ucmp e x = false -> ucmp (ek e) k = Gt.
Proof.
  intros Hx Hle. apply (ilt_false_iff ucmp) in Hle. destruct Hle as [Hgt|[Heq _]].
  - exact (cmp_gt_trans TO _ _ _ Hgt Hx).
  - rewrite (cmp_eq_l TO _ _ k Heq). exact Hx.
Qed.

Lemma ge_target_mono_le k q x y :
  ilt ucmp y x = false -> ge_target ucmp k q x = true -> ge_target ucmp k q y = true.
Proof.
  rewrite !ge_target_ilt, !negb_true_iff. intros Hle Hge. exact (ile_trans ucmp _ x y Hge Hle).
Qed.

Lemma ge_target_mono k q x y :
  ilt ucmp x y = true -> ge_target ucmp k q x = true -> ge_target ucmp k q y = true.
Proof. intros Hlt. apply ge_target_mono_le, (ilt_asym ucmp), Hlt. Qed.

Definition seek_hit (l : list entry) (k : bytes) (q : N) : option entry :=
  match seek_ge ucmp l k q with
  | Some e => if ueq ucmp (ek e) k then Some e else None
  | None => None
  end.

Lemma get_in_run_seek_hit l k q : get_in_run ucmp l k q = result_of (seek_hit l k q).
Proof.
  unfold get_in_run, seek_hit. destruct (seek_ge ucmp l k q) as [e|]; [|reflexivity].
  destruct (ueq ucmp (ek e) k); reflexivity.
Qed.

Lemma seek_hit_cons x r k q :
  seek_hit (x :: r) k q =
  if ge_target ucmp k q x then (if ueq ucmp (ek x) k then Some x else None) else seek_hit r k q.
Proof.
  unfold seek_hit, seek_ge. cbn [find]. destruct (ge_target ucmp k q x); reflexivity.
Qed.

Lemma seek_hit_best l k q : Srt l -> is_best l k q (seek_hit l k q).
Proof.
  induction l as [|x r IH]; intros Hs.
  - intros e [].
  - destruct (Srt_cons_inv ucmp _ _ Hs) as [Hr _].
    rewrite seek_hit_cons. destruct (ge_target ucmp k q x) eqn:Hge.
    + apply ge_target_spec in Hge. destruct (ueq ucmp (ek x) k) eqn:Hu.
      * (* x is the first entry of key k with sequence <= q *)
        destruct Hge as [Hgt|[_ Hle]]; [apply (ueq_iff ucmp) in Hu; congruence|].
        split; [left; reflexivity|].
        split; [apply (matches_iff ucmp); split; assumption|].
        intros e' Hin Hm'. apply (Srt_hd_newest ucmp x r e' Hs Hin).
        apply (matches_iff ucmp) in Hm'.
        exact (ueq_trans ucmp _ _ _ (proj1 Hm') (ueq_sym ucmp _ _ Hu)).
      * (* x is already beyond key k, and so is everything after it *)
        assert (Hgt : ucmp (ek x) k = Gt).
        { destruct Hge as [Hgt|[Heq _]]; [exact Hgt|]. apply (ueq_iff ucmp) in Heq. congruence. }
        intros e Hin. apply matches_key_ne.
        rewrite (key_gt_mono k x e Hgt (Srt_hd_min ucmp x r e Hs Hin)). discriminate.
    + apply (is_best_cons_nomatch ucmp); [|apply IH; exact Hr].
      destruct (matches ucmp k q x) eqn:Hm; [|reflexivity].
      apply (matches_iff ucmp) in Hm. destruct Hm as [Hk Hq]. apply (ueq_iff ucmp) in Hk.
      assert (ge_target ucmp k q x = true) by (apply ge_target_spec; right; split; assumption).
      congruence.
Qed.

Lemma get_in_run_nokey l k q :
  (forall e, In e l -> ueq ucmp (ek e) k = false) -> get_in_run ucmp l k q = NotHere.
Proof.
  intros H. unfold get_in_run, seek_ge.
  destruct (find (ge_target ucmp k q) l) as [e|] eqn:F; [|reflexivity].
  apply find_some in F. destruct F as [Hin _]. rewrite (H e Hin). reflexivity.
Qed.

Lemma get_in_run_Srt l k q : Srt l -> get_in_run ucmp l k q = result_of (best ucmp l k q).
Proof.
  intros Hs. rewrite get_in_run_seek_hit. f_equal. symmetry.
  apply (best_is ucmp); [apply (Srt_KD ucmp), Hs|apply seek_hit_best, Hs].
Qed.

Lemma get_in_run_best l k q :
  sorted_run ucmp l = true -> get_in_run ucmp l k q = result_of (best ucmp l k q).
Proof. intros Hs. apply get_in_run_Srt, (sorted_run_Srt ucmp), Hs. Qed.

(* with the places ordered by recency, the first place that has the key has its newest entry *)
Lemma first_hit k q ps :
  ForallOrdPairs NO ps ->
  result_of (best ucmp (concat ps) k q)
  = first_found (map (fun p => result_of (best ucmp p k q)) ps).
Proof.
  induction 1 as [|p ps Hnew _ IH]; [reflexivity|].
  cbn [concat map]. rewrite first_found_cons, <- IH, (best_app_newer ucmp)
    by (intros o m Ho Hm; apply (NO_matches ucmp p (concat ps)); [apply NO_concat, Hnew|exact Ho|exact Hm]).
  destruct (best ucmp p k q) as [x|]; [|reflexivity].
  cbn [result_of]. unfold result_of_entry. destruct (et x); reflexivity.
Qed.

(* the level-0 range test only discards files without the key *)
Lemma out_of_range_nohit f k q :
  FOK f -> in_user_range ucmp f k = false -> get_in_run ucmp (fents f) k q = NotHere.
Proof.
  intros Hok Hr. apply get_in_run_nokey. intros e He.
  destruct (ueq ucmp (ek e) k) eqn:Hk; [|reflexivity].
  rewrite (in_user_range_of ucmp f e k Hok He Hk) in Hr. discriminate.
Qed.

Lemma level_get_cons f r k q :
  level_get ucmp (f :: r) k q =
  if largest_ge_target ucmp k q f then
    match fsmallest f with
    | Some a => if ult ucmp k (ek a) then NotHere else get_in_run ucmp (fents f) k q
    | None => NotHere
    end
  else level_get ucmp r k q.
Proof. unfold level_get. cbn [find]. destruct (largest_ge_target ucmp k q f); reflexivity. Qed.

(* find_file + seek in that file = seek in the concatenation *)
Lemma level_get_eq fs k q :
  (forall f, In f fs -> FOK f) ->
  level_get ucmp fs k q = get_in_run ucmp (level_entries fs) k q.
Proof.
  induction fs as [|f r IH]; intros Hok.
  - reflexivity.
  - rewrite level_get_cons, level_entries_cons.
    pose proof (Hok f (or_introl eq_refl)) as Hf.
    destruct (FOK_ends ucmp f Hf) as (a & t & Ef & Ea & El).
    unfold largest_ge_target. rewrite El, Ea.
    destruct (ge_target ucmp k q (last t a)) eqn:Hge.
    + assert (Hfind : exists e, find (ge_target ucmp k q) (fents f) = Some e).
      { destruct (find (ge_target ucmp k q) (fents f)) as [e|] eqn:F; [exists e; reflexivity|].
        rewrite (find_none _ _ F (last t a)) in Hge; [discriminate|]. rewrite Ef. apply last_In. }
      destruct Hfind as [e He].
      assert (Hsame : get_in_run ucmp (fents f ++ level_entries r) k q
                      = get_in_run ucmp (fents f) k q).
      { unfold get_in_run, seek_ge. rewrite find_app, He. reflexivity. }
      rewrite Hsame.
      destruct (ult ucmp k (ek a)) eqn:Hult; [|reflexivity].
      symmetry. apply out_of_range_nohit; [exact Hf|].
      unfold in_user_range, ule. rewrite Ea, El.
      apply (ult_iff ucmp), (cmp_gt_lt TO) in Hult. rewrite Hult. reflexivity.
    + rewrite IH by (intros g Hg; apply Hok; right; exact Hg).
      unfold get_in_run, seek_ge. rewrite find_app_none; [reflexivity|].
      intros e He. destruct (ge_target ucmp k q e) eqn:E; [|reflexivity].
      rewrite Ef in He. destruct Hf as [_ Hs]. rewrite Ef in Hs.
      rewrite (ge_target_mono_le k q e _ (Srt_last_max ucmp a t e Hs He) E) in Hge. discriminate.
Qed.

Lemma level_get_best fs k q :
  (forall f, In f fs -> file_ok ucmp f = true) -> level_sorted ucmp fs = true ->
  level_get ucmp fs k q = result_of (best ucmp (level_entries fs) k q).
Proof.
  intros Hok Hls.
  assert (HF : Forall FOK fs).
  { apply Forall_forall. intros f Hf. apply (file_ok_FOK ucmp), Hok, Hf. }
  rewrite level_get_eq by (apply Forall_forall; exact HF).
  apply get_in_run_Srt, (level_entries_Srt ucmp); [exact HF|].
  apply (level_sorted_SS ucmp); assumption.
Qed.

Lemma get_places s k q :
  SInv s -> get ucmp s k q = first_found (map (fun p => get_in_run ucmp p k q) (places s)).
Proof.
  intros HI.
  assert (H0 : forall f, In f (level_files (levels s) 0) -> FOK f) by apply (si_fok ucmp s HI).
  assert (Hd : forall fs, In fs (skipn 1 (levels s)) -> forall f, In f fs -> FOK f).
  { intros fs Hfs f Hf. apply In_skip1_levels in Hfs. destruct Hfs as (i & _ & _ & <-).
    exact (si_fok ucmp s HI i f Hf). }
  unfold get, version_get, places. unfold level_files in *.
  pose proof (si_len ucmp s HI) as Hlen.
  destruct (levels s) as [|l0 deeper]; [discriminate|]. cbn [nth skipn] in *.
  rewrite search_files_first_found, deeper_get_first_found, sort_newest_filter.
  cbn [map]. rewrite map_app, !map_map, !first_found_cons, first_found_app.
  (* the range test drops only level-0 files without the key; a deeper level is searched as one run *)
  rewrite first_found_filter.
  - rewrite (map_ext_in _ (fun fs => get_in_run ucmp (level_entries fs) k q)); [reflexivity|].
    intros fs Hfs. apply level_get_eq, Hd, Hfs.
  - intros f Hf Hr. apply out_of_range_nohit; [|exact Hr]. apply H0, (sort_newest_In l0 f), Hf.
Qed.

Theorem get_correct : forall s k q,
  inv_b ucmp s = true ->
  get ucmp s k q = result_of (best ucmp (all_entries s) k q).
Proof.
  intros s k q Hinv. apply (inv_b_SInv ucmp) in Hinv. rewrite (get_places s k q Hinv).
  rewrite (map_ext_in _ (fun p => result_of (best ucmp p k q))).
  - rewrite <- first_hit.
    + f_equal. apply (best_ext ucmp); [apply (SInv_KD ucmp), Hinv|apply places_In].
    + apply (SInv_recency ucmp), Hinv.
  - intros p Hp. apply get_in_run_Srt.
    pose proof (places_Srt ucmp s Hinv) as HS. rewrite Forall_forall in HS. exact (HS p Hp).
Qed.

Corollary get_view : forall s k q,
  inv_b ucmp s = true ->
  visible (get ucmp s k q) = view ucmp s k q.
Proof. intros s k q Hinv. unfold view. rewrite (get_correct s k q Hinv). reflexivity. Qed.

End Read.

(* keys a b c d; "a" lives in the memtable, in two overlapping level-0 files, in
   level 1 and in level 2; "c" has a tombstone in the memtable above values in
   level 0 and level 2; "b" straddles the two level-1 files (sequence 7 ends file 7,
   sequence 6 starts file 8).  Level 0 is stored oldest file first, so the read
   path really has to reorder it. *)
Definition ka : bytes := [97].
Definition kb : bytes := [98].
Definition kc : bytes := [99].
Definition kd : bytes := [100].

Definition ex_state : state :=
  mkS [mkE ka 20 true [20]; mkE kc 19 false []]
      (Some [mkE kb 17 true [17]])
      [ [mkF 9 [mkE ka 12 false []; mkE kb 11 true [11]; mkE kc 10 true [10]];
         mkF 10 [mkE ka 15 true [15]; mkE kd 14 true [14]]];
        [mkF 7 [mkE ka 8 true [8]; mkE kb 7 true [7]];
         mkF 8 [mkE kb 6 true [6]; mkE kd 5 true [5]]];
        [mkF 4 [mkE ka 2 true [2]; mkE kc 1 true [1]]];
        []; []; []; [] ]
      20 [12; 18] 11 [].

Example ex_inv : inv_b bytes_compare ex_state = true.
Proof. reflexivity. Qed.

Example ex_a_latest : get bytes_compare ex_state ka 20 = Found [20].
Proof. reflexivity. Qed.
Example ex_a_l0_newest : get bytes_compare ex_state ka 16 = Found [15].
Proof. reflexivity. Qed.
Example ex_a_l0_tombstone : get bytes_compare ex_state ka 13 = Deleted.
Proof. reflexivity. Qed.
Example ex_a_l1 : get bytes_compare ex_state ka 9 = Found [8].
Proof. reflexivity. Qed.
Example ex_a_l2 : get bytes_compare ex_state ka 3 = Found [2].
Proof. reflexivity. Qed.
Example ex_a_before : get bytes_compare ex_state ka 1 = NotHere.
Proof. reflexivity. Qed.
Example ex_b_imm : get bytes_compare ex_state kb 20 = Found [17].
Proof. reflexivity. Qed.
Example ex_b_straddle_hi : get bytes_compare ex_state kb 7 = Found [7].
Proof. reflexivity. Qed.
Example ex_b_straddle_lo : get bytes_compare ex_state kb 6 = Found [6].
Proof. reflexivity. Qed.
Example ex_c_tombstone : get bytes_compare ex_state kc 20 = Deleted.
Proof. reflexivity. Qed.
Example ex_c_below_tombstone : get bytes_compare ex_state kc 18 = Found [10].
Proof. reflexivity. Qed.
Example ex_c_deep : get bytes_compare ex_state kc 5 = Found [1].
Proof. reflexivity. Qed.
Example ex_d : get bytes_compare ex_state kd 20 = Found [14].
Proof. reflexivity. Qed.
Example ex_absent : get bytes_compare ex_state [101] 20 = NotHere.
Proof. reflexivity. Qed.
Example ex_view_c : visible (get bytes_compare ex_state kc 20) = None.
Proof. reflexivity. Qed.

(* the theorem instantiated on the concrete state, and for the bytewise comparator of lcdb
   and its reverse (a custom comparator) *)
Example ex_get_correct : forall k q,
  get bytes_compare ex_state k q = result_of (best bytes_compare (all_entries ex_state) k q).
Proof. intros k q. apply (get_correct bytes_compare bytes_compare_total). exact ex_inv. Qed.

Theorem get_correct_bytewise : forall s k q,
  inv_b bytes_compare s = true ->
  get bytes_compare s k q = result_of (best bytes_compare (all_entries s) k q).
Proof. exact (get_correct bytes_compare bytes_compare_total). Qed.

Theorem get_correct_reverse : forall s k q,
  inv_b (fun a b => bytes_compare b a) s = true ->
  get (fun a b => bytes_compare b a) s k q
  = result_of (best (fun a b => bytes_compare b a) (all_entries s) k q).
Proof. exact (get_correct _ rev_compare_total). Qed.

Print Assumptions get_correct.
Print Assumptions get_view.
