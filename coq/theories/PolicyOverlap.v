(* PolicyOverlap.v -- ldb_version_get_overlapping_inputs (Policy.overlapping_inputs):
   - level > 0: the files overlapping the user range, in level order: a run of consecutive
     files ([ovl_seg]);
   - level 0: the restart loop ends within its fuel, and its result is the set of files
     overlapping a widened range that is closed (no selected file extends it). *)
From LCDB Require Import Base Engine EngineSpec EngineStepsBase EngineStepsInv Policy PolicyBase.
Require Import Lia.
From Coq Require Import Sorting.Sorted.
Local Open Scope N_scope.

Section PO.
Variable ucmp : bytes -> bytes -> comparison.
Context {TO : total_order ucmp}.

Notation FOK := (EngineStepsInv.FOK ucmp).
Notation FB := (EngineStepsInv.FB ucmp).
Notation ovl := (PolicyBase.ovl ucmp).
Notation within := (PolicyBase.within ucmp).
Notation wider_b := (PolicyBase.wider_b ucmp).
Notation wider_e := (PolicyBase.wider_e ucmp).

Lemma wider_ovl ub ue ub' ue' f :
  FOK f -> wider_b ub ub' -> wider_e ue ue' -> ovl ub ue f = true -> ovl ub' ue' f = true.
Proof.
  intros _ Hb He. rewrite !(ovl_iff ucmp). intros [H1 H2].
  split; [apply (wider_ble ucmp ub); assumption|apply (wider_ele ucmp ue); assumption].
Qed.

Lemma ov_scan_cons lvl0 ub ue f r : FOK f ->
  ov_scan ucmp lvl0 ub ue (f :: r) =
  if ovl ub ue f then
    if lvl0 && before_begin ucmp ub (ek (sm f)) then ScanRestart (Some (ek (sm f))) ue
    else if lvl0 && after_end ucmp ue (ek (lg f)) then ScanRestart ub (Some (ek (lg f)))
    else match ov_scan ucmp lvl0 ub ue r with
         | ScanDone l => ScanDone (f :: l)
         | x => x
         end
  else ov_scan ucmp lvl0 ub ue r.
Proof.
  intros Hf. cbn [ov_scan]. rewrite (FOK_sm ucmp f Hf), (FOK_lg ucmp f Hf).
  unfold PolicyBase.ovl.
  destruct (before_begin ucmp ub (ek (lg f))) eqn:E1; cbn [negb andb]; auto.
  destruct (after_end ucmp ue (ek (sm f))) eqn:E2; cbn [negb andb]; auto.
Qed.

Lemma ov_scan_false ub ue fs :
  Forall FOK fs -> ov_scan ucmp false ub ue fs = ScanDone (filter (ovl ub ue) fs).
Proof.
  induction 1 as [|f r Hf Hr IH]; [reflexivity|].
  rewrite (ov_scan_cons false ub ue f r Hf). cbn [filter andb].
  destruct (ovl ub ue f) eqn:E; rewrite IH; reflexivity.
Qed.

Lemma ov_fuel_S fs : ov_fuel fs = S (2 * length fs).
Proof. unfold ov_fuel. lia. Qed.

Lemma overlapping_inputs_false fs ub ue :
  Forall FOK fs -> overlapping_inputs ucmp false fs ub ue = filter (ovl ub ue) fs.
Proof.
  intros H. unfold overlapping_inputs. rewrite ov_fuel_S. cbn [ov_loop].
  rewrite (ov_scan_false ub ue fs H). reflexivity.
Qed.

(* on a sorted level they are consecutive: the level is cut where the begin test turns false and
   again where the end test turns true; what precedes them ends before the range, what follows
   starts after it *)
Lemma ovl_seg ub ue fs : Forall FOK fs -> StronglySorted FB fs ->
  exists pre post, fs = pre ++ filter (ovl ub ue) fs ++ post /\
    (forall g, In g pre -> before_begin ucmp ub (ek (lg g)) = true) /\
    (forall g, In g post -> after_end ucmp ue (ek (sm g)) = true).
Proof.
  intros HF HS. rewrite Forall_forall in HF.
  destruct (SS_cut FB (fun f => before_begin ucmp ub (ek (lg f))) fs HS) as (pre & rest & -> & Hpre & Hrest).
  { intros f g Hf Hg H. apply (before_begin_mono ucmp), (ilt_ukey ucmp), (FB_lg_lt ucmp); auto. }
  apply SS_app in HS. destruct HS as (_ & HS & _).
  destruct (SS_cut FB (fun f => negb (after_end ucmp ue (ek (sm f)))) rest HS) as (mid & post & -> & Hmid & Hpost).
  { intros f g Hf Hg H E%negb_false_iff. apply negb_false_iff. revert E.
    apply (after_end_mono ucmp), (ilt_ukey ucmp), (FB_sm_lt ucmp); auto with datatypes. }
  exists pre, post. rewrite !filter_app, (filter_false _ pre), (filter_true _ mid), (filter_false _ post).
  - rewrite app_nil_r. split; [reflexivity|]. split; [exact Hpre|]. intros g Hg. apply negb_false_iff, Hpost, Hg.
  - intros g Hg. unfold PolicyBase.ovl. rewrite (Hpost g Hg). apply andb_false_r.
  - intros g Hg. unfold PolicyBase.ovl. rewrite (Hmid g Hg), Hrest; auto with datatypes.
  - intros g Hg. unfold PolicyBase.ovl. rewrite (Hpre g Hg). reflexivity.
Qed.

(* termination measure of the restart loop: files that start before the begin bound plus files
   that end after the end bound; at most 2 * |fs|, hence ov_fuel *)
Definition mu (ub ue : option bytes) (fs : list file) : nat :=
  (length (filter (fun f => before_begin ucmp ub (ek (sm f))) fs) +
   length (filter (fun f => after_end ucmp ue (ek (lg f))) fs))%nat.

Lemma mu_lt_fuel ub ue fs : (mu ub ue fs < ov_fuel fs)%nat.
Proof.
  unfold mu. rewrite ov_fuel_S.
  pose proof (filter_length_le (fun f => before_begin ucmp ub (ek (sm f))) fs).
  pose proof (filter_length_le (fun f => after_end ucmp ue (ek (lg f))) fs).
  lia.
Qed.

(* a restart: some file of the level starts before the begin bound, which moves there,
   or ends after the end bound, which moves there *)
Definition Restart (ub ue : option bytes) (fs : list file) (ub' ue' : option bytes) : Prop :=
  exists f, In f fs /\
    ((exists u, ub = Some u /\ ucmp (ek (sm f)) u = Lt /\ ub' = Some (ek (sm f)) /\ ue' = ue) \/
     (exists u, ue = Some u /\ ucmp u (ek (lg f)) = Lt /\ ub' = ub /\ ue' = Some (ek (lg f)))).

Lemma Restart_cons ub ue f r ub' ue' : Restart ub ue r ub' ue' -> Restart ub ue (f :: r) ub' ue'.
Proof. intros (g & Hg & H). exists g. split; [right; exact Hg|exact H]. Qed.

(* a restart widens the range; the file that caused it no longer counts, and no new one does *)
Lemma Restart_wider ub ue fs ub' ue' : Restart ub ue fs ub' ue' ->
  wider_b ub ub' /\ wider_e ue ue' /\ (mu ub' ue' fs < mu ub ue fs)%nat.
Proof.
  intros (f & Hf & [(u & -> & Hlt & -> & ->)|(u & -> & Hlt & -> & ->)]); unfold mu.
  - split; [cbn [PolicyBase.wider_b]; congruence|]. split; [apply (wider_e_refl ucmp)|].
    apply Nat.add_lt_mono_r. apply (flen_strict _ _ fs f); cbn [before_begin]; auto.
    + intros g _. rewrite !(ult_iff ucmp). intros Hg. apply (cmp_lt_trans TO _ (ek (sm f))); auto.
    + unfold Engine.ult. rewrite (cmp_refl TO). reflexivity.
    + apply (ult_iff ucmp). exact Hlt.
  - split; [apply (wider_b_refl ucmp)|]. split; [cbn [PolicyBase.wider_e]; congruence|].
    apply Nat.add_lt_mono_l. apply (flen_strict _ _ fs f); cbn [after_end]; auto.
    + intros g _. rewrite !(ugt_ult ucmp), !(ult_iff ucmp). intros Hg. apply (cmp_lt_trans TO _ (ek (lg f))); auto.
    + rewrite (ugt_ult ucmp). unfold Engine.ult. rewrite (cmp_refl TO). reflexivity.
    + rewrite (ugt_ult ucmp). apply (ult_iff ucmp). exact Hlt.
Qed.

Lemma ov_scan_true_spec ub ue fs : Forall FOK fs ->
  (ov_scan ucmp true ub ue fs = ScanDone (filter (ovl ub ue) fs) /\
   forall f, In f fs -> ovl ub ue f = true -> within ub ue f = true)
  \/ exists ub' ue', ov_scan ucmp true ub ue fs = ScanRestart ub' ue' /\ Restart ub ue fs ub' ue'.
Proof.
  induction 1 as [|f r Hf Hr IH].
  - left. split; [reflexivity|]. intros f [].
  - rewrite (ov_scan_cons true ub ue f r Hf). cbn [filter andb].
    destruct (ovl ub ue f) eqn:Eo.
    + destruct (before_begin ucmp ub (ek (sm f))) eqn:Eb.
      { right. exists (Some (ek (sm f))), ue. split; [reflexivity|].
        apply (before_begin_true ucmp) in Eb. destruct Eb as (u & -> & Hlt).
        exists f. split; [left; reflexivity|]. left. exists u. auto. }
      destruct (after_end ucmp ue (ek (lg f))) eqn:Ee.
      { right. exists ub, (Some (ek (lg f))). split; [reflexivity|].
        apply (after_end_true ucmp) in Ee. destruct Ee as (u & -> & Hlt).
        exists f. split; [left; reflexivity|]. right. exists u. auto. }
      destruct IH as [[IH1 IH2] | (ub' & ue' & Hs & HR)].
      * left. rewrite IH1. split; [reflexivity|].
        intros g [<-|Hg] Hov; [|apply IH2; auto].
        unfold PolicyBase.within. rewrite Eb, Ee. reflexivity.
      * right. exists ub', ue'. rewrite Hs. split; [reflexivity|apply Restart_cons; exact HR].
    + destruct IH as [[IH1 IH2] | (ub' & ue' & Hs & HR)].
      * left. split; [exact IH1|].
        intros g [<-|Hg] Hov; [congruence|]. apply IH2; auto.
      * right. exists ub', ue'. split; [exact Hs|apply Restart_cons; exact HR].
Qed.

(* with fuel above the measure the loop ends with a ScanDone: the result does not depend
   on the extra fuel, and it is the overlap set of a closed, widened range *)
Lemma ov_loop_true_spec fuel : forall ub ue fs,
  Forall FOK fs -> (mu ub ue fs < fuel)%nat ->
  exists ub' ue', wider_b ub ub' /\ wider_e ue ue' /\
    (forall k, ov_loop ucmp (fuel + k) true fs ub ue = filter (ovl ub' ue') fs) /\
    (forall f, In f fs -> ovl ub' ue' f = true -> within ub' ue' f = true).
Proof.
  induction fuel as [|n IH]; intros ub ue fs Hfs Hmu; [lia|].
  destruct (ov_scan_true_spec ub ue fs Hfs) as [[Hs Hcl] | (ub1 & ue1 & Hs & HR)].
  - exists ub, ue. split; [apply (wider_b_refl ucmp)|]. split; [apply (wider_e_refl ucmp)|].
    split; [|exact Hcl]. intros k. cbn [Nat.add ov_loop]. rewrite Hs. reflexivity.
  - apply Restart_wider in HR. destruct HR as (Hb1 & He1 & Hdec).
    destruct (IH ub1 ue1 fs Hfs ltac:(lia)) as (ub' & ue' & Hwb & Hwe & Hk & Hcl).
    exists ub', ue'.
    split; [apply (wider_b_trans ucmp _ ub1); assumption|].
    split; [apply (wider_e_trans ucmp _ ue1); assumption|].
    split; [|exact Hcl]. intros k. cbn [Nat.add ov_loop]. rewrite Hs. apply Hk.
Qed.

Lemma ov_loop_fuel_indep fuel k lvl0 fs ub ue :
  Forall FOK fs -> (mu ub ue fs < fuel)%nat ->
  ov_loop ucmp (fuel + k) lvl0 fs ub ue = ov_loop ucmp fuel lvl0 fs ub ue.
Proof.
  intros Hfs Hmu. destruct lvl0.
  - destruct (ov_loop_true_spec fuel ub ue fs Hfs Hmu) as (ub' & ue' & _ & _ & Hk & _).
    pose proof (Hk 0%nat) as H0. rewrite Nat.add_0_r in H0. rewrite H0, Hk. reflexivity.
  - destruct fuel as [|n]; [lia|]. cbn [Nat.add ov_loop].
    rewrite (ov_scan_false ub ue fs Hfs). reflexivity.
Qed.

Theorem overlapping_inputs_fuel lvl0 fs ub ue k :
  Forall FOK fs ->
  ov_loop ucmp (ov_fuel fs + k) lvl0 fs ub ue = overlapping_inputs ucmp lvl0 fs ub ue.
Proof.
  intros Hfs. unfold overlapping_inputs.
  apply ov_loop_fuel_indep; auto. apply mu_lt_fuel.
Qed.

Theorem overlapping_inputs_lvl0 fs ub ue : Forall FOK fs ->
  exists ub' ue', wider_b ub ub' /\ wider_e ue ue' /\
    overlapping_inputs ucmp true fs ub ue = filter (ovl ub' ue') fs /\
    (forall f, In f fs -> ovl ub' ue' f = true -> within ub' ue' f = true).
Proof.
  intros Hfs.
  destruct (ov_loop_true_spec (ov_fuel fs) ub ue fs Hfs (mu_lt_fuel ub ue fs))
    as (ub' & ue' & Hwb & Hwe & Hk & Hcl).
  exists ub', ue'. repeat split; auto.
  unfold overlapping_inputs. pose proof (Hk 0%nat) as H0. rewrite Nat.add_0_r in H0. exact H0.
Qed.

End PO.
