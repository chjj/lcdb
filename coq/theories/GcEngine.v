(* GcEngine.v -- the collector of Gc.v on the versions of the engine model (Engine.v):
   no table of a reachable version that is still referenced is ever unlinked, and a table
   that the one referenced version does not list is unlinked.  Property C13. *)
From Coq Require Import List NArith Bool Lia.
From LCDB Require Import Base Filename Engine EngineSpec EngineTop Gc GcProofs.
Import ListNotations.
Local Open Scope N_scope.

Definition version_numbers (s : state) : list N := map fnum (concat (levels s)).

Section WithCmp.
Variable ucmp : bytes -> bytes -> comparison.
Hypothesis Hto : total_order ucmp.

Theorem gc_keeps_referenced_version : forall ops s st pending others dir f,
  run ucmp init_state ops = Some s ->
  next_file s <= U64 ->
  g_live st = live_of pending (version_numbers s :: others) ->
  In f (concat (levels s)) ->
  In (table_name (fnum f)) dir -> In (table_name (fnum f)) (gc st dir).
Proof.
  intros ops s st pending others dir f Hrun Hnf Hl Hf Hin.
  destruct (numbers_fresh ucmp Hto ops s Hrun) as [Hlt _].
  assert (Hb : fnum f < U64) by (specialize (Hlt f Hf); lia).
  apply (proj1 (gc_keeps_pinned_tables st pending (version_numbers s :: others) (version_numbers s) (fnum f) dir
                  Hl (or_introl eq_refl) (in_map fnum _ _ Hf) Hb)). exact Hin.
Qed.

Theorem gc_keeps_new_outputs : forall ops s st pending others dir n,
  run ucmp init_state ops = Some s ->
  g_live st = live_of pending (version_numbers s :: others) ->
  In n pending -> n < U64 ->
  In (table_name n) dir -> In (table_name n) (gc st dir).
Proof.
  intros ops s st pending others dir n _ Hl Hp Hb Hin.
  apply (proj1 (gc_keeps_pending_outputs st pending (version_numbers s :: others) n dir Hl Hp Hb)). exact Hin.
Qed.

End WithCmp.

Theorem gc_removes_dropped_table : forall s' st dir n,
  ~ In n (version_numbers s') -> n < U64 ->
  g_live st = live_of [] [version_numbers s'] ->
  In (table_name n) dir ->
  In (table_name n) (gc_removed st dir) /\ ~ In (table_name n) (gc st dir).
Proof.
  intros s' st dir n Hnot Hb Hl Hin.
  destruct (gc_removes_unreferenced_tables st [] [version_numbers s'] n dir Hl) as [H1 [_ H3]].
  - intros [].
  - intros v [Hv|[]]. subst v. exact Hnot.
  - exact Hb.
  - split; [apply H3; exact Hin|exact H1].
Qed.
