(* EngineStepsBase.v -- what the engine proofs share below the invariant: the model's insertion
   sorts and neighbour tests as instances of [ins] and [adj]; level 0 in search order
   (sort_newest); then, over a user order: the internal-key order [ilt]; strictly sorted runs
   [Srt]; [best] and its Prop reading [is_best]; [NO], the Prop form of newer_outside, and
   [recency]. *)
From LCDB Require Export BaseProofs.
From LCDB Require Import Base Engine EngineSpec.
From Coq Require Import Sorting.Sorted Permutation.
Require Import Lia.
Local Open Scope N_scope.

Existing Class total_order.

(* EngineSpec.total_order is BaseProofs.order on byte strings *)
Lemma total_order_order ucmp : total_order ucmp -> order ucmp.
Proof.
  intros [_ He Ho Ht]. exact (Build_order Ho Ht (fun a b c H => proj1 (He a b H c))).
Qed.
Coercion total_order_order : total_order >-> order.

Lemma order_total_order ucmp : order ucmp -> total_order ucmp.
Proof.
  intros O. constructor; [exact (cmp_refl O)| |exact (cmp_opp O)|exact (cmp_lt_trans O)].
  intros a b H c. exact (conj (cmp_eq_l O a b c H) (cmp_eq_r O a b c H)).
Qed.

(* The insertion sorts of the model (entries by internal key, the files of a level by
   smallest key, level-0 files by number) are instances of one function. *)
Section Ins.
Context {A : Type} (before : A -> A -> bool).
Fixpoint ins (e : A) (l : list A) : list A :=
  match l with
  | [] => [e]
  | x :: r => if before e x then e :: l else x :: ins e r
  end.
End Ins.

(* The sortedness tests of the model (entries by internal key, the files of a level by their end
   keys, snapshot sequences, output numbers) compare neighbours: instances of one function too.
   The test decides R, and R is transitive, on the elements of the list. *)
Section Adj.
Context {A : Type} (rb : A -> A -> bool).
Fixpoint adj (l : list A) : bool :=
  match l with
  | [] => true
  | x :: r => (match r with [] => true | y :: _ => rb x y end) && adj r
  end.

Lemma adj_SS (R : A -> A -> Prop) l :
  (forall x y, In x l -> In y l -> (rb x y = true <-> R x y)) ->
  (forall x y z, In x l -> In y l -> In z l -> R x y -> R y z -> R x z) ->
  (adj l = true <-> StronglySorted R l).
Proof.
  induction l as [|x r IH]; intros Hd Ht.
  - split; intros; [constructor|reflexivity].
  - cbn [adj]. rewrite andb_true_iff, (IH (fun a b Ha Hb => Hd a b (in_cons _ _ _ Ha) (in_cons _ _ _ Hb))
      (fun a b c Ha Hb Hc => Ht a b c (in_cons _ _ _ Ha) (in_cons _ _ _ Hb) (in_cons _ _ _ Hc))). split.
    + intros [H1 H2]. constructor; [exact H2|]. destruct r as [|y r']; [constructor|].
      apply Hd in H1; [|left; reflexivity|right; left; reflexivity]. inversion H2 as [|? ? _ Hy]; subst.
      constructor; [exact H1|]. rewrite Forall_forall in *. intros z Hz.
      apply (Ht x y z); auto using in_eq, in_cons.
    + intros H. inversion H as [|? ? H2 Hx]; subst. split; [|exact H2].
      destruct r as [|y r']; [reflexivity|]. apply Hd; [left; reflexivity|right; left; reflexivity|].
      inversion Hx; assumption.
Qed.
End Adj.

Lemma strictly_increasing_SS l : strictly_increasing l = true <-> StronglySorted N.lt l.
Proof. exact (adj_SS N.ltb N.lt l (fun x y _ _ => N.ltb_lt x y) (fun x y z _ _ _ => N.lt_trans x y z)). Qed.

Lemma sorted_le_SS l : sorted_le l = true <-> StronglySorted N.le l.
Proof. exact (adj_SS N.leb N.le l (fun x y _ _ => N.leb_le x y) (fun x y z _ _ _ => N.le_trans x y z)). Qed.

Lemma ins_Perm {A} (before : A -> A -> bool) e l : Permutation (ins before e l) (e :: l).
Proof.
  induction l as [|y r IH]; cbn [ins]; auto.
  destruct (before e y); auto.
  eapply perm_trans. apply perm_skip, IH. apply perm_swap.
Qed.

Lemma ins_In {A} (before : A -> A -> bool) e l x : In x (ins before e l) <-> x = e \/ In x l.
Proof.
  split; intros H.
  - apply (Permutation_in _ (ins_Perm before e l)) in H. destruct H; auto.
  - apply (Permutation_in _ (Permutation_sym (ins_Perm before e l))). destruct H; [left|right]; auto.
Qed.

(* transitivity is asked for only where it is used: from e through an element of l *)
Lemma ins_SS {A} (R : A -> A -> Prop) (before : A -> A -> bool) e l :
  StronglySorted R l ->
  (forall x, In x l -> if before e x then R e x else R x e) ->
  (forall x y, In x l -> In y l -> R e x -> R x y -> R e y) ->
  StronglySorted R (ins before e l).
Proof.
  induction l as [|y r IH]; intros HS Hc Ht; cbn [ins].
  - constructor; constructor.
  - inversion HS as [|? ? HS' Hy]; subst. pose proof (Hc y (or_introl eq_refl)) as Hey.
    rewrite Forall_forall in Hy. destruct (before e y).
    + constructor; auto. constructor; auto. apply Forall_forall. intros z Hz.
      apply (Ht y z); auto. left; auto. right; auto.
    + constructor.
      * apply IH; auto. intros x Hx. apply Hc. right; auto.
        intros x z Hx Hz. apply Ht; right; auto.
      * apply Forall_forall. intros z Hz. apply ins_In in Hz. destruct Hz as [->|Hz]; auto.
Qed.

Lemma sort_newest_Perm l : Permutation (sort_newest l) l.
Proof.
  induction l as [|f r IH]; cbn [sort_newest fold_right]; auto.
  fold (sort_newest r). eapply perm_trans. apply (ins_Perm (fun f g => fnum g <? fnum f)). auto.
Qed.

Lemma sort_newest_In l f : In f (sort_newest l) <-> In f l.
Proof.
  split; apply Permutation_in; [|symmetry]; apply sort_newest_Perm.
Qed.

(* file numbers descending: the order of sort_newest *)
Definition Desc (f g : file) : Prop := fnum g <= fnum f.

Lemma insert_newest_sorted f l :
  StronglySorted Desc l -> StronglySorted Desc (insert_newest f l).
Proof.
  intros H. change (insert_newest f l) with (ins (fun f g => fnum g <? fnum f) f l).
  apply ins_SS; auto; unfold Desc.
  - intros g _. destruct (N.ltb_spec (fnum g) (fnum f)); lia.
  - intros x y _ _. lia.
Qed.

Lemma sort_newest_sorted l : StronglySorted Desc (sort_newest l).
Proof.
  induction l as [|f r IH]; cbn [sort_newest fold_right]. constructor.
  apply insert_newest_sorted; auto.
Qed.

Lemma insert_newest_head f l :
  (forall x, In x l -> fnum x < fnum f) -> insert_newest f l = f :: l.
Proof.
  intros H. destruct l as [|y t]; cbn [insert_newest]; [reflexivity|].
  assert (E : fnum y <? fnum f = true) by (apply N.ltb_lt, H; left; reflexivity).
  rewrite E. reflexivity.
Qed.

Lemma filter_insert_newest (P : file -> bool) f l :
  StronglySorted Desc l ->
  filter P (insert_newest f l) = if P f then insert_newest f (filter P l) else filter P l.
Proof.
  induction l as [|g r IH]; intros HS.
  - cbn [insert_newest filter]. destruct (P f); reflexivity.
  - apply StronglySorted_inv in HS. destruct HS as [HSr Hall].
    cbn [insert_newest]. destruct (fnum g <? fnum f) eqn:E.
    + apply N.ltb_lt in E.
      change (filter P (f :: g :: r)) with (if P f then f :: filter P (g :: r) else filter P (g :: r)).
      destruct (P f); [|reflexivity].
      symmetry. apply insert_newest_head. intros x Hx. apply filter_In in Hx. destruct Hx as [Hx _].
      destruct Hx as [<-|Hx]; [lia|].
      rewrite Forall_forall in Hall. specialize (Hall x Hx). unfold Desc in Hall. lia.
    + change (filter P (g :: insert_newest f r))
        with (if P g then g :: filter P (insert_newest f r) else filter P (insert_newest f r)).
      rewrite (IH HSr).
      change (filter P (g :: r)) with (if P g then g :: filter P r else filter P r).
      destruct (P g); destruct (P f); try reflexivity.
      cbn [insert_newest]. rewrite E. reflexivity.
Qed.

Lemma sort_newest_filter (P : file -> bool) l :
  sort_newest (filter P l) = filter P (sort_newest l).
Proof.
  induction l as [|f l IH].
  - reflexivity.
  - change (sort_newest (f :: l)) with (insert_newest f (sort_newest l)).
    rewrite (filter_insert_newest P f _ (sort_newest_sorted l)).
    cbn [filter]. destruct (P f).
    + change (sort_newest (f :: filter P l)) with (insert_newest f (sort_newest (filter P l))).
      rewrite IH. reflexivity.
    + exact IH.
Qed.

Lemma NoDup_nums_FOP l : NoDup (map fnum l) <-> ForallOrdPairs (fun f g => fnum f <> fnum g) l.
Proof. rewrite NoDup_FOP, FOP_map. reflexivity. Qed.

Section Base.
Variable ucmp : bytes -> bytes -> comparison.
Context {TO : total_order ucmp}.

Notation ueq := (Engine.ueq ucmp).
Notation ult := (Engine.ult ucmp).
Notation ule := (Engine.ule ucmp).
Notation ilt := (Engine.ilt ucmp).

Lemma ueq_iff a b : ueq a b = true <-> ucmp a b = Eq.
Proof. unfold Engine.ueq. destruct (ucmp a b); split; congruence. Qed.
Lemma ult_iff a b : ult a b = true <-> ucmp a b = Lt.
Proof. apply cmp_ltb_iff. Qed.
Lemma ule_iff a b : ule a b = true <-> ucmp a b <> Gt.
Proof. unfold Engine.ule. destruct (ucmp a b); split; congruence. Qed.

Lemma ueq_refl a : ueq a a = true.
Proof. apply ueq_iff, (cmp_refl TO). Qed.
Lemma ueq_sym a b : ueq a b = true -> ueq b a = true.
Proof. rewrite !ueq_iff. apply (cmp_eq_sym TO). Qed.
Lemma ueq_trans a b c : ueq a b = true -> ueq b c = true -> ueq a c = true.
Proof. rewrite !ueq_iff. intros H1 H2. rewrite (cmp_eq_l TO a b c H1). exact H2. Qed.
Lemma ule_ueq a b : ucmp b a <> Gt -> ule a b = ueq a b.
Proof.
  intros H. unfold Engine.ule, Engine.ueq. rewrite (cmp_opp TO b a) in H.
  destruct (ucmp a b); cbn in H; congruence.
Qed.

(* the internal-key order: user key, then sequence downwards *)
Lemma icmp_order : order (Engine.icmp ucmp).
Proof. exact (lex_order ucmp ek _ TO (order_on es _ (order_flip _ N_order))). Qed.

Lemma ilt_iff a b :
  ilt a b = true <-> ucmp (ek a) (ek b) = Lt \/ (ucmp (ek a) (ek b) = Eq /\ es b < es a).
Proof.
  (* [es b < es a] is [N.compare (es b) (es a) = Lt] by definition *)
  exact (iff_trans (cmp_ltb_iff a b) (lex_lt_iff ucmp ek (fun a b => N.compare (es b) (es a)) a b)).
Qed.

Lemma icmp_eq_iff a b : Engine.icmp ucmp a b = Eq <-> ucmp (ek a) (ek b) = Eq /\ es a = es b.
Proof.
  unfold Engine.icmp. destruct (ucmp (ek a) (ek b)).
  - rewrite N.compare_eq_iff. split; [intros H; split; [reflexivity|congruence]|intros [_ H]; congruence].
  - split; [discriminate|intros [H _]; discriminate].
  - split; [discriminate|intros [H _]; discriminate].
Qed.

Lemma ilt_false_iff a b :
  ilt a b = false <-> ucmp (ek a) (ek b) = Gt \/ (ucmp (ek a) (ek b) = Eq /\ es a <= es b).
Proof.
  unfold Engine.ilt, Engine.icmp.
  destruct (ucmp (ek a) (ek b)).
  - destruct (N.compare_spec (es b) (es a)); split; intros H1; try discriminate; auto;
      try (right; split; auto; lia);
      destruct H1 as [H1|[_ H1]]; try discriminate; lia.
  - split; try discriminate. intros [H|[H _]]; discriminate.
  - split; auto.
Qed.

Lemma ilt_trans a b c : ilt a b = true -> ilt b c = true -> ilt a c = true.
Proof. exact (cmp_ltb_trans icmp_order a b c). Qed.

Lemma ilt_irrefl a : ilt a a = false.
Proof. exact (cmp_ltb_irrefl icmp_order a). Qed.

(* [ilt b a = false] reads a <= b *)
Lemma ile_lt_trans a b c : ilt b a = false -> ilt b c = true -> ilt a c = true.
Proof. exact (cmp_leb_ltb_trans icmp_order a b c). Qed.

Lemma ilt_le_trans a b c : ilt a b = true -> ilt c b = false -> ilt a c = true.
Proof. exact (cmp_ltb_leb_trans icmp_order a b c). Qed.

Lemma ile_trans a b c : ilt b a = false -> ilt c b = false -> ilt c a = false.
Proof. exact (cmp_leb_trans icmp_order a b c). Qed.

Lemma ilt_asym a b : ilt a b = true -> ilt b a = false.
Proof. exact (cmp_ltb_asym icmp_order a b). Qed.

Lemma ilt_ueq_seq a b : ilt a b = true -> ueq (ek a) (ek b) = true -> es b < es a.
Proof.
  rewrite ilt_iff, ueq_iff. intros [H|[_ H]] H2; auto. congruence.
Qed.

Lemma ilt_ukey a b : ilt a b = true -> ucmp (ek a) (ek b) <> Gt.
Proof. rewrite ilt_iff. intros [H|[H _]]; congruence. Qed.
Lemma ile_ukey a b : ilt b a = false -> ucmp (ek a) (ek b) <> Gt.
Proof.
  rewrite ilt_false_iff, (cmp_opp TO (ek b) (ek a)).
  destruct (ucmp (ek a) (ek b)); cbn; intros [H|[H _]]; congruence.
Qed.

Lemma ilt_total a b : ilt a b = false -> ilt b a = false -> ueq (ek a) (ek b) = true /\ es a = es b.
Proof.
  rewrite !ilt_false_iff, ueq_iff, (cmp_opp TO (ek b) (ek a)).
  destruct (ucmp (ek a) (ek b)); cbn; intros [H1|[H1 H1']] [H2|[H2 H2']]; try discriminate.
  split; auto; lia.
Qed.

(* strictly sorted by internal key (Prop form of sorted_run) *)
Definition Srt (l : list entry) : Prop := StronglySorted (fun a b => ilt a b = true) l.

Lemma sorted_run_Srt l : sorted_run ucmp l = true <-> Srt l.
Proof. exact (adj_SS ilt _ l (fun _ _ _ _ => iff_refl _) (fun x y z _ _ _ => ilt_trans x y z)). Qed.

Lemma Srt_nil : Srt [].
Proof. constructor. Qed.

Lemma Srt_cons_inv a l : Srt (a :: l) -> Srt l /\ forall x, In x l -> ilt a x = true.
Proof.
  intros H. inversion H; subst. split; auto. apply Forall_forall; auto.
Qed.

Lemma Srt_cons a l : Srt l -> (forall x, In x l -> ilt a x = true) -> Srt (a :: l).
Proof. intros H1 H2. constructor; auto. apply Forall_forall; auto. Qed.

Lemma Srt_app a b : Srt (a ++ b) <-> Srt a /\ Srt b /\ forall x y, In x a -> In y b -> ilt x y = true.
Proof. exact (SS_app _ a b). Qed.

Lemma Srt_filter f l : Srt l -> Srt (filter f l).
Proof. exact (SS_filter _ f l). Qed.

Lemma Srt_firstn n l : Srt l -> Srt (firstn n l).
Proof.
  intros H. rewrite <- (firstn_skipn n l) in H. apply Srt_app in H. apply H.
Qed.
Lemma Srt_skipn n l : Srt l -> Srt (skipn n l).
Proof.
  intros H. rewrite <- (firstn_skipn n l) in H. apply Srt_app in H. apply H.
Qed.
Lemma Srt_firstn_skipn n l x y : Srt l -> In x (firstn n l) -> In y (skipn n l) -> ilt x y = true.
Proof.
  intros H. rewrite <- (firstn_skipn n l) in H. apply Srt_app in H. apply H.
Qed.

Lemma Srt_hd_newest a r x : Srt (a :: r) -> In x (a :: r) -> ueq (ek x) (ek a) = true -> es x <= es a.
Proof.
  intros H [<-|Hx] Hk; [apply N.le_refl|]. apply Srt_cons_inv in H.
  apply N.lt_le_incl, (ilt_ueq_seq a x (proj2 H x Hx) (ueq_sym _ _ Hk)).
Qed.

Lemma Srt_hd_min a r x : Srt (a :: r) -> In x (a :: r) -> ilt x a = false.
Proof.
  intros H Hx. apply Srt_cons_inv in H. destruct H as [_ H].
  destruct Hx as [Hx|Hx]; subst. apply ilt_irrefl. apply ilt_asym; auto.
Qed.

Lemma Srt_last_max a r x : Srt (a :: r) -> In x (a :: r) -> ilt (last r a) x = false.
Proof.
  revert a x. induction r as [|y r IH]; intros a x H Hx.
  - cbn [last]. destruct Hx as [Hx|[]]; subst. apply ilt_irrefl.
  - rewrite last_cons. pose proof H as H0.
    apply Srt_cons_inv in H. destruct H as [H1 H2].
    destruct Hx as [Hx|Hx]; subst; auto.
    apply ilt_asym. apply H2. apply last_In.
Qed.

Lemma Srt_ends_lt a r b t x y :
  Srt (a :: r) -> Srt (b :: t) -> ilt (last r a) b = true ->
  In x (a :: r) -> In y (b :: t) -> ilt x y = true.
Proof.
  intros Ha Hb H Hx Hy. eapply ile_lt_trans; [exact (Srt_last_max a r x Ha Hx)|].
  eapply ilt_le_trans; [exact H|exact (Srt_hd_min b t y Hb Hy)].
Qed.

Lemma Srt_ends_ult a r b t x y :
  Srt (a :: r) -> Srt (b :: t) -> ucmp (ek (last r a)) (ek b) = Lt ->
  In x (a :: r) -> In y (b :: t) -> ucmp (ek x) (ek y) = Lt.
Proof.
  intros Ha Hb H Hx Hy.
  eapply (cmp_lt_le TO); [|exact (ile_ukey _ _ (Srt_hd_min b t y Hb Hy))].
  eapply (cmp_le_lt TO); [exact (ile_ukey _ _ (Srt_last_max a r x Ha Hx))|exact H].
Qed.

Lemma insert_sorted_In e l x : In x (insert_sorted ucmp e l) <-> x = e \/ In x l.
Proof. exact (ins_In ilt e l x). Qed.

Lemma insert_sorted_Perm e l : Permutation (insert_sorted ucmp e l) (e :: l).
Proof. exact (ins_Perm ilt e l). Qed.

Lemma insert_sorted_Srt e l :
  Srt l -> (forall x, In x l -> ilt e x = true \/ ilt x e = true) -> Srt (insert_sorted ucmp e l).
Proof.
  intros HS Hc. change (insert_sorted ucmp e l) with (ins ilt e l). apply ins_SS; auto.
  - intros x Hx. destruct (ilt e x) eqn:E; auto. destruct (Hc x Hx); congruence.
  - intros x y _ _. apply ilt_trans.
Qed.

Lemma fold_insert_In (m im : list entry) x :
  In x (fold_right (insert_sorted ucmp) m im) <-> In x im \/ In x m.
Proof.
  induction im as [|y r IH]; cbn [fold_right].
  - cbn [In]. tauto.
  - rewrite insert_sorted_In, IH. cbn [In]. intuition.
Qed.

Lemma sort_entries_In l x : In x (sort_entries ucmp l) <-> In x l.
Proof. unfold sort_entries. rewrite fold_insert_In. cbn [In]. tauto. Qed.

Lemma sort_entries_length l : length (sort_entries ucmp l) = length l.
Proof.
  induction l as [|a r IH]; [reflexivity|].
  change (sort_entries ucmp (a :: r)) with (insert_sorted ucmp a (sort_entries ucmp r)).
  rewrite (Permutation_length (insert_sorted_Perm a _)). cbn [length]. rewrite IH. reflexivity.
Qed.

(* pairwise comparable (no two entries with equal internal key) *)
Definition Cmp (a b : entry) : Prop := ilt a b = true \/ ilt b a = true.

Lemma ueq_seq_Cmp x y : (ueq (ek x) (ek y) = true -> es x <> es y) -> Cmp x y.
Proof.
  intros H. unfold Cmp. rewrite !ilt_iff, (cmp_opp TO (ek y) (ek x)).
  rewrite ueq_iff in H.
  destruct (ucmp (ek x) (ek y)); cbn [CompOpp]; auto.
  specialize (H eq_refl).
  destruct (N.lt_trichotomy (es x) (es y)) as [H1|[H1|H1]]; auto; try contradiction.
Qed.

(* inserting pairwise comparable entries, all comparable with those of a sorted list *)
Lemma fold_insert_Srt (m im : list entry) :
  Srt m -> ForallOrdPairs Cmp im -> (forall x y, In x im -> In y m -> Cmp x y) ->
  Srt (fold_right (insert_sorted ucmp) m im).
Proof.
  intros Hm Hp. induction Hp as [|y r Hy Hr IH]; intros Hc; cbn [fold_right]; auto.
  apply insert_sorted_Srt.
  - apply IH. intros; apply Hc; auto. right; auto.
  - intros x Hx. rewrite fold_insert_In in Hx. destruct Hx as [Hx|Hx].
    + rewrite Forall_forall in Hy. exact (Hy x Hx).
    + apply Hc; auto. left; auto.
Qed.

Lemma sort_entries_Srt l : ForallOrdPairs Cmp l -> Srt (sort_entries ucmp l).
Proof. intros H. apply fold_insert_Srt; [apply Srt_nil|exact H|intros x y _ []]. Qed.

Lemma matches_iff k q e : matches ucmp k q e = true <-> ueq (ek e) k = true /\ es e <= q.
Proof. unfold matches. rewrite andb_true_iff. rewrite N.leb_le. reflexivity. Qed.

Lemma best_cons e l k q :
  best ucmp (e :: l) k q = if matches ucmp k q e then newer e (best ucmp l k q) else best ucmp l k q.
Proof. reflexivity. Qed.

(* "o is the newest entry of user key k with sequence <= q in l": what get, the views and the
   live view all speak of; [best] computes it *)
Definition is_best (l : list entry) (k : bytes) (q : N) (o : option entry) : Prop :=
  match o with
  | None => forall e, In e l -> matches ucmp k q e = false
  | Some e => In e l /\ matches ucmp k q e = true /\
              forall e', In e' l -> matches ucmp k q e' = true -> es e' <= es e
  end.

Lemma is_best_cons_nomatch x l k q o :
  matches ucmp k q x = false -> is_best l k q o -> is_best (x :: l) k q o.
Proof.
  intros Hx H. destruct o as [e|]; unfold is_best in *.
  - destruct H as (Hin & Hm & Hs). split; [right; exact Hin|]. split; [exact Hm|].
    intros e' [<-|Hin'] Hm'; [congruence|]. apply Hs; assumption.
  - intros e [<-|Hin]; [exact Hx|apply H; exact Hin].
Qed.

Lemma best_weak l k q : is_best l k q (best ucmp l k q).
Proof.
  induction l as [|a l IH]; [intros e []|].
  rewrite best_cons. destruct (matches ucmp k q a) eqn:E; [|apply is_best_cons_nomatch; assumption].
  destruct (best ucmp l k q) as [b|]; cbn [newer is_best] in *.
  - destruct IH as (H1 & H2 & H3). destruct (N.ltb_spec (es b) (es a)) as [El|El]; cbn [is_best].
    + split; [left; reflexivity|]. split; [exact E|]. intros e' [<-|He] Hm; [apply N.le_refl|].
      exact (N.le_trans _ _ _ (H3 e' He Hm) (N.lt_le_incl _ _ El)).
    + split; [right; exact H1|]. split; [exact H2|]. intros e' [<-|He] Hm; [exact El|exact (H3 e' He Hm)].
  - split; [left; reflexivity|]. split; [exact E|]. intros e' [<-|He] Hm; [apply N.le_refl|].
    rewrite (IH e' He) in Hm. discriminate.
Qed.

Lemma best_Some l k q e : best ucmp l k q = Some e -> is_best l k q (Some e).
Proof. intros <-. apply best_weak. Qed.

(* recency: where a's entries that are visible at (k, q) are newer than b's, a's answer stands
   and b is asked only when a has none *)
Lemma best_app_newer a b k q :
  (forall o m, In o a -> In m b -> matches ucmp k q o = true -> matches ucmp k q m = true -> es m < es o) ->
  best ucmp (a ++ b) k q = match best ucmp a k q with Some x => Some x | None => best ucmp b k q end.
Proof.
  intros HN. induction a as [|e a IH]; [reflexivity|]. cbn [app].
  rewrite !best_cons, IH by (intros o m Ho; apply HN; right; exact Ho).
  destruct (matches ucmp k q e) eqn:Me; [|reflexivity].
  destruct (best ucmp a k q) as [x|]; cbn [newer]; [destruct (es x <? es e); reflexivity|].
  destruct (best ucmp b k q) as [y|] eqn:Ey; [|reflexivity].
  apply best_Some in Ey. destruct Ey as (Hy & My & _). cbn [newer].
  replace (es y <? es e) with true; [reflexivity|]. symmetry.
  exact (proj2 (N.ltb_lt _ _) (HN e y (or_introl eq_refl) Hy Me My)).
Qed.

(* entries of one user key with one sequence are the same entry *)
Definition KD (l : list entry) : Prop :=
  forall a b, In a l -> In b l -> ueq (ek a) (ek b) = true -> es a = es b -> a = b.

(* where no two entries share user key and sequence, [is_best] determines [best] *)
Lemma best_is l k q o : KD l -> is_best l k q o -> best ucmp l k q = o.
Proof.
  intros HK H. pose proof (best_weak l k q) as Hw.
  destruct (best ucmp l k q) as [b|], o as [e|]; cbn [is_best] in *.
  - destruct Hw as (H1 & H2 & H3), H as (Hin & Hm & Hmax). f_equal. apply HK; auto.
    + apply matches_iff in Hm, H2. eapply ueq_trans. apply H2. apply ueq_sym, Hm.
    + exact (N.le_antisymm _ _ (Hmax b H1 H2) (H3 e Hin Hm)).
  - destruct Hw as (H1 & H2 & _). rewrite (H b H1) in H2. discriminate.
  - destruct H as (H1 & H2 & _). rewrite (Hw e H1) in H2. discriminate.
  - reflexivity.
Qed.

(* it depends on the members of l and on the class of k only *)
Lemma is_best_ext l l' k k' q o :
  (forall e, In e l <-> In e l') -> ucmp k k' = Eq -> is_best l k q o -> is_best l' k' q o.
Proof.
  intros Hl Hk. assert (E: forall e, matches ucmp k' q e = matches ucmp k q e).
  { intros e. unfold matches, Engine.ueq. rewrite (cmp_eq_r TO k k' (ek e) Hk). reflexivity. }
  destruct o as [e|]; cbn [is_best]; rewrite <- ?Hl.
  - intros (H1 & H2 & H3). rewrite E. repeat split; auto. intros e'. rewrite <- Hl, E. apply H3.
  - intros H e. rewrite <- Hl, E. apply H.
Qed.

Lemma best_ext l l' k q :
  KD l' -> (forall e, In e l <-> In e l') -> best ucmp l k q = best ucmp l' k q.
Proof.
  intros HK Hiff. symmetry. apply best_is; [exact HK|].
  exact (is_best_ext l l' k k q _ Hiff (cmp_refl TO k) (best_weak l k q)).
Qed.

Lemma Srt_FOP_Cmp l : Srt l -> ForallOrdPairs Cmp l.
Proof.
  intros H. apply SS_FOP in H. eapply FOP_impl; [|exact H].
  intros x y _ _ Hxy. left. exact Hxy.
Qed.

(* pairwise comparable entries: no two of one user key and one sequence *)
Lemma Cmp_KD l : ForallOrdPairs Cmp l -> KD l.
Proof.
  intros H a b Ha Hb Hk Hs.
  assert (HC: forall x y, Cmp x y -> ueq (ek x) (ek y) = true -> es x <> es y).
  { intros x y [C|C] Hxy; [pose proof (ilt_ueq_seq _ _ C Hxy)|pose proof (ilt_ueq_seq _ _ C (ueq_sym _ _ Hxy))]; lia. }
  destruct (ForallOrdPairs_In H a b Ha Hb) as [E|[C|C]];
    [exact E|destruct (HC a b C Hk Hs)|destruct (HC b a C (ueq_sym _ _ Hk) (eq_sym Hs))].
Qed.

Lemma Srt_KD l : Srt l -> KD l.
Proof. intros HS. apply Cmp_KD, Srt_FOP_Cmp, HS. Qed.

(* Prop form of newer_outside: an entry of p is newer than every entry of its user key in p' *)
Definition NO (p p' : list entry) : Prop :=
  forall o m, In o p -> In m p' -> ueq (ek o) (ek m) = true -> es m < es o.

Lemma newer_outside_NO p p' : newer_outside ucmp p p' = true <-> NO p p'.
Proof.
  unfold newer_outside, NO. rewrite forallb_forall. split.
  - intros H o m Ho Hm Hk. specialize (H o Ho). rewrite forallb_forall in H.
    specialize (H m Hm). rewrite Hk in H. cbn in H. apply N.ltb_lt. exact H.
  - intros H o Ho. apply forallb_forall. intros m Hm.
    destruct (ueq (ek o) (ek m)) eqn:E; cbn; auto.
    apply N.ltb_lt. exact (H o m Ho Hm E).
Qed.

Lemma NO_nil_l p : NO [] p.
Proof. intros o m []. Qed.

Lemma NO_Cmp p q x y : NO p q -> In x p -> In y q -> Cmp x y.
Proof.
  intros H Hx Hy. apply ueq_seq_Cmp. intros Hk. pose proof (H x y Hx Hy Hk). lia.
Qed.

Lemma NO_matches p p' k q o m :
  NO p p' -> In o p -> In m p' -> matches ucmp k q o = true -> matches ucmp k q m = true -> es m < es o.
Proof.
  intros H Ho Hm Mo Mm. apply matches_iff in Mo, Mm.
  exact (H o m Ho Hm (ueq_trans _ _ _ (proj1 Mo) (ueq_sym _ _ (proj1 Mm)))).
Qed.

Lemma NO_sub p p' q q' : NO p q -> incl p' p -> incl q' q -> NO p' q'.
Proof. intros H Hp Hq o m Ho Hm. apply H; auto. Qed.

Lemma NO_ext p q q' : (forall e, In e q <-> In e q') -> (NO p q <-> NO p q').
Proof. intros H. split; intros HN o m Ho Hm; apply HN; auto; apply H; auto. Qed.

Lemma NO_concat p ls : Forall (NO p) ls <-> NO p (concat ls).
Proof.
  rewrite Forall_forall. split.
  - intros H o m Ho Hm. apply in_concat in Hm. destruct Hm as (l & Hl & Hm). exact (H l Hl o m Ho Hm).
  - intros H l Hl o m Ho Hm. apply H; auto. apply in_concat. eauto.
Qed.

Lemma recency_FOP ps : recency ucmp ps = true <-> ForallOrdPairs NO ps.
Proof.
  induction ps as [|p r IH]; cbn [recency].
  - split; auto. constructor.
  - rewrite andb_true_iff, IH, forallb_forall. split.
    + intros [H1 H2]. constructor; auto. apply Forall_forall. intros x Hx.
      apply newer_outside_NO; auto.
    + intros H. inversion H; subst. split; auto. intros x Hx.
      apply newer_outside_NO. rewrite Forall_forall in H2; auto.
Qed.

Lemma FOP_perm_sym {A} (R : A -> A -> Prop) (l l' : list A) :
  (forall x y, R x y -> R y x) -> Permutation l l' -> ForallOrdPairs R l -> ForallOrdPairs R l'.
Proof.
  intros Hs HP. induction HP; intros H; auto.
  - inversion H; subst. constructor; auto.
    rewrite Forall_forall in *. intros y Hy. apply H2. eapply Permutation_in; [symmetry|]; eauto.
  - inversion H; subst. inversion H3; subst. inversion H2; subst.
    constructor. constructor; auto. constructor; auto.
Qed.

(* fold_left insertion (memtable writes) is fold_right insertion of the reversed batch *)
Lemma fold_left_insert_In (es' m : list entry) x :
  In x (fold_left (fun m e => insert_sorted ucmp e m) es' m) <-> In x es' \/ In x m.
Proof. rewrite <- fold_left_rev_right, fold_insert_In, <- in_rev. reflexivity. Qed.

Lemma fold_left_insert_Srt (es' m : list entry) :
  Srt m -> ForallOrdPairs Cmp es' -> (forall x y, In x es' -> In y m -> Cmp x y) ->
  Srt (fold_left (fun m e => insert_sorted ucmp e m) es' m).
Proof.
  intros Hm Hp Hc. rewrite <- fold_left_rev_right. apply fold_insert_Srt; [exact Hm| |].
  - apply (FOP_perm_sym Cmp es' (rev es')); [|apply Permutation_rev|exact Hp].
    intros x y [H|H]; [right|left]; exact H.
  - intros x y Hx. apply Hc, in_rev, Hx.
Qed.

End Base.
