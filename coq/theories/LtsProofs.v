(* LtsProofs.v -- invariants of the concurrency model Lts.v and the theorems behind C08 / C09 / C04(b).
   See the header of Lts.v for the atomicity assumptions (A1)-(A6) of the model.

   The file opens with what the definitions of Lts.v do on the inputs that occur: queue, group, signal, mark, the
   guards of [lts_step], the store.
   Three invariants, together [Inv]: InvQ (writer queue and program counters agree; thread by thread, [qthr]), InvD
   (background work that is due is scheduled and every waiter has a waker), InvL (the ghost trace linearizes the
   published store).  InvQ and InvL are predicates of the components they read ([InvQc], [InvLc]): a step that leaves
   these alone keeps them by conversion.  The invariants read of a program counter its [stage_of]; the waiting states
   are stages asleep, and [stays] says when a thread may fall asleep (waking up is free).
   [stepped s s'] = Inv s' and the published state only [grows].  One lemma per kind of step gives [stepped]:
   [own_ok] (a thread outside the queue moves to another stage and emits its own events), [enqueue_ok], [pop_ok] (the
   head pops a group: itself, [pop1_ok], or a group commit, [publish_ok]), [stays_ok] / [nap_ok] / [running_ok] (nobody
   emits, every thread [stays] in its stage), [bgsch_ok] (ldb_maybe_schedule_compaction; after a memtable switch,
   [switch_ok]), [clear_manual_ok], [atomic_call_ok] (Snap, Release: a whole call in one step).  Two kinds go
   invariant by invariant: the head moving on inside the queue (WLeaderStart, WLeaderLog: [qthr_head], [InvD_own],
   [InvL_lead]) and CloseStart ([InvQ_upd_nq], InvD field by field, [InvL_move]).
   [step_ok] has one case per label, in the order of [lts_step]; each case applies the lemma for its kind of step.
   The theorems after [reachable_inv] each read one or two fields of [Inv], or [grows]; [no_deadlock] adds that the
   queue head, a running background call and any thread awake inside a call have a step ([head_step], [bg_enabled],
   [awake_enabled]). *)
From Coq Require Import List NArith Bool Arith Lia.
Import ListNotations.
From LCDB Require Import ListFacts Lts.

Lemma upd_eq : forall A (f : nat -> A) t v, upd f t v t = v.
Proof. intros. unfold upd. rewrite Nat.eqb_refl. reflexivity. Qed.
Lemma upd_neq : forall A (f : nat -> A) t v x, x <> t -> upd f t v x = f x.
Proof. intros A f t v x Hne. unfold upd. destruct (Nat.eqb_spec x t) as [->|_]; [contradiction|reflexivity]. Qed.
Lemma optN_eqb_refl : forall v, optN_eqb v v = true.
Proof. intros [x|]; cbn; [apply N.eqb_refl|reflexivity]. Qed.

Lemma in_queue_In : forall q t, in_queue q t = true <-> In t (map q_tid q).
Proof.
  induction q as [|e q IH]; intros t; cbn [in_queue existsb map In].
  - split; [discriminate|tauto].
  - unfold in_queue in IH. rewrite orb_true_iff, IH, Nat.eqb_eq. tauto.
Qed.
Lemma in_queue_false : forall q t, in_queue q t = false <-> ~ In t (map q_tid q).
Proof.
  intros q t. rewrite <- in_queue_In. destruct (in_queue q t); split; intro H; congruence.
Qed.
Lemma in_queue_app : forall q1 q2 t, in_queue (q1 ++ q2) t = in_queue q1 t || in_queue q2 t.
Proof. intros. unfold in_queue. apply existsb_app. Qed.
Lemma in_queue_split : forall q n t, in_queue q t = in_queue (firstn n q) t || in_queue (skipn n q) t.
Proof. intros. rewrite <- in_queue_app, firstn_skipn. reflexivity. Qed.
Lemma is_head_inv : forall q t, is_head q t = true -> exists e r, q = e :: r /\ q_tid e = t.
Proof. intros [|e q] t H; cbn in H; [discriminate|]. apply Nat.eqb_eq in H. eauto. Qed.
Lemma is_head_in_queue : forall q t, is_head q t = true -> in_queue q t = true.
Proof. intros [|e q] t H; cbn in *; [discriminate|]. rewrite H. reflexivity. Qed.
Lemma is_head_app : forall q e t, is_head (q ++ [e]) t = match q with [] => Nat.eqb (q_tid e) t | _ => is_head q t end.
Proof. intros [|x q] e t; reflexivity. Qed.
Lemma head_in_firstn : forall q t n, is_head q t = true -> 1 <= n -> In t (map q_tid (firstn n q)).
Proof. intros q t n H Hn. destruct (is_head_inv q t H) as (e & r & -> & <-). destruct n; [lia|]. left. reflexivity. Qed.
Lemma is_head_tail_false : forall e q t, NoDup (map q_tid (e :: q)) -> is_head (e :: q) t = true -> in_queue q t = false.
Proof.
  intros e q t Hnd H. cbn in H. apply Nat.eqb_eq in H. subst. apply in_queue_false.
  cbn in Hnd. inversion Hnd; assumption.
Qed.
Lemma is_head_cons : forall e q t, Nat.eqb (q_tid e) t = true -> is_head (e :: q) t = true.
Proof. intros. exact H. Qed.

Lemma group_ok_bounds : forall q n, group_ok q n = true -> 1 <= n <= length q.
Proof.
  intros [|h r] n H; cbn [group_ok] in H; [discriminate|].
  apply andb_true_iff in H as [H _]. apply andb_true_iff in H as [H _]. apply andb_true_iff in H as [H1 H2].
  apply Nat.leb_le in H1, H2. lia.
Qed.
Lemma group_ok_head_batch : forall e r n, group_ok (e :: r) n = true -> exists b, q_batch e = Some b.
Proof. intros e r n H. cbn [group_ok] in H. destruct (q_batch e); [eauto|]. rewrite andb_false_r in H. discriminate. Qed.
Lemma group_ok_app : forall q x n, group_ok q n = true -> group_ok (q ++ x) n = true.
Proof.
  intros [|h r] x n H; cbn [group_ok app] in *; [discriminate|].
  apply andb_true_iff in H as [H Hb]. apply andb_true_iff in H as [H Hf]. apply andb_true_iff in H as [H1 H2].
  apply Nat.leb_le in H1, H2. cbn [length] in H2.
  rewrite Hb, andb_true_r. rewrite firstn_app_le by lia. rewrite Hf, andb_true_r.
  apply andb_true_iff. split; [apply Nat.leb_le; lia|apply Nat.leb_le; cbn [length]; rewrite app_length; lia].
Qed.

Lemma signal_head_other : forall f q x, is_head q x = false -> signal_head f q x = f x.
Proof.
  intros f [|e q] x H; cbn in *; [reflexivity|]. unfold signal_cv. apply upd_neq.
  intro; subst. rewrite Nat.eqb_refl in H. discriminate.
Qed.
Lemma signal_head_head : forall f q x, is_head q x = true -> signal_head f q x = wake_cv (f x).
Proof.
  intros f [|e q] x H; cbn in *; [discriminate|]. apply Nat.eqb_eq in H. subst. unfold signal_cv. apply upd_eq.
Qed.
Lemma wake_cv_not_wait : forall p, wake_cv p <> PWaitCv.
Proof. intros p. unfold wake_cv. destruct p; cbn; congruence. Qed.
Lemma waits_wake_bg : forall p, waits_bg (wake_bg p) = false.
Proof. intros p. destruct p; reflexivity. Qed.
Lemma waits_mdone : forall d p, waits_bg (set_mdone d p) = waits_bg p.
Proof. intros d p. destruct p; reflexivity. Qed.

Lemma mark_group_out : forall g f l ok x, ~ In x (map q_tid g) -> mark_group f l ok g x = f x.
Proof.
  induction g as [|e g IH]; intros f l ok x Hn; cbn [mark_group]; [reflexivity|].
  cbn [map In] in Hn.
  destruct (Nat.eqb (q_tid e) l); [apply IH; tauto|].
  rewrite upd_neq by (intro; subst; tauto). apply IH; tauto.
Qed.
Lemma mark_group_leader : forall g f l ok, mark_group f l ok g l = f l.
Proof.
  induction g as [|e g IH]; intros f l ok; cbn [mark_group]; [reflexivity|].
  destruct (Nat.eqb_spec (q_tid e) l) as [He|He]; [apply IH|].
  rewrite upd_neq by congruence. apply IH.
Qed.
Lemma mark_group_in : forall g f l ok e, NoDup (map q_tid g) -> In e g -> q_tid e <> l ->
  mark_group f l ok g (q_tid e) = mark_done (is_flush e) ok (f (q_tid e)).
Proof.
  induction g as [|a g IH]; intros f l ok e Hnd Hin Hne; [contradiction|].
  cbn [map] in Hnd. inversion Hnd as [|? ? Hna Hnd']; subst.
  cbn [mark_group]. destruct Hin as [->|Hin].
  - destruct (Nat.eqb_spec (q_tid e) l) as [He|_]; [contradiction|].
    rewrite upd_eq. rewrite mark_group_out by exact Hna. reflexivity.
  - assert (q_tid e <> q_tid a) by (intro Heq; apply Hna; rewrite <- Heq; apply in_map; exact Hin).
    destruct (Nat.eqb (q_tid a) l); [apply IH; assumption|].
    rewrite upd_neq by assumption. apply IH; assumption.
Qed.

Ltac sst :=
  cbn [l_threads l_pc l_queue l_last_seq l_mem l_imm l_tables l_committed l_full l_snaps l_bgs l_bgpc l_bge l_manual l_sd l_l0 l_trace
       emit set_trace set_queue set_pc set_bg set_manual set_snaps set_sd set_bge set_l0 set_store set_publish] in *.

Ltac bool_hyps :=
  repeat match goal with
  | H : _ && _ = true |- _ => apply andb_true_iff in H; destruct H
  | H : negb _ = true |- _ => apply negb_true_iff in H
  | H : Nat.eqb _ _ = true |- _ => apply Nat.eqb_eq in H
  end.

(* H : (match x with ... end) = Some s': case on every scrutinee, in turn, that decides whether the step fires *)
Ltac step_inv H :=
  repeat (match type of H with
          | match ?x with _ => _ end = Some _ => let E := fresh "E" in destruct x eqn:E
          end; try discriminate H).

Lemma invocable_inv : forall s t, invocable s t = true -> is_thread s t = true /\ l_sd s = false /\ l_pc s t = PIdle.
Proof.
  intros s t H. unfold invocable in H. apply andb_true_iff in H as [H H3]. apply andb_true_iff in H as [H1 H2].
  apply negb_true_iff in H2. destruct (l_pc s t); try discriminate. auto.
Qed.
Lemma all_idle_inv : forall s t, all_idle s = true -> is_thread s t = true -> l_pc s t = PIdle.
Proof.
  intros s t Ha Ht. unfold all_idle in Ha. rewrite forallb_forall in Ha. apply existsb_exists in Ht.
  destruct Ht as (x & Hx & Hxe). apply Nat.eqb_eq in Hxe. subst x. specialize (Ha t Hx). destruct (l_pc s t); try discriminate. reflexivity.
Qed.
Lemma remove_one_In : forall h x l, In x (remove_one h l) -> In x l.
Proof.
  intros h x l H. unfold remove_one in H. induction l as [|a r IH]; [contradiction|].
  destruct (Nat.eqb a h); [right; exact H|]. destruct H as [H|H]; [left; exact H|right; auto].
Qed.
Lemma has_imm_false : forall s, has_imm s = false -> l_imm s = None.
Proof. intros s H. unfold has_imm in H. destruct (l_imm s); [discriminate|reflexivity]. Qed.

Lemma store_append_mem : forall s x full, l_store (set_store s (l_mem s ++ x) (l_imm s) (l_tables s) full) = l_store s ++ concat x.
Proof. intros. unfold l_store, imm_batches. sst. rewrite concat_app, !app_assoc. reflexivity. Qed.
Lemma store_switch : forall s full, l_imm s = None -> l_store (set_store s [] (Some (l_mem s)) (l_tables s) full) = l_store s.
Proof. intros s full H. unfold l_store, imm_batches. sst. rewrite H. cbn. rewrite app_nil_r. reflexivity. Qed.
Lemma store_flush : forall s im full, l_imm s = Some im -> l_store (set_store s (l_mem s) None (l_tables s ++ im) full) = l_store s.
Proof. intros s im full H. unfold l_store, imm_batches. sst. rewrite H. cbn. rewrite concat_app, app_assoc. reflexivity. Qed.

(* where a thread stands in its call.  A program counter is a stage and, for the waiting states, the fact of
   being asleep: PWaitCv and PRoomWait are PCheck asleep, P..Wait is P.. asleep; the two loops of a manual compaction
   and its done flag are one stage.  All the invariants read of a program counter is its stage, except for the three
   clauses that say when a thread may sleep (q5, q5r, d5). *)
Inductive stage :=
| GIdle | GCheck | GLog (n : nat) | GLogged (n : nat) | GDone (fl ok : bool) | GFlush | GRead (q : nat) (k : N)
| GMan | GClose | GClosed.
Definition stage_of (p : pc) : stage :=
  match p with
  | PIdle => GIdle | PCheck | PWaitCv | PRoomWait => GCheck | PLog n => GLog n | PLogged n => GLogged n
  | PDone fl ok => GDone fl ok | PFlushCheck | PFlushWait => GFlush | PRead q k => GRead q k
  | PMan _ | PManWait _ | PMan2 | PMan2Wait => GMan | PCloseCheck | PCloseWait => GClose | PClosed => GClosed
  end.

Definition queued_pc (p : pc) : bool :=
  match stage_of p with GCheck | GLog _ | GLogged _ => true | _ => false end.
Definition head_only_pc (p : pc) : bool :=
  match stage_of p with GLog _ | GLogged _ => true | _ => false end.
Lemma stage_idle : forall p, stage_of p = GIdle -> p = PIdle.
Proof. intros p H. destruct p; try discriminate H; reflexivity. Qed.

(* what the queue invariant says of one thread x with program counter p: in the queue iff in a queued stage; only the
   head builds and logs, and its group obeys the sync rule; the head never sleeps on its cv (no lost wake-up) and only
   the head stalls for room; only declared threads ever move *)
Set Implicit Arguments.
Record qthr (th : list nat) (q : list qent) (x : nat) (p : pc) : Prop := mkQthr {
  q1 : in_queue q x = queued_pc p;
  q3 : head_only_pc p = true -> is_head q x = true;
  q4 : forall n, stage_of p = GLog n \/ stage_of p = GLogged n -> group_ok q n = true;
  q5 : p = PWaitCv -> is_head q x = false;
  q5r : p = PRoomWait -> is_head q x = true;
  q6 : existsb (Nat.eqb x) th = false -> p = PIdle
}.
(* stated of the three components it reads, so that it holds of a state whatever the other fields are *)
Record InvQc (th : list nat) (q : list qent) (f : nat -> pc) : Prop := mkInvQ {
  qnd : NoDup (map q_tid q);                                         (* at most one entry per thread *)
  qt : forall x, qthr th q x (f x)
}.
Unset Implicit Arguments.
Definition InvQ (s : lstate) : Prop := InvQc (l_threads s) (l_queue s) (l_pc s).

Lemma InvQ_init : forall th, InvQ (lts_init th).
Proof. intro th. constructor; [constructor|]. intro x. constructor; cbn; intros; try discriminate; try reflexivity. destruct H; discriminate. Qed.

(* thread x may go from p to p' without a word: it stays in its stage, and if p' is asleep then either p was
   already or the sleep is justified now: on its own cv only when not the head, for room only the head, on
   background_work_finished only while a call is scheduled.  Waking up and the done flag of a manual compaction
   need no justification. *)
Definition stays (s : lstate) (x : nat) (p p' : pc) : Prop :=
  stage_of p' = stage_of p /\
  (p' = PWaitCv -> p = PWaitCv \/ is_head (l_queue s) x = false) /\
  (p' = PRoomWait -> p = PRoomWait \/ is_head (l_queue s) x = true) /\
  (waits_bg p' = true -> waits_bg p = true \/ l_bgs s = true).

Lemma stays_refl : forall s x p, stays s x p p.
Proof. intros. repeat split; auto. Qed.
Lemma stays_wake : forall s x p, stays s x p (wake p).
Proof. intros s x p. destruct p; repeat split; cbn; auto; discriminate. Qed.
Lemma stays_mdone : forall s x d p, stays s x p (set_mdone d p).
Proof. intros s x d p. destruct p; repeat split; cbn; auto; discriminate. Qed.
(* falling asleep: the three reasons of [stays] without the alternative "was asleep already" *)
Lemma stays_sleep : forall s x p', (p' = PWaitCv -> is_head (l_queue s) x = false) ->
  (p' = PRoomWait -> is_head (l_queue s) x = true) -> (waits_bg p' = true -> l_bgs s = true) -> stays s x (wake p') p'.
Proof. intros s x p' H2 H3 H4. split; [destruct p'; reflexivity|]. auto. Qed.
Lemma stays_wake_bg : forall s x p, stays s x p (wake_bg p).
Proof. intros s x p. unfold wake_bg. destruct (waits_bg p); [apply stays_wake|apply stays_refl]. Qed.
Lemma stays_trans : forall s x a b c, stays s x a b -> stays s x b c -> stays s x a c.
Proof.
  intros s x a b c (A1 & A2 & A3 & A4) (B1 & B2 & B3 & B4). repeat split; [congruence| | |]; intro H.
  - destruct (B2 H) as [E|E]; auto.
  - destruct (B3 H) as [E|E]; auto.
  - destruct (B4 H) as [E|E]; auto.
Qed.
Lemma stays_upd : forall s (f : nat -> pc) t p', stays s t (f t) p' -> forall x, stays s x (f x) (upd f t p' x).
Proof. intros s f t p' H x. unfold upd. destruct (Nat.eqb_spec x t) as [->|_]; [exact H|apply stays_refl]. Qed.

(* signalling the head's condition variable wakes it or does nothing *)
Lemma stays_signal : forall s f q x, stays s x (f x) (signal_head f q x).
Proof.
  intros s f q x. destruct (is_head q x) eqn:E; [|rewrite signal_head_other by exact E; apply stays_refl].
  rewrite signal_head_head by exact E. unfold wake_cv. destruct (waits_cv (f x)); [apply stays_wake|apply stays_refl].
Qed.

Lemma qthr_stays : forall s th x p p', qthr th (l_queue s) x p -> stays s x p p' -> qthr th (l_queue s) x p'.
Proof.
  intros s th x p p' [Q1 Q3 Q4 Q5 Q5r Q6] (H1 & H2 & H3 & _). constructor; unfold queued_pc, head_only_pc; rewrite ?H1; auto; intro H.
  - destruct (H2 H); auto.
  - destruct (H3 H); auto.
  - apply stage_idle. rewrite H1, (Q6 H). reflexivity.
Qed.
(* a thread outside the queue in a stage outside the queue *)
Lemma qthr_nq : forall th q x p, in_queue q x = false -> queued_pc p = false -> (existsb (Nat.eqb x) th = false -> p = PIdle) -> qthr th q x p.
Proof.
  intros th q x p Hi Hq Ht. constructor; unfold head_only_pc; rewrite ?Hi, ?Hq; auto; unfold queued_pc in Hq.
  - destruct (stage_of p); discriminate.
  - intros n [H|H]; rewrite H in Hq; discriminate.
  - intros ->. discriminate.
  - intros ->. discriminate.
Qed.
(* the head, awake, in any queued stage *)
Lemma qthr_head : forall th q x p p', qthr th q x p -> queued_pc p = true -> queued_pc p' = true -> is_head q x = true ->
  (forall n, stage_of p' = GLog n \/ stage_of p' = GLogged n -> group_ok q n = true) -> p' <> PWaitCv -> qthr th q x p'.
Proof.
  intros th q x p p' [Q1 _ _ _ _ Q6] Hq Hq' Hh Hg Hw. constructor; rewrite ?Q1, ?Hq, ?Hq'; auto; [contradiction|].
  intro H. rewrite (Q6 H) in Hq. discriminate.
Qed.

Lemma InvQ_upd : forall th q f t p', InvQc th q f -> qthr th q t p' -> InvQc th q (upd f t p').
Proof.
  intros th q f t p' [Q2 Qt] H. constructor; [exact Q2|]. intro x.
  unfold upd. destruct (Nat.eqb_spec x t) as [->|_]; [exact H|apply Qt].
Qed.
Lemma InvQ_stays : forall s f', InvQ s -> (forall x, stays s x (l_pc s x) (f' x)) -> InvQc (l_threads s) (l_queue s) f'.
Proof.
  intros s f' [Q2 Qt] Hs. constructor; [exact Q2|]. intro x. apply (qthr_stays s _ x _ _ (Qt x) (Hs x)).
Qed.
Lemma InvQ_upd_nq : forall s t p', InvQ s -> queued_pc (l_pc s t) = false -> queued_pc p' = false ->
  (l_pc s t = PIdle -> is_thread s t = true) -> InvQc (l_threads s) (l_queue s) (upd (l_pc s) t p').
Proof.
  intros s t p' Q H1 H2 Hi. apply (InvQ_upd _ _ _ t p' Q), qthr_nq; [rewrite (q1 (qt Q _)), H1; reflexivity|exact H2|].
  intro H. pose proof (Hi (q6 (qt Q t) H)) as H'. unfold is_thread in H'. rewrite H' in H. discriminate.
Qed.
Lemma not_queued_notin : forall s t e, InvQ s -> queued_pc (l_pc s t) = false -> In e (l_queue s) -> q_tid e <> t.
Proof.
  intros s t e Q H Hin Heq. pose proof (q1 (qt Q t)) as H1. rewrite H in H1.
  apply in_queue_false in H1. apply H1. rewrite <- Heq. apply in_map. exact Hin.
Qed.

(* a bystander of an enqueue *)
Lemma qthr_app : forall th q e x p, qthr th q x p -> x <> q_tid e -> qthr th (q ++ [e]) x p.
Proof.
  intros th q e x p [Q1 Q3 Q4 Q5 Q5r Q6] Hne.
  assert (Hx : Nat.eqb (q_tid e) x = false) by (apply Nat.eqb_neq; congruence).
  constructor; rewrite ?in_queue_app, ?is_head_app; cbn [in_queue existsb]; rewrite ?Hx, ?orb_false_r; auto.
  - intro H. specialize (Q3 H). destruct q; [discriminate|exact Q3].
  - intros n H. apply group_ok_app, (Q4 n H).
  - intro H. specialize (Q5 H). destruct q; [reflexivity|exact Q5].
  - intro H. specialize (Q5r H). destruct q; [discriminate|exact Q5r].
Qed.

Lemma InvQ_enqueue : forall s e, InvQ s -> l_pc s (q_tid e) = PIdle -> is_thread s (q_tid e) = true ->
  InvQc (l_threads s) (l_queue s ++ [e]) (upd (l_pc s) (q_tid e) PCheck).
Proof.
  intros s e Q Hidle Hth. unfold is_thread in Hth.
  assert (Hnq : in_queue (l_queue s) (q_tid e) = false) by (rewrite (q1 (qt Q _)), Hidle; reflexivity).
  constructor.
  - rewrite map_app. apply NoDup_snoc; [apply (qnd Q)|]. apply in_queue_false, Hnq.
  - intro x. unfold upd. destruct (Nat.eqb_spec x (q_tid e)) as [->|Hne]; [|apply qthr_app; [apply (qt Q)|exact Hne]].
    constructor; rewrite ?in_queue_app, ?Hnq, ?Hth; cbn; rewrite ?Nat.eqb_refl; try discriminate; [reflexivity|].
    intros n [H|H]; discriminate.
Qed.

(* a bystander of a pop: not the owner of one of the first n entries, so not the old head *)
Lemma qthr_skipn : forall th q n x p, qthr th q x p -> ~ In x (map q_tid (firstn n q)) -> is_head q x = false ->
  (p = PWaitCv -> is_head (skipn n q) x = false) -> qthr th (skipn n q) x p.
Proof.
  intros th q n x p [Q1 Q3 Q4 Q5 Q5r Q6] Hx Hnh Hw.
  assert (Hh : head_only_pc p = false) by (destruct (head_only_pc p); [rewrite Q3 in Hnh|]; auto).
  constructor; rewrite ?Hh; auto; try discriminate.
  - rewrite <- Q1, (in_queue_split q n). replace (in_queue (firstn n q) x) with false; [reflexivity|].
    symmetry. apply in_queue_false, Hx.
  - unfold head_only_pc in Hh. intros m [H|H]; rewrite H in Hh; discriminate.
  - intro H. rewrite (Q5r H) in Hnh. discriminate.
Qed.

(* who is who after the first n queue entries are popped: their owners get the program counters f1 gives them,
   nobody else was the head, and the new head is signalled *)
Lemma pop_pcs : forall q n f1, NoDup (map q_tid q) -> 1 <= n ->
  let g := firstn n q in let q' := skipn n q in let f := signal_head f1 q' in
  NoDup (map q_tid q') /\ (forall x, In x (map q_tid g) -> ~ In x (map q_tid q')) /\
  (forall x, In x (map q_tid g) -> f x = f1 x) /\
  (forall x, ~ In x (map q_tid g) -> is_head q x = false) /\
  (forall x, f x = PWaitCv -> is_head q' x = false).
Proof.
  intros q n f1 Hnd Hn g q' f. rewrite (map_firstn_skipn q_tid n) in Hnd.
  destruct (proj1 (NoDup_app_iff _ _) Hnd) as (_ & Hq' & Hdisj).
  split; [exact Hq'|]. split; [exact Hdisj|]. split; [|split].
  - intros x Hx. apply signal_head_other. destruct (is_head q' x) eqn:E; [|reflexivity].
    apply is_head_in_queue, in_queue_In in E. destruct (Hdisj x Hx E).
  - intros x Hx. destruct (is_head q x) eqn:E; [|reflexivity]. destruct Hx. apply head_in_firstn; assumption.
  - intros x H. destruct (is_head q' x) eqn:E; [|reflexivity].
    unfold f in H. rewrite signal_head_head in H by exact E. destruct (wake_cv_not_wait _ H).
Qed.

Lemma mark_done_follower : forall fl ok p, queued_pc p = true -> head_only_pc p = false -> p <> PRoomWait -> mark_done fl ok p = PDone fl ok.
Proof. intros fl ok p H1 H2 H3. destruct p; cbn in *; try discriminate; congruence. Qed.
Lemma publish_pcs : forall s t n, InvQ s -> l_pc s t = PLogged n ->
  let g := firstn n (l_queue s) in let f1 := mark_group (upd (l_pc s) t PIdle) t true g in
  1 <= n /\ In t (map q_tid g) /\ f1 t = PIdle /\
  (forall e, In e g -> q_tid e <> t -> f1 (q_tid e) = PDone (is_flush e) true) /\
  (forall x, ~ In x (map q_tid g) -> f1 x = l_pc s x).
Proof.
  intros s t n Q Hpc g f1.
  assert (Hhd : is_head (l_queue s) t = true) by (apply (q3 (qt Q _)); rewrite Hpc; reflexivity).
  assert (Hn : 1 <= n) by (apply (group_ok_bounds (l_queue s)), (q4 (qt Q t)); right; rewrite Hpc; reflexivity).
  assert (Htg : In t (map q_tid g)) by (apply head_in_firstn; assumption).
  split; [exact Hn|]. split; [exact Htg|]. split; [|split].
  - unfold f1. rewrite mark_group_leader. apply upd_eq.
  - intros e He Hne. unfold f1.
    rewrite mark_group_in; [|apply NoDup_map_firstn, (qnd Q)|exact He|exact Hne].
    rewrite upd_neq by exact Hne.
    assert (Hnh : is_head (l_queue s) (q_tid e) = false).
    { destruct (is_head_inv _ _ Hhd) as (e1 & r1 & Eq & <-). rewrite Eq. cbn. apply Nat.eqb_neq. congruence. }
    apply mark_done_follower.
    + rewrite <- (q1 (qt Q _)). apply in_queue_In, in_map. eapply In_firstn. exact He.
    + destruct (head_only_pc (l_pc s (q_tid e))) eqn:E; [|reflexivity]. rewrite (q3 (qt Q _) E) in Hnh. discriminate.
    + intro E. rewrite (q5r (qt Q _) E) in Hnh. discriminate.
  - intros x Hx. unfold f1. rewrite mark_group_out by exact Hx. apply upd_neq. intro; subst; contradiction.
Qed.

Definition care (s : lstate) : bool := l_bgs s || l_bge s || l_sd s.
Definition client_quiet (p : pc) : bool :=
  match p with PIdle | PCloseCheck | PCloseWait | PClosed => true | _ => false end.

(* d0: once shutting_down is set no client is in the middle of a call (only the closer, in its close states);
   d1: background_compaction_scheduled is set exactly while a call is queued, running or finishing;
   d2-d4: an immutable memtable, a pending manual compaction, level 0 at the trigger are taken [care] of;
   d5: nobody waits for background work unless a call is scheduled (it ends with a broadcast) *)
Record InvD (s : lstate) : Prop := mkInvD {
  d0 : l_sd s = true -> forall t, client_quiet (l_pc s t) = true;
  d1 : l_bgs s = match l_bgpc s with BIdle => false | _ => true end;
  d2 : has_imm s = true -> care s = true;
  d3 : has_manual s = true -> care s = true;
  d4 : L0_COMPACTION_TRIGGER <= l_l0 s -> care s = true;
  d5 : forall t, waits_bg (l_pc s t) = true -> l_bgs s = true
}.

(* what InvD reads of a state beside the program counters *)
Definition bg_view (s : lstate) := (l_sd s, l_bgs s, l_bgpc s, l_bge s, l_imm s, l_manual s, l_l0 s).

Lemma quiet_stage : forall p, client_quiet p = match stage_of p with GIdle | GClose | GClosed => true | _ => false end.
Proof. intro p. destruct p; reflexivity. Qed.
Lemma quiet_stays : forall s x p p', stays s x p p' -> client_quiet p' = client_quiet p.
Proof. intros s x p p' H. rewrite !quiet_stage, (proj1 H). reflexivity. Qed.

Lemma InvD_init : forall th, InvD (lts_init th).
Proof. intro th. constructor; cbn; intros; try reflexivity; try discriminate. unfold L0_COMPACTION_TRIGGER in *. lia. Qed.

Lemma care_bgs : forall s, care s = true -> l_sd s = false -> l_bge s = false -> l_bgs s = true.
Proof. intros s H Hsd Hbge. unfold care in H. rewrite Hsd, Hbge, !orb_false_r in H. exact H. Qed.
Lemma not_sd : forall s t, InvD s -> client_quiet (l_pc s t) = false -> l_sd s = false.
Proof. intros s t D H. destruct (l_sd s) eqn:E; [|reflexivity]. pose proof (d0 s D E t). congruence. Qed.

Lemma quiet_upd : forall s t p', InvD s -> client_quiet (l_pc s t) = false ->
  l_sd s = true -> forall x, client_quiet (upd (l_pc s) t p' x) = true.
Proof. intros s t p' D Hq Hsd x. rewrite (not_sd s t D Hq) in Hsd. discriminate. Qed.
Lemma waits_upd_bgs : forall s t p', InvD s -> l_bgs s = true ->
  forall x, waits_bg (upd (l_pc s) t p' x) = true -> l_bgs s = true.
Proof. auto. Qed.

Lemma InvD_frame : forall s s', InvD s -> bg_view s' = bg_view s ->
  (l_sd s = true -> forall t, client_quiet (l_pc s' t) = true) ->
  (forall t, waits_bg (l_pc s' t) = true -> l_bgs s = true) -> InvD s'.
Proof.
  intros s s' [D0 D1 D2 D3 D4 D5] Hv H0 H5. injection Hv as Hsd Hbgs Hpc Hbge Himm Hman Hl0.
  constructor; unfold care, has_imm, has_manual in *; rewrite ?Hsd, ?Hbgs, ?Hpc, ?Hbge, ?Himm, ?Hman, ?Hl0; auto.
Qed.

Lemma InvD_stays : forall s s', InvD s -> bg_view s' = bg_view s -> (forall x, stays s x (l_pc s x) (l_pc s' x)) -> InvD s'.
Proof.
  intros s s' D Hv Hs. apply (InvD_frame s s' D Hv).
  - intros Hsd x. rewrite (quiet_stays s x _ _ (Hs x)). apply (d0 s D Hsd).
  - intros x H. destruct (Hs x) as (_ & _ & _ & H4). destruct (H4 H); [apply (d5 s D x)|]; assumption.
Qed.

Lemma InvD_own : forall s s' t p', InvD s -> bg_view s' = bg_view s -> l_pc s' = upd (l_pc s) t p' ->
  (l_sd s = false \/ client_quiet p' = true) -> (waits_bg p' = true -> l_bgs s = true) -> InvD s'.
Proof.
  intros s s' t p' D Hv Hp Hq Hw. apply (InvD_frame s s' D Hv); rewrite Hp.
  - intros Hsd x. unfold upd. destruct (Nat.eqb x t); [destruct Hq; congruence|apply (d0 s D Hsd)].
  - intros x H. unfold upd in H. destruct (Nat.eqb x t); [auto|apply (d5 s D x H)].
Qed.

(* bg_schedule touches only the two background fields: after [rewrite bgsch_nf] every other field computes *)
Lemma bgsch_cases : forall s e, bg_schedule s e = s \/ bg_schedule s e = set_bg s true BQueued.
Proof. intros. unfold bg_schedule. repeat match goal with |- context [if ?c then _ else _] => destruct c end; auto. Qed.
Lemma bgsch_nf : forall s e, bg_schedule s e = set_bg s (l_bgs (bg_schedule s e)) (l_bgpc (bg_schedule s e)).
Proof. intros. destruct (bgsch_cases s e) as [-> | ->]; [destruct s|]; reflexivity. Qed.
Lemma bgsch_bgs_mono : forall s e, l_bgs s = true -> l_bgs (bg_schedule s e) = true.
Proof. intros s e H. unfold bg_schedule. rewrite H. exact H. Qed.
Lemma bgsch_care_mono : forall s e, care s = true -> care (bg_schedule s e) = true.
Proof. intros s e H. destruct (bgsch_cases s e) as [-> | ->]; [exact H|reflexivity]. Qed.
Lemma bgsch_care_work : forall s e,
  has_imm s = true \/ has_manual s = true \/ L0_COMPACTION_TRIGGER <= l_l0 s -> care (bg_schedule s e) = true.
Proof.
  intros s e H. unfold bg_schedule.
  destruct (l_bgs s) eqn:E1; [unfold care; rewrite E1; reflexivity|].
  destruct (l_sd s) eqn:E2; [unfold care; rewrite E2; apply orb_true_r|].
  destruct (l_bge s) eqn:E3; [unfold care; rewrite E3, orb_true_r; reflexivity|].
  assert (Hc : negb (has_imm s) && negb (has_manual s) && (l_l0 s <? L0_COMPACTION_TRIGGER) && negb e = false).
  { destruct H as [H|[H|H]].
    - rewrite H. reflexivity.
    - rewrite H. cbn. rewrite andb_false_r. reflexivity.
    - replace (l_l0 s <? L0_COMPACTION_TRIGGER) with false by (symmetry; apply Nat.ltb_ge; exact H).
      rewrite andb_false_r. reflexivity. }
  rewrite Hc. reflexivity.
Qed.
Lemma bgsch_d1 : forall s e, l_bgs s = match l_bgpc s with BIdle => false | _ => true end ->
  l_bgs (bg_schedule s e) = match l_bgpc (bg_schedule s e) with BIdle => false | _ => true end.
Proof. intros s e H. destruct (bgsch_cases s e) as [-> | ->]; [exact H|reflexivity]. Qed.

(* a state whose background fields are those of a fresh scheduling decision; d2-d4 need no premise: whatever is
   due gets scheduled *)
Lemma InvD_bgsch : forall s e s', bg_view s' = bg_view (bg_schedule s e) ->
  (l_sd s = true -> forall t, client_quiet (l_pc s' t) = true) ->
  l_bgs s = match l_bgpc s with BIdle => false | _ => true end ->
  (forall t, waits_bg (l_pc s' t) = true -> l_bgs s = true) -> InvD s'.
Proof.
  intros s e s' Hv H0 H1 H5. unfold bg_view in Hv. pose proof (bgsch_nf s e) as En.
  set (b := l_bgs (bg_schedule s e)) in *. set (p := l_bgpc (bg_schedule s e)) in *. rewrite En in Hv. sst.
  injection Hv as Hsd Hbgs Hpc Hbge Himm Hman Hl0.
  assert (Hw : has_imm s = true \/ has_manual s = true \/ L0_COMPACTION_TRIGGER <= l_l0 s -> care s' = true).
  { intro H. apply (bgsch_care_work s e) in H. rewrite En in H. unfold care. rewrite Hbgs, Hbge, Hsd. exact H. }
  constructor.
  - rewrite Hsd. exact H0.
  - rewrite Hbgs, Hpc. unfold b, p. apply bgsch_d1, H1.
  - unfold has_imm. rewrite Himm. intro H. apply Hw. left. exact H.
  - unfold has_manual. rewrite Hman. intro H. apply Hw. right. left. exact H.
  - rewrite Hl0. intro H. apply Hw. right. right. exact H.
  - intros t H. rewrite Hbgs. unfold b. apply bgsch_bgs_mono, (H5 t H).
Qed.

(* the trace is kept newest first.  The HISTORY of a run is its EInv/ERet events, the LINEARIZATION is the
   sequence of its ELin events. *)
Definition ev_tid (e : levent) : nat := match e with EInv t _ | ELin t _ _ | ERet t _ => t end.

(* legality: replay the linearization on the sequential specification, from the empty map *)
Fixpoint run_lin (tr : list levent) : option (list lop) :=
  match tr with
  | [] => Some []
  | e :: r => match run_lin r with
              | None => None
              | Some log => match e with ELin _ o res => spec_step log o res | _ => Some log end
              end
  end.

Inductive phase := PhIdle | PhInv (o : sop) | PhLin (o : sop) (r : lres).

Fixpoint phase_of (tr : list levent) (t : nat) : phase :=
  match tr with
  | [] => PhIdle
  | e :: r => if Nat.eqb (ev_tid e) t then
                match e with EInv _ o => PhInv o | ELin _ o res => PhLin o res | ERet _ _ => PhIdle end
              else phase_of r t
  end.

(* well-formedness = real-time order: per thread the events cycle invoke -> linearization point -> return
   (with the result fixed at the linearization point), so each operation takes effect between its invocation and
   its response *)
Fixpoint wf_trace (tr : list levent) : Prop :=
  match tr with
  | [] => True
  | e :: r => wf_trace r /\
              match e with
              | EInv t o => phase_of r t = PhIdle
              | ELin t o res => phase_of r t = PhInv o
              | ERet t res => exists o, phase_of r t = PhLin o res
              end
  end.

Definition is_boundary (c : list (list lop)) (q : nat) : Prop := exists j, q = length (concat (firstn j c)).

Definition op_of_qent (e : qent) : sop := match q_batch e with Some b => SWrite b | None => SFlush end.

Definition pc_phase (c : list (list lop)) (st : list lop) (p : pc) (ph : phase) : Prop :=
  match stage_of p with
  | GIdle | GClosed => ph = PhIdle
  | GCheck | GLog _ | GLogged _ => True
  | GDone false ok => exists b, ph = PhLin (SWrite b) (if ok then ResOk else ResErr)
  | GDone true _ | GFlush => ph = PhInv SFlush
  | GRead q k => is_boundary c q /\ exists o, ph = PhLin o (ResVal (log_lookup k (firstn q st)))
  | GMan => ph = PhInv SManual
  | GClose => ph = PhInv SClose
  end.

(* logged but not yet published: the group of a leader between WLeaderLog and WLeaderPublish *)
Definition pc_logged (p : pc) : option nat := match stage_of p with GLogged n => Some n | _ => None end.
Definition unpublished (q : list qent) (f : nat -> pc) : list lop :=
  match q with
  | e :: _ => match pc_logged (f (q_tid e)) with
              | Some n => concat (group_batches (firstn n q))
              | None => []
              end
  | [] => []
  end.

(* like InvQc, stated of the components it reads: queue, published batches, last_sequence, store, trace, snapshots,
   program counters *)
Set Implicit Arguments.
Record InvLc (q : list qent) (c : list (list lop)) (ls : nat) (st : list lop) (tr : list levent) (sn : list nat)
             (f : nat -> pc) : Prop := mkInvL {
  l1 : wf_trace tr;                                         (* each thread's events cycle invoke, linearize, return *)
  l2 : run_lin tr = Some (concat c);                        (* the linearization replays to the published batches *)
  l3 : forall e, In e q -> phase_of tr (q_tid e) = PhInv (op_of_qent e);   (* queued = invoked, not yet linearized *)
  l4 : forall t, pc_phase c st (f t) (phase_of tr t);       (* pc and trace agree on where t's call stands *)
  l5 : ls = length (concat c);                              (* last_sequence is the end of the published batches *)
  l6 : st = concat c ++ unpublished q f;                    (* beyond them the store holds only the logged group *)
  l7 : forall h, In h sn -> is_boundary c h                 (* snapshots stand between batches *)
}.
Unset Implicit Arguments.
Definition InvL (s : lstate) : Prop :=
  InvLc (l_queue s) (l_committed s) (l_last_seq s) (l_store s) (l_trace s) (l_snaps s) (l_pc s).

(* what InvL reads of a state beside trace, store, snapshots and program counters *)
Definition lin_view (s : lstate) := (l_queue s, l_committed s, l_last_seq s).

Lemma boundary_le : forall c q, is_boundary c q -> q <= length (concat c).
Proof.
  intros c q [j ->]. rewrite <- (firstn_skipn j c) at 2. rewrite concat_app, app_length. lia.
Qed.
Lemma boundary_app : forall c x q, is_boundary c q -> is_boundary (c ++ x) q.
Proof.
  intros c x q [j ->]. destruct (Nat.le_gt_cases j (length c)) as [H|H].
  - exists j. rewrite firstn_app_le by exact H. reflexivity.
  - exists (length c). rewrite firstn_app_length, firstn_all2 by lia. reflexivity.
Qed.
Lemma boundary_total : forall c, is_boundary c (length (concat c)).
Proof. intro c. exists (length c). rewrite firstn_all. reflexivity. Qed.
Lemma boundary_zero : forall c, is_boundary c 0.
Proof. intro c. exists 0. reflexivity. Qed.

Lemma phase_other1 : forall e tr x, ev_tid e <> x -> phase_of (e :: tr) x = phase_of tr x.
Proof. intros e tr x H. cbn [phase_of]. destruct (Nat.eqb_spec (ev_tid e) x); [contradiction|reflexivity]. Qed.
Lemma phase_other : forall evs tr t x, Forall (fun e => ev_tid e = t) evs -> x <> t -> phase_of (evs ++ tr) x = phase_of tr x.
Proof.
  induction evs as [|e evs IH]; intros tr t x H Hne; [reflexivity|]. inversion H; subst. cbn [app].
  rewrite phase_other1 by congruence. eauto.
Qed.

Lemma pc_phase_mono : forall c st x y p ph, pc_phase c st p ph -> length (concat c) <= length st -> pc_phase (c ++ x) (st ++ y) p ph.
Proof.
  intros c st x y p ph H Hl. destruct p; cbn in *; auto.
  destruct H as [Hb [o Ho]]. split; [apply boundary_app; exact Hb|]. exists o.
  rewrite firstn_app_le; [exact Ho|]. apply boundary_le in Hb. lia.
Qed.

Lemma store_len : forall s, InvL s -> length (concat (l_committed s)) <= length (l_store s).
Proof. intros s L. rewrite (l6 L), app_length. lia. Qed.
Lemma committed_prefix : forall s, InvL s -> firstn (l_last_seq s) (l_store s) = concat (l_committed s).
Proof.
  intros s L. rewrite (l5 L), (l6 L). apply firstn_app_length.
Qed.
Lemma phase_at : forall s t p, InvL s -> l_pc s t = p -> pc_phase (l_committed s) (l_store s) p (phase_of (l_trace s) t).
Proof. intros s t p L <-. apply (l4 L). Qed.

Lemma InvL_init : forall th, InvL (lts_init th).
Proof.
  intro th. constructor; cbn; auto; try reflexivity; try tauto.
Qed.

Lemma unpublished_head : forall q f t, is_head q t = true ->
  unpublished q f = match pc_logged (f t) with Some n => concat (group_batches (firstn n q)) | None => [] end.
Proof. intros q f t H. destruct (is_head_inv _ _ H) as (e & r & -> & <-). reflexivity. Qed.
Lemma unpublished_nil : forall q f, (forall t, is_head q t = true -> pc_logged (f t) = None) -> unpublished q f = [].
Proof.
  intros [|e r] f H; [reflexivity|]. unfold unpublished. rewrite (H (q_tid e)); [reflexivity|]. cbn. apply Nat.eqb_refl.
Qed.
Lemma nq_logged : forall p, queued_pc p = false -> pc_logged p = None.
Proof. intros p H. destruct p; try discriminate; reflexivity. Qed.

(* InvL reads of a program counter only its stage *)
Lemma InvL_stays : forall q c ls st tr sn f f', InvLc q c ls st tr sn f -> (forall x, stage_of (f' x) = stage_of (f x)) ->
  InvLc q c ls st tr sn f'.
Proof.
  intros q c ls st tr sn f f' [L1 L2 L3 L4 L5 L6 L7] Hp. constructor; auto.
  - intro x. unfold pc_phase. rewrite Hp. apply L4.
  - rewrite L6. f_equal. unfold unpublished, pc_logged. destruct q as [|e r]; [reflexivity|]. rewrite Hp. reflexivity.
Qed.

(* own tr t evs ph: thread t may append evs (newest first) to the trace tr; they leave the replayed state as
   it is and t in phase ph.  One rule per kind of event. *)
Definition own (tr : list levent) (t : nat) (evs : list levent) (ph : phase) : Prop :=
  Forall (fun e => ev_tid e = t) evs /\ wf_trace (evs ++ tr) /\ run_lin (evs ++ tr) = run_lin tr /\ phase_of (evs ++ tr) t = ph.

Lemma own_nil : forall tr t ph, wf_trace tr -> phase_of tr t = ph -> own tr t [] ph.
Proof. intros tr t ph W P. repeat split; [constructor|exact W|exact P]. Qed.
Lemma own_inv : forall tr t evs o, own tr t evs PhIdle -> own tr t (EInv t o :: evs) (PhInv o).
Proof.
  intros tr t evs o (F & W & R & P). split; [constructor; [reflexivity|exact F]|].
  cbn [app wf_trace run_lin phase_of ev_tid]. rewrite Nat.eqb_refl, R. repeat split; try assumption. destruct (run_lin tr); reflexivity.
Qed.
Lemma own_lin : forall tr t evs o r log, own tr t evs (PhInv o) -> run_lin tr = Some log -> spec_step log o r = Some log ->
  own tr t (ELin t o r :: evs) (PhLin o r).
Proof.
  intros tr t evs o r log (F & W & R & P) Hr Hs. split; [constructor; [reflexivity|exact F]|].
  cbn [app wf_trace run_lin phase_of ev_tid]. rewrite Nat.eqb_refl, R, Hr. repeat split; assumption.
Qed.
Lemma own_ret : forall tr t evs o r, own tr t evs (PhLin o r) -> own tr t (ERet t r :: evs) PhIdle.
Proof.
  intros tr t evs o r (F & W & R & P). split; [constructor; [reflexivity|exact F]|].
  cbn [app wf_trace run_lin phase_of ev_tid]. rewrite Nat.eqb_refl, R. repeat split; eauto. destruct (run_lin tr); reflexivity.
Qed.
Lemma own_start : forall s t o, InvL s -> l_pc s t = PIdle -> own (l_trace s) t [EInv t o] (PhInv o).
Proof. intros s t o L H. apply own_inv, own_nil; [apply (l1 L)|apply (phase_at s t _ L H)]. Qed.
(* an operation without effect on the map takes effect and returns *)
Lemma own_finish : forall s t o r, InvL s -> phase_of (l_trace s) t = PhInv o ->
  spec_step (concat (l_committed s)) o r = Some (concat (l_committed s)) -> own (l_trace s) t [ERet t r; ELin t o r] PhIdle.
Proof.
  intros s t o r L Hp Hs. apply (own_ret _ _ _ o), (own_lin _ _ _ _ _ (concat (l_committed s))); [|apply (l2 L)|exact Hs].
  apply own_nil; [apply (l1 L)|exact Hp].
Qed.

(* thread t, outside the queue, moves to p' and emits evs; it may join the queue at the tail (ex = its entry).
   f' is given pointwise: after a call that starts and returns in one step it is l_pc s itself *)
Lemma InvL_move : forall s t p' evs ph ex q' f' sn, InvL s -> InvQ s ->
  q' = l_queue s ++ ex -> (forall e, In e ex -> q_tid e = t /\ ph = PhInv (op_of_qent e)) ->
  (forall x, f' x = upd (l_pc s) t p' x) -> queued_pc (l_pc s t) = false -> pc_logged p' = None ->
  own (l_trace s) t evs ph -> pc_phase (l_committed s) (l_store s) p' ph ->
  (forall h, In h sn -> is_boundary (l_committed s) h) ->
  InvLc q' (l_committed s) (l_last_seq s) (l_store s) (evs ++ l_trace s) sn f'.
Proof.
  intros s t p' evs ph ex q' f' sn L Q Hq Hex Hp Hnq Hlg (Hev & Hwf & Hrun & Hph) Hpp Hsn.
  pose proof L as [L1 L2 L3 L4 L5 L6 L7].
  constructor; auto.
  - rewrite Hrun. exact L2.
  - rewrite Hq. intros e He. apply in_app_or in He. destruct He as [He|He]; [|destruct (Hex e He) as [-> <-]; exact Hph].
    rewrite (phase_other evs _ t) by (try exact Hev; eapply not_queued_notin; eassumption). apply L3, He.
  - intro x. rewrite (Hp x). unfold upd. destruct (Nat.eqb_spec x t) as [->|Hne]; [rewrite Hph; exact Hpp|].
    rewrite (phase_other evs _ t) by assumption. apply L4.
  - (* the head and its logged group are what they were *)
    rewrite L6 at 1. f_equal. unfold unpublished. rewrite Hq. destruct (l_queue s) as [|e0 r] eqn:Eq; cbn [app].
    + destruct ex as [|e ex']; [reflexivity|]. rewrite (Hp (q_tid e)), (proj1 (Hex e (or_introl eq_refl))), upd_eq, Hlg. reflexivity.
    + assert (Hne : q_tid e0 <> t) by (eapply not_queued_notin; [exact Q|exact Hnq|rewrite Eq; left; reflexivity]).
      rewrite (Hp (q_tid e0)), upd_neq by exact Hne. unfold pc_logged. destruct (stage_of (l_pc s (q_tid e0))) eqn:E0; try reflexivity.
      assert (Hg : group_ok (l_queue s) n = true) by (apply (q4 (qt Q (q_tid e0))); right; exact E0).
      apply group_ok_bounds in Hg. rewrite Eq in Hg.
      change (e0 :: r ++ ex) with ((e0 :: r) ++ ex). rewrite firstn_app_le by lia. reflexivity.
Qed.

(* the head moves on inside the queue (a queued stage carries no obligation about its phase); if it has then logged
   its group, that is what the store gains *)
Lemma InvL_lead : forall s t p' st', InvL s -> is_head (l_queue s) t = true -> pc_logged (l_pc s t) = None ->
  queued_pc p' = true ->
  st' = l_store s ++ match pc_logged p' with Some n => concat (group_batches (firstn n (l_queue s))) | None => [] end ->
  InvLc (l_queue s) (l_committed s) (l_last_seq s) st' (l_trace s) (l_snaps s) (upd (l_pc s) t p').
Proof.
  intros s t p' st' L Hh Hlg Hq' ->. pose proof L as [L1 L2 L3 L4 L5 L6 L7].
  assert (Hpend : unpublished (l_queue s) (l_pc s) = []) by (rewrite (unpublished_head _ _ t Hh), Hlg; reflexivity).
  constructor; auto.
  - intro x. unfold upd. destruct (Nat.eqb_spec x t) as [_|_].
    + unfold pc_phase. unfold queued_pc in Hq'. destruct (stage_of p'); try discriminate; constructor.
    + rewrite <- (app_nil_r (l_committed s)). apply pc_phase_mono; [apply L4|apply store_len; exact L].
  - rewrite L6 at 1. rewrite Hpend, app_nil_r, (unpublished_head _ _ t Hh), upd_eq. reflexivity.
Qed.

Definition lin1 (e : qent) : list levent :=
  match q_batch e with Some b => [ELin (q_tid e) (SWrite b) ResOk] | None => [] end.
Definition phase_after_lin (e : qent) : phase :=
  match q_batch e with Some b => PhLin (SWrite b) ResOk | None => PhInv SFlush end.

Lemma group_lin_cons : forall e g, group_lin (e :: g) = lin1 e ++ group_lin g.
Proof. reflexivity. Qed.
Lemma rev_lin1 : forall e, rev (lin1 e) = lin1 e.
Proof. intro e. unfold lin1. destruct (q_batch e); reflexivity. Qed.
Lemma group_batches_cons : forall e g, group_batches (e :: g) = match q_batch e with Some b => [b] | None => [] end ++ group_batches g.
Proof. reflexivity. Qed.
Lemma lin1_tid : forall e, Forall (fun x => ev_tid x = q_tid e) (lin1 e).
Proof. intro e. unfold lin1. destruct (q_batch e); repeat constructor. Qed.

Lemma group_lin_props : forall g tr log,
  NoDup (map q_tid g) -> (forall e, In e g -> phase_of tr (q_tid e) = PhInv (op_of_qent e)) ->
  wf_trace tr -> run_lin tr = Some log ->
  wf_trace (rev (group_lin g) ++ tr) /\
  run_lin (rev (group_lin g) ++ tr) = Some (log ++ concat (group_batches g)) /\
  (forall x, ~ In x (map q_tid g) -> phase_of (rev (group_lin g) ++ tr) x = phase_of tr x) /\
  (forall e, In e g -> phase_of (rev (group_lin g) ++ tr) (q_tid e) = phase_after_lin e).
Proof.
  induction g as [|e g IH]; intros tr log Hnd Hph Hwf Hrun.
  - cbn. rewrite app_nil_r. repeat split; auto. intros e [].
  - cbn [map] in Hnd. inversion Hnd as [|? ? Hne Hnd']; subst.
    rewrite group_lin_cons, rev_app_distr, rev_lin1, <- app_assoc.
    set (tr1 := lin1 e ++ tr).
    assert (Hother : forall x, x <> q_tid e -> phase_of tr1 x = phase_of tr x).
    { intros x Hx. unfold tr1. apply (phase_other _ _ (q_tid e)); [apply lin1_tid|exact Hx]. }
    pose proof (Hph e (or_introl eq_refl)) as Hpe. unfold op_of_qent in Hpe.
    (* the member's own linearization point, if it has a batch *)
    assert (H1 : wf_trace tr1 /\ run_lin tr1 = Some (log ++ concat (match q_batch e with Some b => [b] | None => [] end)) /\
                 phase_of tr1 (q_tid e) = phase_after_lin e).
    { unfold tr1, lin1, phase_after_lin. destruct (q_batch e) eqn:Eb; cbn; rewrite ?Nat.eqb_refl, ?Hrun, ?app_nil_r; auto. }
    destruct H1 as (Hwf1 & Hrun1 & Hself).
    edestruct (IH tr1) as (I1 & I2 & I3 & I4); [exact Hnd'| |exact Hwf1|exact Hrun1|].
    { intros e' He'. rewrite Hother; [apply Hph; right; exact He'|]. intro Heq. apply Hne. rewrite <- Heq. apply in_map. exact He'. }
    split; [exact I1|]. split; [|split].
    + rewrite I2, group_batches_cons, concat_app, app_assoc. reflexivity.
    + intros x Hx. cbn [map In] in Hx. rewrite I3 by tauto. apply Hother. intro; subst; tauto.
    + intros e' [<-|He']; [rewrite I3 by exact Hne; exact Hself|apply I4; exact He'].
Qed.

(* the published state moves forward only: nothing a reader may have seen changes *)
Definition grows (s s' : lstate) : Prop :=
  l_last_seq s <= l_last_seq s' /\ exists x, l_store s' = l_store s ++ x.

Lemma grows_same : forall s s', l_last_seq s' = l_last_seq s -> l_store s' = l_store s -> grows s s'.
Proof. intros s s' H1 H2. unfold grows. rewrite H1, H2. split; [lia|]. exists []. rewrite app_nil_r. reflexivity. Qed.
Lemma grows_trans : forall a b c, grows a b -> grows b c -> grows a c.
Proof.
  intros a b c (H1 & [x Hx]) (H2 & [x' Hx']). split; [lia|]. exists (x ++ x'). rewrite Hx', Hx. apply app_assoc_reverse.
Qed.

Record Inv (s : lstate) : Prop := mkInv { iQ : InvQ s; iD : InvD s; iL : InvL s }.
Record stepped (s s' : lstate) : Prop := mkStepped { st_I : Inv s'; st_G : grows s s' }.

Lemma stepped_intro : forall s s', InvQ s' -> InvD s' -> InvL s' -> grows s s' -> stepped s s'.
Proof. intros s s' Q D L G. split; [split|]; assumption. Qed.
Lemma stepped_trans : forall a b c, stepped a b -> (Inv b -> stepped b c) -> stepped a c.
Proof. intros a b c [I G] H. destruct (H I) as [I' G']. split; [exact I'|exact (grows_trans a b c G G')]. Qed.

(* thread t, outside the queue, moves to p' outside the queue, awake, emitting evs *)
Lemma own_ok : forall s t p p' evs ph, Inv s -> l_pc s t = p ->
  queued_pc p = false -> queued_pc p' = false -> (p = PIdle -> is_thread s t = true) ->
  (client_quiet p = true -> l_sd s = true -> client_quiet p' = true) -> waits_bg p' = false ->
  own (l_trace s) t evs ph -> pc_phase (l_committed s) (l_store s) p' ph ->
  stepped s (emit (set_pc s (upd (l_pc s) t p')) evs).
Proof.
  intros s t p p' evs ph [Q D L] <- Hnq Hnq' Hi Hq Hw Ho Hph. apply stepped_intro.
  - apply (InvQ_upd_nq s t p' Q); auto.
  - apply (InvD_own s _ t p' D); try reflexivity; [|rewrite Hw; discriminate].
    destruct (client_quiet (l_pc s t)) eqn:E; [|left; apply (not_sd s t D E)].
    destruct (l_sd s) eqn:Es; [right|left]; auto.
  - apply (InvL_move s t p' evs ph [] _ _ _ L Q); try reflexivity; try assumption; try contradiction;
      [symmetry; apply app_nil_r|apply nq_logged, Hnq'|apply (l7 L)].
  - apply grows_same; reflexivity.
Qed.

Lemma enqueue_ok : forall s e, Inv s -> invocable s (q_tid e) = true ->
  stepped s (emit (set_queue (set_pc s (upd (l_pc s) (q_tid e) PCheck)) (l_queue s ++ [e])) [EInv (q_tid e) (op_of_qent e)]).
Proof.
  intros s e [Q D L] H. destruct (invocable_inv _ _ H) as (H1 & H2 & H3). apply stepped_intro.
  - apply (InvQ_enqueue s e Q H3 H1).
  - apply (InvD_own s _ (q_tid e) PCheck D); try reflexivity; [left; exact H2|discriminate].
  - apply (InvL_move s (q_tid e) PCheck _ (PhInv (op_of_qent e)) [e] _ _ _ L Q); try reflexivity;
      [intros e' [<-|[]]; auto|rewrite H3; reflexivity|apply own_start; assumption|apply (l7 L)].
  - apply grows_same; reflexivity.
Qed.

(* the head pops the first n queue entries.  f1 gives their owners new program counters, outside the queue and awake,
   and the new head is signalled; evs, by the owners, publish the batches cx, which are what was logged and not yet
   published *)
Lemma pop_ok : forall s s' n f1 evs cx, Inv s -> 1 <= n -> l_sd s = false ->
  (forall x, ~ In x (map q_tid (firstn n (l_queue s))) -> f1 x = l_pc s x) ->
  (forall x, In x (map q_tid (firstn n (l_queue s))) -> queued_pc (f1 x) = false /\ waits_bg (f1 x) = false /\
     pc_phase (l_committed s ++ cx) (l_store s) (f1 x) (phase_of (evs ++ l_trace s) x)) ->
  (forall x, ~ In x (map q_tid (firstn n (l_queue s))) -> phase_of (evs ++ l_trace s) x = phase_of (l_trace s) x) ->
  unpublished (l_queue s) (l_pc s) = concat cx -> wf_trace (evs ++ l_trace s) -> run_lin (evs ++ l_trace s) = Some (concat (l_committed s) ++ concat cx) ->
  l_threads s' = l_threads s -> l_queue s' = skipn n (l_queue s) -> l_pc s' = signal_head f1 (skipn n (l_queue s)) ->
  l_trace s' = evs ++ l_trace s -> l_committed s' = l_committed s ++ cx -> l_last_seq s' = length (l_store s) -> l_store s' = l_store s ->
  l_snaps s' = l_snaps s -> bg_view s' = bg_view s -> stepped s s'.
Proof.
  intros s s' n f1 evs cx [Q D L] Hn Hsd Hout Hin Hoth Hpend Hwf Hrun Hth Hq Hp Htr Hc Hls Hst Hsn Hbv.
  pose proof L as [L1 L2 L3 L4 L5 L6 L7].
  destruct (pop_pcs _ n f1 (qnd Q) Hn) as (Hq' & Hdisj & Fg & Fo & Fw). rewrite <- Hp in Fg, Fw.
  (* everybody else stays: signalled or left alone *)
  assert (Hby : forall x, ~ In x (map q_tid (firstn n (l_queue s))) -> stays s x (l_pc s x) (l_pc s' x)).
  { intros x Hx. rewrite Hp, <- (Hout x Hx). apply stays_signal. }
  assert (Hst' : l_store s = concat (l_committed s ++ cx)) by (rewrite L6 at 1; rewrite Hpend, concat_app; reflexivity).
  apply stepped_intro.
  - constructor; rewrite Hq; [exact Hq'|]. intro x. rewrite Hth.
    destruct (in_dec Nat.eq_dec x (map q_tid (firstn n (l_queue s)))) as [Hx|Hx].
    + (* a popped thread is outside the queue *)
      apply qthr_nq; rewrite ?(Fg x Hx); [apply in_queue_false, Hdisj, Hx|apply (Hin x Hx)|].
      intro H. pose proof (q1 (qt Q x)) as Q1. rewrite (q6 (qt Q x) H) in Q1.
      apply in_queue_false in Q1. destruct Q1. rewrite (map_firstn_skipn q_tid n). apply in_or_app. left. exact Hx.
    + apply (qthr_skipn _ _ n x _ (qthr_stays s _ x _ _ (qt Q x) (Hby x Hx)) Hx (Fo x Hx)), Fw.
  - apply (InvD_frame s s' D Hbv); [congruence|]. intros x Hx.
    destruct (in_dec Nat.eq_dec x (map q_tid (firstn n (l_queue s)))) as [Hi|Hi].
    + rewrite (Fg x Hi), (proj1 (proj2 (Hin x Hi))) in Hx. discriminate.
    + destruct (proj2 (proj2 (proj2 (Hby x Hi))) Hx) as [H|H]; [apply (d5 s D x H)|exact H].
  - constructor; rewrite ?Htr, ?Hc, ?Hls, ?Hst; auto.
    + rewrite Hrun, concat_app. reflexivity.
    + rewrite Hq. intros e He. rewrite Hoth; [apply L3; eapply In_skipn; exact He|].
      intro Hx. exact (Hdisj _ Hx (in_map q_tid _ _ He)).
    + intro x. destruct (in_dec Nat.eq_dec x (map q_tid (firstn n (l_queue s)))) as [Hx|Hx].
      * rewrite (Fg x Hx). apply (Hin x Hx).
      * rewrite (Hoth x Hx), <- (app_nil_r (l_store s)). unfold pc_phase. rewrite (proj1 (Hby x Hx)).
        apply (pc_phase_mono _ _ cx [] (l_pc s x)); [apply L4|apply store_len; exact L].
    + rewrite Hst' at 1. reflexivity.
    + rewrite Hst' at 1. rewrite <- app_nil_r at 1. f_equal. symmetry. apply unpublished_nil. rewrite Hq. intros x Hx.
      assert (Hxg : ~ In x (map q_tid (firstn n (l_queue s)))).
      { intro Hxg. apply (Hdisj _ Hxg), in_queue_In, is_head_in_queue, Hx. }
      unfold pc_logged. rewrite (proj1 (Hby x Hxg)). pose proof (q3 (qt Q x)) as Q3. unfold head_only_pc in Q3.
      destruct (stage_of (l_pc s x)); try reflexivity. rewrite (Fo x Hxg) in Q3. discriminate (Q3 eq_refl).
    + intros h Hh. rewrite Hsn in Hh. apply boundary_app, L7, Hh.
  - split; [rewrite Hls, L5; apply store_len, L|]. exists []. rewrite app_nil_r. exact Hst.
Qed.

(* the queue head, in PCheck, pops only itself (failed write, forced switch of a flush request) and goes on in P *)
Lemma pop1_ok : forall s e q' P evs ph, Inv s -> l_queue s = e :: q' -> l_pc s (q_tid e) = PCheck ->
  queued_pc P = false -> waits_bg P = false ->
  own (l_trace s) (q_tid e) evs ph -> pc_phase (l_committed s) (l_store s) P ph ->
  stepped s (emit (set_queue (set_pc s (signal_head (upd (l_pc s) (q_tid e) P) q')) q') evs).
Proof.
  intros s e q' P evs ph I Hqs Hpc HP Hw (Hev & Hwf & Hrun & Ho) Hph.
  pose proof (iL s I) as L.
  assert (Hpend : unpublished (e :: q') (l_pc s) = []) by (unfold unpublished; rewrite Hpc; reflexivity).
  apply (pop_ok s _ 1 (upd (l_pc s) (q_tid e) P) evs [] I (le_n 1)); rewrite ?Hqs; cbn [firstn skipn map In concat]; rewrite ?app_nil_r; auto.
  - apply (not_sd s (q_tid e) (iD s I)). rewrite Hpc. reflexivity.
  - intros x Hx. apply upd_neq. intro. subst. tauto.
  - intros x [<-|[]]. rewrite upd_eq, Ho. auto.
  - intros x Hx. apply (phase_other evs _ (q_tid e)); [exact Hev|]. intro. subst. tauto.
  - rewrite Hrun. apply (l2 L).
  - sst. rewrite (l5 L), (l6 L), Hqs, Hpend, app_nil_r. reflexivity.
Qed.

(* group commit: the leader pops its group; each member with a batch takes effect, in queue order, and is marked done *)
Lemma publish_ok : forall s t n, Inv s -> l_pc s t = PLogged n ->
  stepped s (emit (set_queue (set_pc (set_publish s (length (l_store s)) (l_committed s ++ group_batches (firstn n (l_queue s))))
                                     (signal_head (mark_group (upd (l_pc s) t PIdle) t true (firstn n (l_queue s))) (skipn n (l_queue s))))
                             (skipn n (l_queue s)))
                  (ERet t ResOk :: rev (group_lin (firstn n (l_queue s))))).
Proof.
  intros s t n I Hpc. pose proof I as [Q D [L1 L2 L3 L4 L5 L6 L7]].
  destruct (publish_pcs s t n Q Hpc) as (Hn & Htg & Ft & Fg1 & Fo1).
  pose proof (NoDup_map_firstn q_tid n _ (qnd Q)) as Hndg.
  set (g := firstn n (l_queue s)) in *.
  assert (Hh : is_head (l_queue s) t = true) by (apply (q3 (qt Q _)); rewrite Hpc; reflexivity).
  assert (Hpend : unpublished (l_queue s) (l_pc s) = concat (group_batches g)) by (rewrite (unpublished_head _ _ t Hh), Hpc; reflexivity).
  destruct (group_lin_props g (l_trace s) (concat (l_committed s)) Hndg) as (G1 & G2 & G3 & G4); [|exact L1|exact L2|].
  { intros e He. apply L3. eapply In_firstn. exact He. }
  (* the leader's own entry is the head of the queue and carries a batch *)
  assert (Hpt : exists bt, phase_of (rev (group_lin g) ++ l_trace s) t = PhLin (SWrite bt) ResOk).
  { assert (Hgo : group_ok (l_queue s) n = true) by (apply (q4 (qt Q t)); right; rewrite Hpc; reflexivity).
    destruct (is_head_inv _ _ Hh) as (e0 & r & Eq & <-).
    assert (He0 : In e0 g) by (unfold g; rewrite Eq; destruct n; [lia|left; reflexivity]).
    rewrite Eq in Hgo. destruct (group_ok_head_batch _ _ _ Hgo) as [bt Hbt]. exists bt.
    rewrite (G4 e0 He0). unfold phase_after_lin. rewrite Hbt. reflexivity. }
  destruct Hpt as [bt Hpt].
  apply (pop_ok s _ n (mark_group (upd (l_pc s) t PIdle) t true g) (ERet t ResOk :: rev (group_lin g)) (group_batches g) I Hn);
    try reflexivity; fold g; cbn [app]; auto.
  - apply (not_sd s t D). rewrite Hpc. reflexivity.
  - intros x Hx. destruct (Nat.eq_dec x t) as [->|Hne].
    { rewrite Ft. cbn [phase_of ev_tid]. rewrite Nat.eqb_refl. repeat split. }
    rewrite phase_other1 by (cbn; congruence). apply in_map_iff in Hx. destruct Hx as (e & <- & He).
    rewrite (Fg1 e He Hne), (G4 e He). unfold phase_after_lin, is_flush. destruct (q_batch e); repeat split; cbn; eauto.
  - intros x Hx. rewrite phase_other1 by (cbn; intro Heq; apply Hx; rewrite <- Heq; exact Htg). apply G3, Hx.
  - cbn [wf_trace]. split; [exact G1|]. eauto.
  - cbn [run_lin]. rewrite G2. reflexivity.
Qed.

(* nobody emits, nothing but program counters and background fields moves, and every thread stays where it is *)
Lemma stays_ok : forall s s', Inv s -> l_threads s' = l_threads s -> lin_view s' = lin_view s ->
  l_store s' = l_store s -> l_trace s' = l_trace s -> l_snaps s' = l_snaps s ->
  (forall x, stays s x (l_pc s x) (l_pc s' x)) -> InvD s' -> stepped s s'.
Proof.
  intros s s' [Q _ L] Hth Hv Hst Htr Hsn Hp D'. pose proof Hv as Hv'. injection Hv' as Hqu Hc Hls. apply stepped_intro.
  - unfold InvQ. rewrite Hth, Hqu. exact (InvQ_stays s _ Q Hp).
  - exact D'.
  - unfold InvL. rewrite Hqu, Hc, Hls, Hst, Htr, Hsn. apply (InvL_stays _ _ _ _ _ _ _ _ L). intro x. apply (Hp x).
  - apply grows_same; assumption.
Qed.
(* one thread goes to sleep, wakes up or moves on within its stage *)
Lemma nap_ok : forall s t p', Inv s -> stays s t (l_pc s t) p' -> stepped s (set_pc s (upd (l_pc s) t p')).
Proof.
  intros s t p' I H. pose proof (stays_upd s (l_pc s) t p' H) as Hx.
  apply (stays_ok s _ I); try reflexivity; [exact Hx|]. apply (InvD_stays s _ (iD s I)); [reflexivity|exact Hx].
Qed.
(* the background thread works; while its call is scheduled or running everything is taken care of *)
Lemma running_ok : forall s s', Inv s -> l_threads s' = l_threads s -> lin_view s' = lin_view s ->
  l_store s' = l_store s -> l_trace s' = l_trace s -> l_snaps s' = l_snaps s ->
  l_sd s' = l_sd s -> l_bgs s' = l_bgs s -> l_bgpc s <> BIdle -> l_bgpc s' <> BIdle ->
  (forall x, stays s x (l_pc s x) (l_pc s' x)) -> stepped s s'.
Proof.
  intros s s' I Hth Hv Hst Htr Hsn Hsd Hb Hr Hpc Hp. pose proof (iD s I) as D.
  assert (Hb' : l_bgs s' = true) by (rewrite Hb, (d1 s D); destruct (l_bgpc s); [contradiction|reflexivity..]).
  apply (stays_ok s s' I); try assumption.
  constructor; unfold care; rewrite ?Hb'; auto.
  - rewrite Hsd. intros H t. rewrite (quiet_stays s t _ _ (Hp t)). apply (d0 s D H).
  - destruct (l_bgpc s'); congruence.
Qed.

(* ldb_maybe_schedule_compaction on a state s0 that may still lack a scheduled call for its work *)
Lemma bgsch_ok : forall s s0 e, InvQ s0 -> InvL s0 -> grows s s0 ->
  (l_sd s0 = true -> forall t, client_quiet (l_pc s0 t) = true) ->
  l_bgs s0 = match l_bgpc s0 with BIdle => false | _ => true end ->
  (forall t, waits_bg (l_pc s0 t) = true -> l_bgs s0 = true) -> stepped s (bg_schedule s0 e).
Proof.
  intros s s0 e Q L G H0 H1 H5. apply stepped_intro.
  - rewrite bgsch_nf. exact Q.
  - apply (InvD_bgsch s0 e); [reflexivity|rewrite bgsch_nf; exact H0|exact H1|rewrite bgsch_nf; exact H5].
  - rewrite bgsch_nf. exact L.
  - rewrite bgsch_nf. exact G.
Qed.

(* the memtable switch of ldb_make_room_for_write: imm := mem, then maybe schedule; of t only that it is inside a
   call is used: the database is not shutting down *)
Lemma switch_ok : forall s t, Inv s -> l_pc s t = PCheck -> has_imm s = false ->
  stepped s (bg_schedule (set_store s [] (Some (l_mem s)) (l_tables s) false) false).
Proof.
  intros s t [Q D L] E Hi. apply has_imm_false in Hi. apply bgsch_ok; [| | |sst; intro Hsd|apply (d1 s D)|apply (d5 s D)].
  - exact Q.
  - unfold InvL. rewrite store_switch by exact Hi. exact L.
  - apply grows_same; try reflexivity. apply store_switch, Hi.
  - rewrite (not_sd s t D) in Hsd; [discriminate|rewrite E; reflexivity].
Qed.

Lemma clear_manual_ok : forall s, Inv s -> stepped s (set_manual s None).
Proof.
  intros s I. apply (stays_ok s _ I); try reflexivity; [intro x; apply stays_refl|].
  destruct (iD s I) as [D0 D1 D2 D3 D4 D5]. constructor; unfold has_manual; sst; auto. discriminate.
Qed.

Lemma atomic_call_ok : forall s t o r sn, Inv s -> l_pc s t = PIdle ->
  spec_step (concat (l_committed s)) o r = Some (concat (l_committed s)) ->
  (forall h, In h sn -> is_boundary (l_committed s) h) ->
  stepped s (emit (set_snaps s sn) [ERet t r; ELin t o r; EInv t o]).
Proof.
  intros s t o r sn [Q D L] H3 Hs Hsn. apply stepped_intro.
  - exact Q.
  - apply (InvD_frame s _ D); [reflexivity|apply (d0 s D)|apply (d5 s D)].
  - apply (InvL_move s t PIdle _ PhIdle [] _ _ _ L Q); try reflexivity; try contradiction; try (rewrite H3; reflexivity); [symmetry; apply app_nil_r| | |exact Hsn].
    + intro x. unfold upd. destruct (Nat.eqb_spec x t) as [->|_]; [exact H3|reflexivity].
    + apply (own_ret _ _ _ o), (own_lin _ _ _ _ _ (concat (l_committed s))); [apply own_start; assumption|apply (l2 L)|exact Hs].
  - apply grows_same; reflexivity.
Qed.

Lemma step_ok : forall s l s', Inv s -> lts_step s l = Some s' -> stepped s s'.
Proof.
  intros s l s' I H. pose proof I as [Q D L]. destruct l; cbn [lts_step] in H.
  (* ldb_write: the writer queue *)
  - (* WEnqueue *) step_inv H. injection H as <-. apply (enqueue_ok s (mkQ t (Some b) sync) I E).
  - (* FEnqueue *) step_inv H. injection H as <-. apply (enqueue_ok s (mkQ t None false) I E).
  - (* WWaitFollower: only while not the head *) step_inv H. injection H as <-. apply negb_true_iff in E0.
    apply (nap_ok s t _ I). rewrite E. apply (stays_sleep s t PWaitCv); try discriminate. intros _. exact E0.
  - (* WLeaderStart *) step_inv H. injection H as <-. bool_hyps. apply stepped_intro.
    + apply (InvQ_upd _ _ _ t (PLog n) Q), (qthr_head _ _ t _ _ (qt Q t)); try discriminate; try assumption; try reflexivity; [rewrite E; reflexivity|].
      intros m [Hm|Hm]; [injection Hm as <-; assumption|discriminate].
    + apply (InvD_own s _ t (PLog n) D); try reflexivity; [left; apply (not_sd s t D); rewrite E; reflexivity|discriminate].
    + apply (InvL_lead s t (PLog n) _ L); try reflexivity; try assumption; [rewrite E; reflexivity|symmetry; apply app_nil_r].
    + apply grows_same; reflexivity.
  - (* WLeaderErr: the failed write or flush request takes effect (none) and returns *)
    step_inv H. bool_hyps. subst t. pose proof (l3 L q) as H3. rewrite E0 in H3. specialize (H3 (or_introl eq_refl)).
    unfold op_of_qent in H3. destruct (q_batch q) eqn:E2; injection H as <-.
    + apply (pop1_ok s q l PIdle _ PhIdle I E0 E); try reflexivity. apply (own_finish s _ _ _ L H3). reflexivity.
    + apply (pop1_ok s q l PIdle _ PhIdle I E0 E); try reflexivity. apply (own_finish s _ _ _ L H3). reflexivity.
  - (* WRoomWait *) step_inv H. injection H as <-. bool_hyps.
    apply (nap_ok s t _ I). rewrite E. apply (stays_sleep s t PRoomWait); try discriminate; intros _.
    + rewrite E0. cbn. apply Nat.eqb_eq. assumption.
    + (* the stall is for an immutable memtable or a full level 0: a call is scheduled for either *)
      apply care_bgs; [|apply (not_sd s t D); rewrite E; reflexivity|exact H2].
      apply orb_true_iff in H0. destruct H0 as [H0|H0]; [apply (d2 s D H0)|].
      apply (d4 s D). apply Nat.leb_le in H0. unfold L0_STOP_WRITES_TRIGGER, L0_COMPACTION_TRIGGER in *. lia.
  - (* Switch: imm := mem, then schedule; a flush request has nothing to log and pops itself *)
    step_inv H; injection H as <-; bool_hyps; pose proof (switch_ok s t I E ltac:(assumption)) as S1; [|exact S1].
    apply (stepped_trans _ _ _ S1). rewrite bgsch_nf. intros I1. subst t.
    apply (pop1_ok _ q l PFlushCheck [] (PhInv SFlush) I1 E0 E); try reflexivity.
    sst. apply own_nil; [apply (l1 L)|]. rewrite (l3 L q) by (rewrite E0; left; reflexivity).
    unfold op_of_qent, is_flush in *. destruct (q_batch q); [discriminate|reflexivity].
  - (* WLeaderLog *) step_inv H. injection H as <-. apply stepped_intro.
    + apply (InvQ_upd _ _ _ t (PLogged n) Q), (qthr_head _ _ t _ _ (qt Q t)); try discriminate; try reflexivity; [rewrite E; reflexivity|apply (q3 (qt Q _)); rewrite E; reflexivity|].
      intros m [Hm|Hm]; [discriminate|injection Hm as <-]. apply (q4 (qt Q t)). left. rewrite E. reflexivity.
    + apply (InvD_own s _ t (PLogged n) D); try reflexivity; [left; apply (not_sd s t D); rewrite E; reflexivity|discriminate].
    + apply (InvL_lead s t (PLogged n) _ L); try reflexivity; [apply (q3 (qt Q _)); rewrite E; reflexivity|rewrite E; reflexivity|].
      apply store_append_mem.
    + split; [reflexivity|]. exists (concat (group_batches (firstn n (l_queue s)))). apply store_append_mem.
  - (* WLeaderPublish *) step_inv H. injection H as <-. apply (publish_ok s t n I E).
  (* a follower returns; the flush request waits for its memtable *)
  - (* WFollowerDone *) step_inv H; injection H as <-; pose proof (phase_at s t _ L E) as H4.
    + apply (own_ok s t _ PFlushCheck [] (PhInv SFlush) I E); try reflexivity; try discriminate.
      apply own_nil; [apply (l1 L)|exact H4].
    + apply (own_ok s t _ PIdle _ PhIdle I E); try reflexivity; try discriminate.
      apply (own_finish s _ _ _ L H4). reflexivity.
    + destruct H4 as [b Hb]. apply (own_ok s t _ PIdle _ PhIdle I E); try reflexivity; try discriminate.
      apply (own_ret _ _ _ (SWrite b)), own_nil; [apply (l1 L)|exact Hb].
  - (* FlushCheck *) step_inv H; injection H as <-; pose proof (phase_at s t _ L E) as H4.
    + bool_hyps. apply (nap_ok s t _ I). rewrite E. apply (stays_sleep s t PFlushWait); try discriminate. intros _.
      apply care_bgs; [apply (d2 s D); assumption|apply (not_sd s t D); rewrite E; reflexivity|assumption].
    + apply (own_ok s t _ PIdle _ PhIdle I E); try reflexivity; try discriminate.
      apply (own_finish s _ _ _ L H4). destruct (has_imm s); reflexivity.
  (* reads, snapshots: they take effect at one locked step *)
  - (* RCapture: the read takes effect when the sequence is captured *)
    step_inv H; injection H as <-; destruct (invocable_inv _ _ E) as (H1 & H2 & H3).
    + (* at a snapshot *)
      assert (Hb : is_boundary (l_committed s) n).
      { apply (l7 L). apply existsb_exists in E1. destruct E1 as (y & Hy & Hyn). apply Nat.eqb_eq in Hyn. subst y. exact Hy. }
      apply (own_ok s t _ (PRead n k) _ (PhLin (SGetAt n k) (ResVal (log_lookup k (firstn n (l_store s))))) I H3);
        try reflexivity; try discriminate; try congruence; [|split; eauto].
      apply (own_lin _ _ _ _ _ (concat (l_committed s))); [apply own_start; assumption|apply (l2 L)|].
      cbn [spec_step]. rewrite (l6 L), firstn_app_le by (apply boundary_le, Hb). rewrite optN_eqb_refl.
      replace (n <=? length (concat (l_committed s))) with true by (symmetry; apply Nat.leb_le, boundary_le; exact Hb). reflexivity.
    + (* at the latest sequence *)
      apply (own_ok s t _ (PRead (l_last_seq s) k) _ (PhLin (SGet k) (ResVal (log_lookup k (firstn (l_last_seq s) (l_store s))))) I H3);
        try reflexivity; try discriminate; try congruence; [|split; [rewrite (l5 L); apply boundary_total|eauto]].
      apply (own_lin _ _ _ _ _ (concat (l_committed s))); [apply own_start; assumption|apply (l2 L)|].
      cbn [spec_step]. rewrite (committed_prefix s L), optN_eqb_refl. reflexivity.
  - (* RRead *) step_inv H. injection H as <-. destruct (phase_at s t _ L E) as [Hb [o Ho]].
    eapply stepped_trans; [|intros [Q0 D0 L0]; apply bgsch_ok; [exact Q0|exact L0|apply grows_same; reflexivity|apply (d0 _ D0)|apply (d1 _ D0)|apply (d5 _ D0)]].
    apply (own_ok s t _ PIdle _ PhIdle I E); try reflexivity; try discriminate.
    apply (own_ret _ _ _ o), own_nil; [apply (l1 L)|exact Ho].
  - (* Snap *) step_inv H. injection H as <-. destruct (invocable_inv _ _ E) as (H1 & H2 & H3).
    apply (atomic_call_ok s t _ _ _ I H3).
    + cbn [spec_step]. rewrite (l5 L), Nat.eqb_refl. reflexivity.
    + intros h Hh. apply in_app_or in Hh. destruct Hh as [Hh|[<-|[]]]; [apply (l7 L); exact Hh|].
      rewrite (l5 L). apply boundary_total.
  - (* Release *) step_inv H. injection H as <-. bool_hyps. destruct (invocable_inv _ _ H) as (H1 & H2 & H3).
    apply (atomic_call_ok s t _ _ _ I H3); [reflexivity|].
    intros h' Hh. apply (l7 L), (remove_one_In h), Hh.
  (* the background call: only background fields move and waiters wake *)
  - (* BgStart *) step_inv H. injection H as <-. apply (running_ok s _ I); try reflexivity; try discriminate; try congruence. intro x. apply stays_refl.
  - (* BgFlush *) step_inv H. injection H as <-. apply (running_ok s _ I); try reflexivity; try discriminate; try congruence; [apply (store_flush s l), E0|intro x; apply stays_refl].
  - (* BgCompact *) step_inv H; injection H as <-; apply (running_ok s _ I); try reflexivity; try discriminate; try congruence; intro x; [apply stays_upd, stays_mdone|apply stays_refl].
  - (* BgFail *) step_inv H. destruct (l_manual s) as [m|] eqn:Em; [destruct (has_imm s) eqn:Ei|]; injection H as <-.
    all: apply (running_ok s _ I); try reflexivity; try discriminate; try congruence; intro x; sst; unfold broadcast_bg; try apply stays_wake_bg.
    eapply stays_trans; [|apply stays_wake_bg]. apply stays_upd, stays_mdone.
  - (* BgSkip *) step_inv H. injection H as <-. apply (running_ok s _ I); try reflexivity; try discriminate; try congruence. intro x. apply stays_refl.
  - (* BgFinish: scheduled := 0, maybe schedule again, broadcast *) step_inv H. injection H as <-.
    assert (Hpc : l_pc (bg_schedule (set_bg s false BIdle) extra) = l_pc s) by (rewrite bgsch_nf; reflexivity).
    apply (stays_ok s _ I); sst; rewrite ?Hpc; try (rewrite bgsch_nf; reflexivity); [intro x; apply stays_wake_bg|].
    apply (InvD_bgsch (set_bg s false BIdle) extra); sst; rewrite ?Hpc; try reflexivity.
    + intros Hsd x. unfold broadcast_bg. rewrite (quiet_stays s x _ _ (stays_wake_bg s x _)). apply (d0 s D Hsd).
    + intros x Hx. unfold broadcast_bg in Hx. rewrite waits_wake_bg in Hx. discriminate.
  (* manual compaction, close: calls without effect on the map *)
  - (* ManualStart *) step_inv H. injection H as <-. destruct (invocable_inv _ _ E) as (H1 & H2 & H3).
    apply (own_ok s t _ (PMan false) _ (PhInv SManual) I H3); try reflexivity; try discriminate; try congruence.
    apply own_start; assumption.
  - (* ManualLoop *) step_inv H; injection H as <-; pose proof (phase_at s t _ L E) as H4.
    + (* somebody's manual compaction is pending: a call is scheduled for it *) bool_hyps.
      apply (nap_ok s t _ I). rewrite E. apply (stays_sleep s t (PManWait d)); try discriminate. intros _.
      apply care_bgs; [apply (d3 s D); unfold has_manual; rewrite E1; reflexivity|assumption|assumption].
    + bool_hyps. apply bgsch_ok; [| | |sst; congruence|apply (d1 s D)|apply (d5 s D)].
      * exact Q.
      * exact L.
      * apply grows_same; reflexivity.
    + apply (nap_ok s t _ I). rewrite E. repeat split; cbn; discriminate.
  - (* Manual2 *) step_inv H; [injection H as <-|destruct (l_manual s) as [m|] eqn:Em; [destruct (Nat.eqb m t) eqn:Emt|]; injection H as <-];
      pose proof (phase_at s t _ L E) as H4.
    + apply (nap_ok s t _ I). rewrite E. apply (stays_sleep s t PMan2Wait); try discriminate. intros _. exact E0.
    + apply (stepped_trans _ _ _ (clear_manual_ok s I)). intros I1.
      apply (own_ok _ t _ PIdle _ PhIdle I1 E); try reflexivity; try discriminate.
      apply (own_finish _ _ _ _ (iL _ I1) H4). reflexivity.
    + apply (own_ok s t _ PIdle _ PhIdle I E); try reflexivity; try discriminate.
      apply (own_finish s _ _ _ L H4). reflexivity.
    + apply (own_ok s t _ PIdle _ PhIdle I E); try reflexivity; try discriminate.
      apply (own_finish s _ _ _ L H4). reflexivity.
  - (* CloseStart: everybody is idle, so once shutting_down is set everybody is quiet and nobody waits *)
    step_inv H. injection H as <-. bool_hyps.
    assert (Hidle : forall x, l_pc s x = PIdle).
    { intro x. destruct (is_thread s x) eqn:Ex; [apply all_idle_inv; assumption|apply (q6 (qt Q _)), Ex]. }
    apply stepped_intro.
    + apply (InvQ_upd_nq s t PCloseCheck Q); [rewrite Hidle; reflexivity|reflexivity|auto].
    + destruct D as [D0 D1 D2 D3 D4 D5]. constructor; unfold care; sst; rewrite ?orb_true_r; auto.
      * intros _ x. unfold upd. destruct (Nat.eqb x t); [reflexivity|rewrite Hidle; reflexivity].
      * intros x Hx. unfold upd in Hx. destruct (Nat.eqb x t); [discriminate|rewrite Hidle in Hx; discriminate].
    + apply (InvL_move s t PCloseCheck _ (PhInv SClose) [] _ _ _ L Q); try reflexivity; try contradiction; try (rewrite Hidle; reflexivity);
        [symmetry; apply app_nil_r|apply own_start, Hidle; exact L|apply (l7 L)].
    + apply grows_same; reflexivity.
  - (* CloseCheck *) step_inv H; injection H as <-; pose proof (phase_at s t _ L E) as H4.
    + apply (nap_ok s t _ I). rewrite E. apply (stays_sleep s t PCloseWait); try discriminate. intros _. exact E0.
    + apply (own_ok s t _ PClosed _ PhIdle I E); try reflexivity; try discriminate.
      apply (own_finish s _ _ _ L H4). reflexivity.
  - (* Spurious *) step_inv H. injection H as <-. apply (nap_ok s t _ I), stays_wake.
Qed.

Lemma reachable_inv : forall th s, reachable th s -> Inv s.
Proof.
  induction 1 as [|s l s' _ I H]; [split; [apply InvQ_init|apply InvD_init|apply InvL_init]|apply (step_ok s l s' I H)].
Qed.
Lemma step_grows : forall th s l s', reachable th s -> lts_step s l = Some s' -> grows s s'.
Proof. intros th s l s' R H. apply (step_ok s l s' (reachable_inv th s R) H). Qed.

Definition busy (s : lstate) : Prop :=
  (exists t, l_pc s t <> PIdle /\ l_pc s t <> PClosed) \/ l_bgpc s <> BIdle.

Definition enabled (s : lstate) (l : label) : Prop := exists s', lts_step s l = Some s'.

Lemma head_step : forall s t, l_pc s t = PCheck -> is_head (l_queue s) t = true ->
  exists l, progress_label l = true /\ enabled s l.
Proof.
  intros s t Hpc Hh. destruct (l_queue s) as [|e q'] eqn:Eq; [discriminate|]. cbn in Hh.
  destruct (l_bge s) eqn:Ebge.
  - exists (WLeaderErr t). split; [reflexivity|]. unfold enabled. cbn [lts_step]. rewrite Hpc, Eq, Hh, Ebge. cbn. eauto.
  - destruct (is_flush e || l_full s) eqn:Ef.
    + destruct (has_imm s || (L0_STOP_WRITES_TRIGGER <=? l_l0 s)) eqn:Ew.
      * exists (WRoomWait t). split; [reflexivity|]. unfold enabled. cbn [lts_step]. rewrite Hpc, Eq, Hh, Ebge, Ef, Ew. cbn. eauto.
      * apply orb_false_iff in Ew. destruct Ew as [Ei El]. apply Nat.leb_gt in El.
        exists (Switch t). split; [reflexivity|]. unfold enabled. cbn [lts_step]. rewrite Hpc, Eq, Hh, Ebge, Ef, Ei.
        replace (l_l0 s <? L0_STOP_WRITES_TRIGGER) with true by (symmetry; apply Nat.ltb_lt; exact El). cbn.
        destruct (is_flush e); eauto.
    + apply orb_false_iff in Ef. destruct Ef as [Efl Efu].
      exists (WLeaderStart t 1). split; [reflexivity|]. unfold enabled. cbn [lts_step]. rewrite Hpc, Eq. cbn [is_head]. rewrite Hh, Ebge, Efu.
      cbn [group_ok]. unfold is_flush in Efl. destruct (q_batch e); [|discriminate]. cbn. eauto.
Qed.

(* a background call that is scheduled or running can always go on *)
Lemma bg_enabled : forall s, l_bgpc s <> BIdle -> exists l, progress_label l = true /\ enabled s l.
Proof.
  intros s Hbg. destruct (l_bgpc s) eqn:Ebg; [contradiction| | |].
  - exists BgStart. split; [reflexivity|]. unfold enabled. cbn. rewrite Ebg. eauto.
  - destruct (l_sd s || l_bge s) eqn:Es.
    + exists BgSkip. split; [reflexivity|]. unfold enabled. cbn. rewrite Ebg, Es. eauto.
    + apply orb_false_iff in Es. destruct Es as [Es Ee].
      destruct (l_imm s) eqn:Ei.
      * exists BgFlush. split; [reflexivity|]. unfold enabled. cbn. rewrite Ebg, Ei, Es, Ee. cbn. eauto.
      * exists (BgCompact 0 true). split; [reflexivity|]. unfold enabled. cbn. rewrite Ebg, Es, Ee. unfold has_imm. rewrite Ei. cbn.
        destruct (l_manual s); eauto.
  - exists (BgFinish false). split; [reflexivity|]. unfold enabled. cbn. rewrite Ebg. eauto.
Qed.

(* a thread inside a call and awake can always take a step of its own, in any state: no invariant is needed *)
Lemma awake_enabled : forall s t, l_pc s t <> PIdle -> l_pc s t <> PClosed ->
  waits_cv (l_pc s t) = false -> waits_bg (l_pc s t) = false -> exists l, progress_label l = true /\ enabled s l.
Proof.
  intros s t Hn1 Hn2 Hc Hw. destruct (l_pc s t) eqn:Ept; try discriminate; try congruence.
  - (* PCheck *) destruct (is_head (l_queue s) t) eqn:Eh; [eapply head_step; eassumption|].
    exists (WWaitFollower t). split; [reflexivity|]. unfold enabled. cbn. rewrite Ept, Eh. cbn. eauto.
  - (* PDone *) exists (WFollowerDone t). split; [reflexivity|]. unfold enabled. cbn. rewrite Ept. destruct fl, ok; eauto.
  - exists (WLeaderLog t false). split; [reflexivity|]. unfold enabled. cbn. rewrite Ept. eauto.
  - exists (WLeaderPublish t). split; [reflexivity|]. unfold enabled. cbn. rewrite Ept. eauto.
  - exists (FlushCheck t). split; [reflexivity|]. unfold enabled. cbn. rewrite Ept. destruct (has_imm s && negb (l_bge s)); eauto.
  - exists (RRead t false). split; [reflexivity|]. unfold enabled. cbn. rewrite Ept. eauto.
  - exists (ManualLoop t). split; [reflexivity|]. unfold enabled. cbn. rewrite Ept.
    destruct (negb d && negb (l_sd s) && negb (l_bge s)); [destruct (l_manual s)|]; eauto.
  - exists (Manual2 t). split; [reflexivity|]. unfold enabled. cbn. rewrite Ept. destruct (l_bgs s); eauto.
  - exists (CloseCheck t). split; [reflexivity|]. unfold enabled. cbn. rewrite Ept. destruct (l_bgs s); eauto.
Qed.

Theorem no_deadlock : forall th s, reachable th s -> busy s ->
  exists l, progress_label l = true /\ enabled s l.
Proof.
  intros th s R B. destruct (reachable_inv th s R) as [Q D _].
  destruct (l_bgpc s) eqn:Ebg; [|apply bg_enabled; rewrite Ebg; discriminate..].
  (* the background thread is idle, so nothing is scheduled and nobody waits for it *)
  assert (Hb : l_bgs s = false) by (rewrite (d1 s D), Ebg; reflexivity).
  destruct B as [[t [Hn1 Hn2]]|B]; [|congruence].
  assert (Hnw : forall x, waits_bg (l_pc s x) = false).
  { intro x. destruct (waits_bg (l_pc s x)) eqn:E; [|reflexivity]. rewrite (d5 s D x E) in Hb. discriminate. }
  destruct (waits_cv (l_pc s t)) eqn:Ew; [|apply (awake_enabled s t); auto].
  (* t sleeps on its cv: it is queued and not the head; the head is awake *)
  assert (Ept : l_pc s t = PWaitCv) by (destruct (l_pc s t); try discriminate; reflexivity).
  pose proof (q1 (qt Q t)) as Hin. rewrite Ept in Hin. destruct (l_queue s) as [|e q'] eqn:Eq; [discriminate|].
  assert (Hh : is_head (l_queue s) (q_tid e) = true) by (rewrite Eq; cbn; apply Nat.eqb_refl).
  pose proof (q1 (qt Q (q_tid e))) as Hqh. rewrite (is_head_in_queue _ _ Hh) in Hqh.
  apply (awake_enabled s (q_tid e)); auto; try (intro E; rewrite E in Hqh; discriminate).
  destruct (l_pc s (q_tid e)) eqn:Eph; try reflexivity. rewrite (q5 (qt Q _) Eph) in Hh. discriminate.
Qed.

(* (1) a writer waits on its own condition variable only while it is queued, not the head and not done
       (a done writer is in state PDone, never PWaitCv);
   (2) a thread waits on background_work_finished only while a background call is scheduled or running;
   (3) the steps that end these conditions wake the waiters: see wakers below. *)
Definition waker_obligation (s : lstate) : Prop :=
  (forall t, l_pc s t = PWaitCv -> in_queue (l_queue s) t = true /\ is_head (l_queue s) t = false) /\
  (forall t, waits_bg (l_pc s t) = true -> l_bgs s = true /\ l_bgpc s <> BIdle).

Theorem waker_invariant : forall th s, reachable th s -> waker_obligation s.
Proof.
  intros th s R. destruct (reachable_inv th s R) as [Q D _]. split.
  - intros t H. split; [rewrite (q1 (qt Q _)), H; reflexivity|apply (q5 (qt Q t) H)].
  - intros t H. pose proof (d5 s D t H) as Hb. split; [exact Hb|]. rewrite (d1 s D) in Hb. destruct (l_bgpc s); congruence.
Qed.

(* the wakers: (a) whoever makes a waiting writer the head or marks it done signals its cv: after every step no
   thread waits on its cv while being head (q5 above), and a thread that is no longer in the queue neither waits
   on its cv nor re-checks the queue (outside_queue_awake below; that it is in PDone is publish_pcs);
   (b) every background call ends with a broadcast and so does setting bg_error: after BgFinish / BgFail nobody waits. *)
Theorem bg_call_ends_with_broadcast : forall s e s', lts_step s (BgFinish e) = Some s' -> forall t, waits_bg (l_pc s' t) = false.
Proof.
  intros s e s' H t. cbn [lts_step] in H. step_inv H. injection H as <-. apply waits_wake_bg.
Qed.
Theorem bg_error_is_broadcast : forall s s', lts_step s BgFail = Some s' -> forall t, waits_bg (l_pc s' t) = false.
Proof.
  intros s s' H t. cbn [lts_step] in H. step_inv H. injection H as <-. apply waits_wake_bg.
Qed.
(* holds in every state; publish_wakes_group is its instance after a publish step and uses nothing of that step *)
Lemma outside_queue_awake : forall s x, InvQ s -> in_queue (l_queue s) x = false -> l_pc s x <> PWaitCv /\ l_pc s x <> PCheck.
Proof. intros s x Q H. pose proof (q1 (qt Q x)) as H1. rewrite H in H1. split; intro E; rewrite E in H1; discriminate. Qed.
Theorem publish_wakes_group : forall th s t s', reachable th s -> lts_step s (WLeaderPublish t) = Some s' ->
  forall x, in_queue (l_queue s) x = true -> in_queue (l_queue s') x = false -> l_pc s' x <> PWaitCv /\ l_pc s' x <> PCheck.
Proof.
  intros th s t s' R H x _ Hout. apply outside_queue_awake; [|exact Hout].
  apply (reachable_inv th), (reach_step th s _ s' R H).
Qed.

(* Every reachable state carries a trace in which each operation has a linearization point between its
   invocation and its response (wf_trace), and the sequence of linearization points -- writes at their publish step in
   group order, reads at their capture step, snapshots at creation -- is a legal run of the sorted-map specification
   ending in the published prefix of the store. *)
Theorem publish_order_linearizable : forall th s, reachable th s ->
  wf_trace (l_trace s) /\ run_lin (l_trace s) = Some (firstn (l_last_seq s) (l_store s)).
Proof.
  intros th s R. destruct (reachable_inv th s R) as [_ _ L]. split; [apply (l1 L)|].
  rewrite (l2 L), (committed_prefix s L). reflexivity.
Qed.

Lemma wf_trace_app : forall a b, wf_trace (a ++ b) -> wf_trace b.
Proof. induction a as [|e a IH]; intros b H; [exact H|]. apply IH, H. Qed.

(* real time: a linearization point lies inside its call, and a call returns what was decided at that point *)
Theorem lin_respects_real_time : forall th s, reachable th s ->
  (forall a t o r b, l_trace s = a ++ ELin t o r :: b -> phase_of b t = PhInv o) /\
  (forall a t r b, l_trace s = a ++ ERet t r :: b -> exists o, phase_of b t = PhLin o r) /\
  (forall a t o b, l_trace s = a ++ EInv t o :: b -> phase_of b t = PhIdle).
Proof.
  intros th s R. destruct (publish_order_linearizable th s R) as [W _].
  repeat split; intros; rewrite H in W; apply wf_trace_app in W; apply W.
Qed.

Lemma published_prefix_stable : forall th s l s' q, reachable th s -> lts_step s l = Some s' ->
  q <= length (concat (l_committed s)) -> firstn q (l_store s') = firstn q (l_store s).
Proof.
  intros th s l s' q R H Hq. destruct (step_grows th s l s' R H) as (_ & [x Hx]).
  rewrite Hx. apply firstn_app_le. pose proof (store_len s (iL s (reachable_inv th s R))). lia.
Qed.

(* reads never go backwards: what an earlier capture saw is a prefix of what any later capture sees *)
Theorem monotone_reads : forall th s l s', reachable th s -> lts_step s l = Some s' ->
  l_last_seq s <= l_last_seq s' /\ firstn (l_last_seq s) (l_store s') = firstn (l_last_seq s) (l_store s).
Proof.
  intros th s l s' R H. split; [apply (step_grows th s l s' R H)|].
  apply (published_prefix_stable th s l s' _ R H). rewrite (l5 (iL s (reachable_inv th s R))). apply le_n.
Qed.

(* a snapshot (and the sequence captured by a reader) is a single point of the publish order: it stands on a batch
   boundary and the view below it never changes again *)
Theorem snapshot_single_point : forall th s l s' h, reachable th s -> lts_step s l = Some s' ->
  (In h (l_snaps s) \/ exists t k, l_pc s t = PRead h k) ->
  is_boundary (l_committed s) h /\ firstn h (l_store s') = firstn h (l_store s).
Proof.
  intros th s l s' h R H Hh. destruct (reachable_inv th s R) as [_ _ L].
  assert (Hb : is_boundary (l_committed s) h).
  { destruct Hh as [Hh|(t & k & Hh)]; [apply (l7 L); exact Hh|apply (phase_at s t _ L Hh)]. }
  split; [exact Hb|]. apply (published_prefix_stable th s l s' h R H), boundary_le, Hb.
Qed.

Lemma boundary_view : forall s q, InvL s -> is_boundary (l_committed s) q ->
  exists j, firstn q (l_store s) = concat (firstn j (l_committed s)).
Proof.
  intros s q L [j ->]. exists j. rewrite (l6 L).
  rewrite <- (firstn_skipn j (l_committed s)) at 2. rewrite concat_app, <- app_assoc.
  apply firstn_app_length.
Qed.

Theorem published_on_batch_boundary : forall th s, reachable th s ->
  (* last_sequence is the end of a whole batch of the committed list, and the published state is exactly these batches *)
  l_last_seq s = length (concat (l_committed s)) /\ firstn (l_last_seq s) (l_store s) = concat (l_committed s) /\
  (* what a reader captured (latest sequence or snapshot) is a prefix of the committed BATCHES: whole batches only *)
  (forall t q k, l_pc s t = PRead q k -> exists j, firstn q (l_store s) = concat (firstn j (l_committed s))) /\
  (forall h, In h (l_snaps s) -> exists j, firstn h (l_store s) = concat (firstn j (l_committed s))).
Proof.
  intros th s R. destruct (reachable_inv th s R) as [_ _ L]. split; [apply (l5 L)|]. split; [apply committed_prefix; exact L|]. split.
  - intros t q k H. apply boundary_view; [exact L|]. apply (phase_at s t _ L H).
  - intros h H. apply boundary_view; [exact L|]. apply (l7 L). exact H.
Qed.

(* a group commit publishes the batches of its members in queue order, as whole batches *)
Theorem group_commit_keeps_batches : forall s t s' n, l_pc s t = PLogged n -> lts_step s (WLeaderPublish t) = Some s' ->
  l_committed s' = l_committed s ++ group_batches (firstn n (l_queue s)).
Proof. intros s t s' n Hpc H. cbn [lts_step] in H. rewrite Hpc in H. injection H as <-. reflexivity. Qed.

Theorem abs_inv_reachable : forall th s, reachable th s -> abs_inv (abs_of s) = true.
Proof.
  intros th s R. destruct (reachable_inv th s R) as [_ D _]. unfold abs_inv, abs_of. cbn [a_queue a_imm a_bgs a_bge a_sd a_man a_l0].
  assert (Hq : forallb (fun e : aq => negb (aq_done e))
            (map (fun e : qent => mkAQ (N.of_nat (q_tid e)) false (q_sync e) match q_batch e with Some _ => true | None => false end) (l_queue s)) = true).
  { induction (l_queue s) as [|e q IH]; [reflexivity|exact IH]. }
  (* each remaining conjunct is one field of InvD *)
  assert (Hc : forall b, (b = true -> care s = true) -> implb b (l_bgs s || l_bge s || l_sd s) = true).
  { intros [|] H; [exact (H eq_refl)|reflexivity]. }
  rewrite Hq, (Hc _ (d2 s D)), (Hc _ (d3 s D)), Hc; [reflexivity|]. intro E. apply (d4 s D), Nat.compare_le_iff.
  (* Lts.abs_inv writes the trigger as the numeral 4 *)
  unfold N.leb in E. change 4%N with (N.of_nat L0_COMPACTION_TRIGGER) in E. rewrite <- Nat2N.inj_compare in E.
  intro Hc'. rewrite Hc' in E. discriminate.
Qed.
