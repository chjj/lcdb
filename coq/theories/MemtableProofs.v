(* MemtableProofs.v -- the encoding side of the memtable (Memtable.v):
   - an entry is two slices (Varint.slice_write), and the decoder of slice.h, which checks no
     bound, agrees with Varint.slice_read wherever that succeeds: the decodes of an entry, of a
     value and of a lookup key, and the encode / decode round trip, from slice_read_write;
   - ldb_skiplist_compare over encoded entries is a total order (SkiplistSpec.cmp_order)
     whenever the user comparator is one, and on entries that differ in user key or sequence
     number it is Engine.icmp on the decoded entries ([mt_compare_icmp]), so encoding commutes
     with sorted insertion ([map_insert_sorted]);
   - the seek predicate and the body of ldb_memtable_get on an encoded entry are those of
     Engine.get_in_run ([ge_key_target], [get_body_entry]).
   MemtableGet.v puts these together with the skiplist theorems. *)
From LCDB Require Import Base BaseProofs Varint VarintProofs IKey IKeyProofs
     Engine EngineSpec EngineStepsBase EngineRead Skiplist SkiplistSpec Memtable.
From Coq Require Import Lia.
Local Open Scope N_scope.

#[local] Arguments N.mul : simpl never.
#[local] Arguments N.add : simpl never.
#[local] Arguments N.div : simpl never.
#[local] Arguments N.modulo : simpl never.
#[local] Arguments N.ltb : simpl never.
#[local] Arguments N.leb : simpl never.

Definition MAXSEQ1 : N := 72057594037927936.      (* 2^56 *)

Definition entry_ok (e : entry) : Prop :=
  es e < MAXSEQ1 /\ nlen (ek e) + 8 < 4294967296 /\ nlen (ev e) < 4294967296.

Definition add_ok (a : N * N * bytes * bytes) : Prop :=
  let '(seq, ty, k, v) := a in
  seq < MAXSEQ1 /\ (ty = TYPE_DELETION \/ ty = TYPE_VALUE) /\
  nlen k + 8 < 4294967296 /\ nlen v < 4294967296.

(* the type byte of an entry *)
Definition ety (e : entry) : N := if et e then TYPE_VALUE else TYPE_DELETION.
Definition enc_entry (e : entry) : bytes := mem_entry_encode (ek e) (es e) (ety e) (ev e).
Definition enc_add (a : N * N * bytes * bytes) : bytes :=
  let '(seq, ty, k, v) := a in mem_entry_encode k seq ty v.

Lemma enc_add_entry a : add_ok a -> enc_add a = enc_entry (entry_of_add a) /\ entry_ok (entry_of_add a).
Proof.
  destruct a as [[[seq ty] k] v]. cbn [add_ok enc_add entry_of_add].
  intros (Hs & Ht & Hk & Hv). unfold enc_entry, ety, entry_ok. cbn [ek es et ev].
  split; [|auto].
  destruct Ht as [Ht|Ht]; subst ty; reflexivity.
Qed.

Lemma ety_small e : ety e < 256.
Proof. unfold ety. destruct (et e); reflexivity. Qed.

(* the decoder of slice.h, which checks no bound, agrees with the checked one wherever that succeeds *)
Lemma mt_slice_decode_read l s rest : slice_read l = Some (s, rest) -> mt_slice_decode l = (s, rest).
Proof.
  unfold slice_read, mt_slice_decode. destruct (varint32_read l) as [[n r]|]; [|discriminate].
  destruct (nlen r <? n); [discriminate|]. intros H. injection H as <- <-. reflexivity.
Qed.

Lemma mt_slice_decode_write (s rest : bytes) :
  nlen s < 4294967296 -> mt_slice_decode (slice_write s ++ rest) = (s, rest).
Proof. intros Hs. apply mt_slice_decode_read, slice_read_write, Hs. Qed.

(* a length below 2^32 is written as it is: the fields of an entry and the lookup key are slices *)
Lemma slice_write_mod (s : bytes) :
  nlen s < 4294967296 -> varint32_write (nlen s mod 4294967296) ++ s = slice_write s.
Proof. intros Hs. rewrite N.mod_small by exact Hs. reflexivity. Qed.

Lemma nlen_ikey (k : bytes) x : nlen (k ++ le64 x) = nlen k + 8.
Proof. rewrite nlen_app, nlen_le64. reflexivity. Qed.

Lemma ikey_slice k x : nlen k + 8 < 4294967296 ->
  varint32_write ((nlen k + 8) mod 4294967296) ++ k ++ le64 x = slice_write (k ++ le64 x).
Proof. intros Hk. rewrite <- (nlen_ikey k x) in *. apply slice_write_mod, Hk. Qed.

Lemma mem_entry_slices k seq ty v : nlen k + 8 < 4294967296 ->
  mem_entry_encode k seq ty v
  = slice_write (k ++ le64 (pack_seqtype seq ty)) ++ varint32_write (nlen v mod 4294967296) ++ v.
Proof.
  intros Hk. rewrite <- ikey_slice by exact Hk. unfold mem_entry_encode.
  rewrite <- !app_assoc. reflexivity.
Qed.

Lemma decode_entry k seq ty v :
  nlen k + 8 < 4294967296 ->
  mt_slice_decode (mem_entry_encode k seq ty v)
  = (k ++ le64 (pack_seqtype seq ty), varint32_write (nlen v mod 4294967296) ++ v).
Proof.
  intros Hk. rewrite mem_entry_slices by exact Hk.
  apply mt_slice_decode_write. rewrite nlen_ikey. exact Hk.
Qed.

Lemma decode_value (v : bytes) :
  nlen v < 4294967296 ->
  mt_slice_decode (varint32_write (nlen v mod 4294967296) ++ v) = (v, []).
Proof.
  intros Hv. rewrite slice_write_mod, <- (app_nil_r (slice_write v)) by exact Hv.
  apply mt_slice_decode_write, Hv.
Qed.

Lemma decode_lkey k q :
  nlen k + 8 < 4294967296 ->
  mt_slice_decode (lkey_memtable_key k q) = (k ++ le64 (pack_seqtype q VALTYPE_SEEK), []).
Proof.
  intros Hk. rewrite lkey_memtable_key_eq, <- (app_nil_r (slice_write _)) by exact Hk.
  apply mt_slice_decode_write. rewrite nlen_ikey. exact Hk.
Qed.

Theorem mem_entry_roundtrip : forall k seq ty v,
  seq < MAXSEQ1 -> ty < 256 -> nlen k + 8 < 4294967296 -> nlen v < 4294967296 ->
  mem_entry_decode (mem_entry_encode k seq ty v) = Some (k, seq, ty, v).
Proof.
  intros k seq ty v Hs Ht Hk Hv. unfold mem_entry_decode.
  rewrite mem_entry_slices, slice_read_write, nlen_ikey by (rewrite ?nlen_ikey; exact Hk).
  destruct (N.ltb_spec (nlen k + 8) 8) as [E8|_]; [lia|].
  rewrite slice_write_mod, <- (app_nil_r (slice_write v)), slice_read_write by exact Hv.
  rewrite ikey_user_app, ikey_tag_pack by assumption.
  destruct (tag_fields 256 seq ty Ht) as [-> ->]. reflexivity.
Qed.

Section Cmp.
Variable ucmp : bytes -> bytes -> comparison.
Hypothesis TO : total_order ucmp.

Lemma mt_compare_order : cmp_order (mt_compare ucmp).
Proof.
  pose proof (order_on (fun x => fst (mt_slice_decode x)) _ (ikc_order ucmp TO)) as O.
  exact (Build_cmp_order _ _ (cmp_refl O) (fun a b H c => conj (cmp_eq_l O a b c H) (cmp_eq_r O a b c H))
           (cmp_opp O) (cmp_lt_trans O)).
Qed.

Lemma mt_compare_entries a b : entry_ok a -> entry_ok b ->
  mt_compare ucmp (enc_entry a) (enc_entry b)
  = match ucmp (ek a) (ek b) with
    | Eq => N.compare (es b * 256 + ety b) (es a * 256 + ety a)
    | c => c
    end.
Proof.
  intros (Hsa & Hka & Hva) (Hsb & Hkb & Hvb). unfold mt_compare, enc_entry.
  rewrite !decode_entry by assumption. cbn [fst]. unfold ikc_compare.
  rewrite !ikey_user_app, !ikey_tag_pack by (assumption || apply ety_small). reflexivity.
Qed.

Definition idistinct (a b : entry) : Prop := ~ (ucmp (ek a) (ek b) = Eq /\ es a = es b).

(* on entries that differ in user key or in sequence number, the order of the encodings is the
   internal key order of the engine model: the type byte below the sequence number decides nothing *)
Lemma mt_compare_icmp a b : entry_ok a -> entry_ok b -> idistinct a b ->
  mt_compare ucmp (enc_entry a) (enc_entry b) = icmp ucmp a b.
Proof.
  intros Ha Hb Hd. rewrite mt_compare_entries by assumption. unfold icmp, idistinct in *.
  destruct (ucmp (ek a) (ek b)); try reflexivity.
  rewrite (digits_compare 256) by apply ety_small.
  destruct (N.compare_spec (es b) (es a)) as [E|_|_]; try reflexivity.
  destruct Hd. split; [reflexivity|symmetry; exact E].
Qed.

Lemma icmp_distinct a b : idistinct a b -> icmp ucmp a b <> Eq.
Proof. intros Hd E. exact (Hd (proj1 (icmp_eq_iff ucmp a b) E)). Qed.

(* the seek predicate: first encoded entry >= the lookup key  =  Engine.ge_target *)
Lemma ge_key_target k q e : entry_ok e -> q < MAXSEQ1 -> nlen k + 8 < 4294967296 ->
  ge_key (mt_compare ucmp) (lkey_memtable_key k q) (enc_entry e) = ge_target ucmp k q e.
Proof.
  intros (Hs & Hk & Hv) Hq Hkk. unfold ge_key, mt_compare, enc_entry.
  rewrite decode_entry, decode_lkey by assumption. cbn [fst]. unfold ikc_compare, ge_target.
  rewrite !ikey_user_app, !ikey_tag_pack by (assumption || apply ety_small || reflexivity).
  destruct (ucmp (ek e) k) eqn:Eu; try reflexivity.
  unfold VALTYPE_SEEK.
  assert (Hety : ety e <= 1) by (unfold ety, TYPE_VALUE, TYPE_DELETION; destruct (et e); lia).
  destruct (q * 256 + 1 ?= es e * 256 + ety e) eqn:C.
  - rewrite N.compare_eq_iff in C. symmetry. apply N.leb_le. lia.
  - rewrite N.compare_lt_iff in C. symmetry. apply N.leb_gt. lia.
  - rewrite N.compare_gt_iff in C. symmetry. apply N.leb_le. lia.
Qed.

Fixpoint entries_distinct (l : list entry) : Prop :=
  match l with
  | [] => True
  | a :: r => Forall (idistinct a) r /\ entries_distinct r
  end.

Lemma idistinct_sym a b : idistinct a b -> idistinct b a.
Proof.
  unfold idistinct. intros H [H1 H2]. apply H. split; [|congruence].
  rewrite (to_antisym ucmp TO), H1. reflexivity.
Qed.

Lemma map_insert_sorted e l :
  entry_ok e -> Forall entry_ok l -> Forall (idistinct e) l ->
  map enc_entry (insert_sorted ucmp e l)
  = insert_key (mt_compare ucmp) (enc_entry e) (map enc_entry l).
Proof.
  intros He. induction l as [|x r IH]; intros Hok Hd; cbn [insert_sorted insert_key map]; [reflexivity|].
  rewrite (mt_compare_icmp e x He (Forall_inv Hok) (Forall_inv Hd)), <- (IH (Forall_inv_tail Hok) (Forall_inv_tail Hd)).
  unfold ilt. destruct (icmp ucmp e x); reflexivity.
Qed.

Definition adds_distinct (adds : list (N * N * bytes * bytes)) : Prop :=
  entries_distinct (map entry_of_add adds).

Definition mem_run (adds : list (N * N * bytes * bytes)) : list entry :=
  fold_left (fun m e => insert_sorted ucmp e m) (map entry_of_add adds) [].

Lemma get_body_entry e k : entry_ok e ->
  (let '(okey, rest) := mt_slice_decode (enc_entry e) in
   match ucmp (ikey_user okey) k with
   | Eq =>
       let ty := ikey_tag okey mod 256 in
       if ty =? TYPE_VALUE then Found (fst (mt_slice_decode rest))
       else if ty =? TYPE_DELETION then Deleted
       else NotHere
   | _ => NotHere
   end)
  = if ueq ucmp (ek e) k then result_of_entry e else NotHere.
Proof.
  intros (Hs & Hk & Hv). unfold enc_entry. rewrite decode_entry by exact Hk.
  rewrite ikey_user_app, ikey_tag_pack by (assumption || apply ety_small).
  unfold ueq. destruct (ucmp (ek e) k); try reflexivity.
  rewrite decode_value by exact Hv. cbn [fst].
  rewrite (proj1 (tag_fields 256 (es e) (ety e) (ety_small e))).
  unfold result_of_entry, ety, TYPE_VALUE, TYPE_DELETION. destruct (et e); reflexivity.
Qed.

End Cmp.
Print Assumptions mem_entry_roundtrip.
