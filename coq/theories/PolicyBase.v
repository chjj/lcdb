(* PolicyBase.v -- vocabulary shared by the proofs about Policy.v: total accessors for
   the smallest / largest key of a file, the literal "> 0" comparisons, the user-range
   overlap predicate computed by ldb_version_get_overlapping_inputs, read as an interval
   with optional bounds ([ble], [ele]), and how a range grows ([wider_b], [wider_e]). *)
From LCDB Require Import Base Engine EngineSpec EngineStepsBase EngineStepsInv Policy.
Require Import Lia.
Local Open Scope N_scope.

Section PB.
Variable ucmp : bytes -> bytes -> comparison.
Context {TO : total_order ucmp}.

Notation ult := (Engine.ult ucmp).
Notation ilt := (Engine.ilt ucmp).
Notation icmp := (Engine.icmp ucmp).
Notation FOK := (EngineStepsInv.FOK ucmp).
Notation FB := (EngineStepsInv.FB ucmp).

Lemma ugt_ult a b : ugt ucmp a b = ult b a.
Proof.
  unfold ugt, Engine.ult. rewrite ((cmp_opp TO) a b). destruct (ucmp b a); reflexivity.
Qed.

Lemma ult_false_iff a b : ult a b = false <-> ucmp b a <> Gt.
Proof. exact (cmp_ltb_false_iff TO a b). Qed.

Lemma ugt_false_iff a b : ugt ucmp a b = false <-> ucmp a b <> Gt.
Proof. unfold ugt. destruct (ucmp a b); split; congruence. Qed.

Lemma icmp_opp a b : icmp a b = CompOpp (icmp b a).
Proof. exact (cmp_opp (icmp_order ucmp) a b). Qed.

Lemma igt_ilt a b : igt ucmp a b = ilt b a.
Proof.
  unfold igt, Engine.ilt. rewrite (icmp_opp a b). destruct (icmp b a); reflexivity.
Qed.

Definition dE : entry := mkE [] 0 false [].
Definition sm (f : file) : entry := match fsmallest f with Some a => a | None => dE end.
Definition lg (f : file) : entry := match flargest f with Some a => a | None => dE end.

Lemma FOK_sm f : FOK f -> fsmallest f = Some (sm f).
Proof.
  intros H. destruct (FOK_ends ucmp f H) as (a & r & E1 & E2 & E3). unfold sm. rewrite E2. reflexivity.
Qed.
Lemma FOK_lg f : FOK f -> flargest f = Some (lg f).
Proof.
  intros H. destruct (FOK_ends ucmp f H) as (a & r & E1 & E2 & E3). unfold lg. rewrite E3. reflexivity.
Qed.

Lemma sm_In f : FOK f -> In (sm f) (fents f).
Proof.
  intros H. destruct (FOK_ends ucmp f H) as (a & r & E1 & E2 & E3). unfold sm. rewrite E2, E1. left; auto.
Qed.
Lemma lg_In f : FOK f -> In (lg f) (fents f).
Proof.
  intros H. destruct (FOK_ends ucmp f H) as (a & r & E1 & E2 & E3). unfold lg. rewrite E3, E1. apply last_In.
Qed.

Lemma sm_min f x : FOK f -> In x (fents f) -> ilt x (sm f) = false.
Proof.
  intros H Hx. destruct (FOK_ends ucmp f H) as (a & r & E1 & E2 & E3). unfold sm. rewrite E2.
  destruct H as [_ HS]. rewrite E1 in *. apply (Srt_hd_min ucmp a r x HS Hx).
Qed.
Lemma lg_max f x : FOK f -> In x (fents f) -> ilt (lg f) x = false.
Proof.
  intros H Hx. destruct (FOK_ends ucmp f H) as (a & r & E1 & E2 & E3). unfold lg. rewrite E3.
  destruct H as [_ HS]. rewrite E1 in *. apply (Srt_last_max ucmp a r x HS Hx).
Qed.

Lemma sm_le_lg f : FOK f -> ilt (lg f) (sm f) = false.
Proof. intros H. apply lg_max; auto. apply sm_In; auto. Qed.

Lemma sm_umin f x : FOK f -> In x (fents f) -> ucmp (ek (sm f)) (ek x) <> Gt.
Proof. intros H Hx. apply (ile_ukey ucmp). apply sm_min; auto. Qed.
Lemma lg_umax f x : FOK f -> In x (fents f) -> ucmp (ek x) (ek (lg f)) <> Gt.
Proof. intros H Hx. apply (ile_ukey ucmp). apply lg_max; auto. Qed.
Lemma sm_lg_user f : FOK f -> ucmp (ek (sm f)) (ek (lg f)) <> Gt.
Proof. intros H. apply sm_umin; auto. apply lg_In; auto. Qed.

Lemma FB_sm_lg f g : FOK f -> FOK g -> (FB f g <-> ilt (lg f) (sm g) = true).
Proof.
  intros Hf Hg. rewrite <- (FBb_FB ucmp f g Hf Hg). unfold FBb.
  rewrite (FOK_lg f Hf), (FOK_sm g Hg). tauto.
Qed.

Lemma FB_sm_lt f g : FOK f -> FOK g -> FB f g -> ilt (sm f) (sm g) = true.
Proof. intros Hf Hg H. apply H; apply sm_In; assumption. Qed.
Lemma FB_lg_lt f g : FOK f -> FOK g -> FB f g -> ilt (lg f) (lg g) = true.
Proof. intros Hf Hg H. apply H; apply lg_In; assumption. Qed.

(* the user-range tests of get_overlapping_inputs *)
Definition ovl (ub ue : option bytes) (f : file) : bool :=
  negb (before_begin ucmp ub (ek (lg f))) && negb (after_end ucmp ue (ek (sm f))).
(* the file does not extend the range *)
Definition within (ub ue : option bytes) (f : file) : bool :=
  negb (before_begin ucmp ub (ek (sm f))) && negb (after_end ucmp ue (ek (lg f))).

(* an optional bound: an absent begin lies below every key, an absent end above *)
Definition ble (ub : option bytes) (x : bytes) : Prop :=
  match ub with Some u => ucmp u x <> Gt | None => True end.
Definition ele (x : bytes) (ue : option bytes) : Prop :=
  match ue with Some u => ucmp x u <> Gt | None => True end.

Lemma before_begin_false ub x : before_begin ucmp ub x = false <-> ble ub x.
Proof. destruct ub as [u|]; cbn [before_begin ble]; [apply ult_false_iff|tauto]. Qed.

Lemma after_end_false ue x : after_end ucmp ue x = false <-> ele x ue.
Proof. destruct ue as [u|]; cbn [after_end ele]; [apply ugt_false_iff|tauto]. Qed.

Lemma before_begin_true ub x :
  before_begin ucmp ub x = true <-> exists u, ub = Some u /\ ucmp x u = Lt.
Proof.
  destruct ub as [u|]; cbn [before_begin].
  - rewrite (ult_iff ucmp). split; [intros H; exists u; auto|intros (u' & [= <-] & H); exact H].
  - split; [discriminate|intros (u & [=] & _)].
Qed.

Lemma after_end_true ue x :
  after_end ucmp ue x = true <-> exists u, ue = Some u /\ ucmp u x = Lt.
Proof.
  destruct ue as [u|]; cbn [after_end].
  - rewrite ugt_ult, (ult_iff ucmp). split; [intros H; exists u; auto|intros (u' & [= <-] & H); exact H].
  - split; [discriminate|intros (u & [=] & _)].
Qed.

Lemma ovl_iff ub ue f : ovl ub ue f = true <-> ble ub (ek (lg f)) /\ ele (ek (sm f)) ue.
Proof.
  unfold ovl. rewrite andb_true_iff, !negb_true_iff, before_begin_false, after_end_false. reflexivity.
Qed.

Lemma within_iff ub ue f : within ub ue f = true <-> ble ub (ek (sm f)) /\ ele (ek (lg f)) ue.
Proof.
  unfold within. rewrite andb_true_iff, !negb_true_iff, before_begin_false, after_end_false. reflexivity.
Qed.

Lemma ovl_false ub ue f :
  ovl ub ue f = false <->
  before_begin ucmp ub (ek (lg f)) = true \/ after_end ucmp ue (ek (sm f)) = true.
Proof. unfold ovl. rewrite andb_false_iff, !negb_false_iff. reflexivity. Qed.

Lemma ble_trans ub x y : ble ub x -> ucmp x y <> Gt -> ble ub y.
Proof. destruct ub as [u|]; cbn [ble]; [apply (cmp_le_trans TO)|trivial]. Qed.

Lemma ele_trans x y ue : ucmp x y <> Gt -> ele y ue -> ele x ue.
Proof. destruct ue as [u|]; cbn [ele]; [apply (cmp_le_trans TO)|trivial]. Qed.

(* along ascending keys the begin test stays false once it is false, the end test true *)
Lemma before_begin_mono ub x y : ucmp x y <> Gt -> before_begin ucmp ub x = false -> before_begin ucmp ub y = false.
Proof. intros H1 H2. apply before_begin_false. apply before_begin_false in H2. exact (ble_trans ub x y H2 H1). Qed.

Lemma after_end_mono ue x y : ucmp x y <> Gt -> after_end ucmp ue x = true -> after_end ucmp ue y = true.
Proof.
  destruct ue as [u|]; cbn [after_end]; [|trivial]. rewrite !ugt_ult. intros H1 H2.
  apply (ult_iff ucmp). apply (ult_iff ucmp) in H2. exact (cmp_lt_le TO u x y H2 H1).
Qed.

(* the range only grows *)
Definition wider_b (ub ub' : option bytes) : Prop :=
  match ub, ub' with
  | None, None => True
  | Some u, Some u' => ucmp u' u <> Gt
  | _, _ => False
  end.
Definition wider_e (ue ue' : option bytes) : Prop :=
  match ue, ue' with
  | None, None => True
  | Some u, Some u' => ucmp u u' <> Gt
  | _, _ => False
  end.

Lemma wider_b_refl ub : wider_b ub ub.
Proof. destruct ub as [u|]; cbn [wider_b]; auto. rewrite (cmp_refl TO). congruence. Qed.

Lemma wider_e_refl ue : wider_e ue ue.
Proof. destruct ue as [u|]; cbn [wider_e]; auto. rewrite (cmp_refl TO). congruence. Qed.

Lemma wider_b_trans a b c : wider_b a b -> wider_b b c -> wider_b a c.
Proof.
  destruct a as [x|], b as [y|], c as [z|]; cbn [wider_b]; try tauto.
  intros H1 H2. apply (cmp_le_trans TO z y x); auto.
Qed.

Lemma wider_e_trans a b c : wider_e a b -> wider_e b c -> wider_e a c.
Proof.
  destruct a as [x|], b as [y|], c as [z|]; cbn [wider_e]; try tauto.
  intros H1 H2. apply (cmp_le_trans TO x y z); auto.
Qed.

Lemma wider_ble ub ub' x : wider_b ub ub' -> ble ub x -> ble ub' x.
Proof.
  destruct ub as [u|], ub' as [u'|]; cbn [wider_b ble]; try tauto. intros H1 H2. apply (cmp_le_trans TO u' u x); auto.
Qed.

Lemma wider_ele ue ue' x : wider_e ue ue' -> ele x ue -> ele x ue'.
Proof.
  destruct ue as [u|], ue' as [u'|]; cbn [wider_e ele]; try tauto. intros H1 H2. apply (cmp_le_trans TO x u u'); auto.
Qed.

Lemma flen_mono {A} (p q : A -> bool) l :
  (forall x, In x l -> p x = true -> q x = true) ->
  (length (filter p l) <= length (filter q l))%nat.
Proof.
  induction l as [|x l IH]; intros Hpq; cbn [filter length]; [lia|].
  assert (IH' : (length (filter p l) <= length (filter q l))%nat).
  { apply IH. intros y Hy. apply Hpq. right; auto. }
  destruct (p x) eqn:Ep.
  - rewrite (Hpq x (or_introl eq_refl) Ep). cbn [length]. lia.
  - destruct (q x); cbn [length]; lia.
Qed.

Lemma flen_strict {A} (p q : A -> bool) l a :
  (forall x, In x l -> p x = true -> q x = true) ->
  In a l -> p a = false -> q a = true ->
  (length (filter p l) < length (filter q l))%nat.
Proof.
  intros Hpq Ha Hpa Hqa. apply in_split in Ha. destruct Ha as (l1 & l2 & ->).
  rewrite !filter_app. cbn [filter]. rewrite Hpa, Hqa, !app_length. cbn [length].
  assert (H1 : (length (filter p l1) <= length (filter q l1))%nat).
  { apply flen_mono. intros x Hx. apply Hpq. apply in_or_app. left; auto. }
  assert (H2 : (length (filter p l2) <= length (filter q l2))%nat).
  { apply flen_mono. intros x Hx. apply Hpq. apply in_or_app. right; right; auto. }
  lia.
Qed.

End PB.
