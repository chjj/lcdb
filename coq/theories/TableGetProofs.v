(* TableGetProofs.v -- the two readers of a table, ldb_table_internal_get and the two-level
   iterator, on a file written by table_build (any compression function that the Snappy decoder
   inverts; table file below 4 GiB).  Both see the opened table as the entry list cut into
   blocks ([tview]).  Seek in the index lands on the right block because the key stored for
   block i is >= every key of block i and < every key of the later blocks (TableIndexProofs);
   the iterator crosses block boundaries in both directions and skips nothing because no data
   block of a built table is empty.  Next / Prev are issued only when the iterator is valid, as
   the C functions require (the driver skips them otherwise).  At the end, the two lcdb
   comparators with their hooks are shown to be what all of this asks of a comparator
   ([key_hooks]). *)
From LCDB Require Import TableFormat IKey.
From LCDB Require Import BaseProofs BlockProofs BlockSeekProofs FilterProofs TableBuildProofs
  IKeyProofs BlockCursorProofs TableIndexProofs.
Local Open Scope N_scope.

Lemma concat_blocks_split : forall (bpre : list (handle * list entry)) fb bpost,
  concat (map snd (bpre ++ fb :: bpost))
  = concat (map snd bpre) ++ snd fb ++ concat (map snd bpost).
Proof. intros. rewrite map_app, concat_app. reflexivity. Qed.

(* the filter reader looks at the key only through the policy *)
Lemma filter_matches_ext : forall fmatch fr off k k',
  (forall f, fmatch f k = fmatch f k') ->
  filter_matches fmatch fr off k = filter_matches fmatch fr off k'.
Proof.
  intros fmatch fr off k k' H. unfold filter_matches.
  destruct (off / 2 ^ fr_base_lg fr <? fr_num fr); [|reflexivity].
  destruct (read32 (fr_data fr) (fr_size fr) (fr_offset fr + off / 2 ^ fr_base_lg fr * 4)) as [a|]; [|reflexivity].
  cbn [rbind].
  destruct (read32 (fr_data fr) (fr_size fr) (fr_offset fr + off / 2 ^ fr_base_lg fr * 4 + 4)) as [b|]; [|reflexivity].
  cbn [rbind].
  destruct ((a <=? b) && (b <=? fr_offset fr)); [|reflexivity].
  destruct (slice (fr_data fr) (fr_size fr) a (b - a)) as [f|]; [|reflexivity].
  cbn [rbind]. apply H.
Qed.

Section Eok.
Variable dkey : bytes -> Prop.
Definition eok (e : entry) : Prop := wf_entry e /\ dkey (fst e).
End Eok.

Set Implicit Arguments.

(* what the table layer needs of a comparator with its separator and successor hooks;
   [dkey] marks the keys that may be stored, so that index keys stay usable *)
Record key_hooks (cmp : bytes -> bytes -> comparison) (isint : bool) (sep : bytes -> bytes -> bytes)
                 (succ : bytes -> bytes) (dkey : bytes -> Prop) : Prop := {
  kh_ord : cmp_order cmp;
  kh_sep : sep_contract cmp sep;
  kh_succ : succ_contract cmp succ;
  kh_dkey : forall k, dkey k -> ikeyok isint k;
  kh_sepok : forall a b, dkey a -> ikeyok isint (sep a b);
  kh_succok : forall a, dkey a -> ikeyok isint (succ a)
}.


(* What lookup and iteration use of an opened table [t]: it presents the entry list [es]
   cut into the blocks [bl].  The index block is a cursor over [index_of bl], whose keys
   separate the blocks; the block reader turns the index value of a block into a cursor
   over its entries; index values tell the blocks apart; the filter, if any, admits every
   key of a block at the offset of that block. *)
Record tview (cmp : bytes -> bytes -> comparison) (isint : bool) (sep : bytes -> bytes -> bytes)
             (succ : bytes -> bytes) (fmatch : bytes -> bytes -> res bool) (interval : N)
             (es : list entry) (t : table) (bl : list (handle * list entry)) : Prop := {
  tv_ord : cmp_order cmp;
  tv_sep : sep_contract cmp sep;
  tv_es : es = concat (map snd bl);
  tv_nonempty : Forall nonempty bl;
  tv_sorted : sorted_by cmp es;
  tv_rel : index_rel cmp (index_of sep succ bl None) bl;
  tv_index : exists it0, biter_create (t_index t) = Ok it0 /\
                         bcur isint 1 (index_of sep succ bl None) it0 None;
  tv_block : forall verify fb, In fb bl ->
             exists d0, table_blockreader t verify (handle_encode (fst fb)) = Ok d0 /\
                        bcur isint interval (snd fb) d0 None;
  tv_hkey : forall fb fb', In fb bl -> In fb' bl ->
            handle_encode (fst fb) = handle_encode (fst fb') -> fb = fb';
  tv_hdec : forall fb, In fb bl -> handle_decode (handle_encode (fst fb)) = Some (fst fb, []);
  tv_filter : match t_filter t with
              | Some fr => fr_ok fr /\
                           forall fb k, In fb bl -> In k (map fst (snd fb)) ->
                             filter_matches fmatch fr (fst (fst fb)) k = Ok true
              | None => True
              end
}.

(* an opened table file below 4 GiB, with the entries it was built from, presents them *)
Lemma built_view : forall cmp isint sep succ dkey has_filter fmatch interval file es t bl,
  key_hooks cmp isint sep succ dkey ->
  built_table sep succ has_filter fmatch interval file es t bl ->
  Forall (eok dkey) es -> nlen es + 1 < 4294967296 -> sorted_by cmp es -> nlen file < 4294967296 ->
  tview cmp isint sep succ fmatch interval es t bl.
Proof.
  intros cmp isint sep succ dkey has_filter fmatch interval file es t bl K
         [Bes Bne Bfrom Bfile Bfsize Bblocks Bbsize Bindex Bisize Bfilter] Hes Hcount Hsorted Hlen.
  rewrite Forall_forall in Bne, Bbsize.
  (* handles of blocks that lie in the file decode from their encodings *)
  assert (H64 : forall fb, In fb bl -> h64 (fst fb)).
  { intros fb Hfb.
    exact (hend_small _ _ _ (proj2 (Bbsize fb Hfb)) (N.lt_trans _ _ 18446744073709551616 Hlen eq_refl)). }
  assert (Hdec : forall fb, In fb bl -> handle_decode (handle_encode (fst fb)) = Some (fst fb, [])).
  { intros fb Hfb. apply handle_decode_encode_nil, H64, Hfb. }
  destruct (blocks_storable isint sep succ dkey (kh_dkey K) (kh_sepok K) (kh_succok K) bl) as (Sb & Siw & Si8).
  { rewrite <- Bes. exact Hes. }
  { rewrite <- Bes. exact Hcount. }
  { apply Forall_forall. intros fb Hfb. exact (conj (Bne fb Hfb) (H64 fb Hfb)). }
  constructor.
  - exact (kh_ord K).
  - exact (kh_sep K).
  - exact Bes.
  - apply Forall_forall. exact Bne.
  - exact Hsorted.
  - apply (index_of_rel cmp (kh_ord K) sep succ (kh_sep K) (kh_succ K));
      [apply Forall_forall; exact Bne|rewrite <- Bes; exact Hsorted|intros k H; discriminate].
  - (* the index block *)
    destruct (block_build_cursor isint 1 _ Siw Si8 Bisize) as (blk & it0 & Hbi & Hbc & Hcur).
    rewrite Bindex in Hbi. inversion Hbi; subst blk. exists it0. auto.
  - (* a data block *)
    intros verify fb Hfb. unfold table_blockreader.
    rewrite (Hdec fb Hfb), Bfile, Bfsize, (proj1 (Forall_forall _ _) (Bblocks verify) fb Hfb).
    cbn [rbind].
    destruct (proj1 (Forall_forall _ _) Sb fb Hfb) as [A B].
    destruct (block_build_cursor isint interval (snd fb) A B (proj1 (Bbsize fb Hfb))) as (blk & d0 & -> & Hbc & Hcur).
    exists d0. auto.
  - intros [h b] [h' b'] Hfb Hfb' E. pose proof (Hdec _ Hfb) as D.
    rewrite E, (Hdec _ Hfb') in D. inversion D; subst h'. f_equal.
    exact (blocks_from_fun bl 0 h b b' Bfrom Hfb Hfb').
  - exact Hdec.
  - destruct has_filter.
    + destruct Bfilter as (fr & -> & A & B). auto.
    + rewrite Bfilter. exact I.
Qed.

Unset Implicit Arguments.


Section View.
Variable cmp : bytes -> bytes -> comparison.
Variable isint : bool.
Variable sep : bytes -> bytes -> bytes.
Variable succ : bytes -> bytes.
Variable fmatch : bytes -> bytes -> res bool.
Variable interval : N.
Variable es : list entry.
Variable t : table.
Variable bl : list (handle * list entry).
Hypothesis V : tview cmp isint sep succ fmatch interval es t bl.

Let idx : list entry := index_of sep succ bl None.

Lemma tv_lt_trans : forall x y z, cmp x y = Lt -> cmp y z = Lt -> cmp x z = Lt.
Proof. exact (co_lt_trans _ (tv_ord V)). Qed.
Lemma tv_lt_eq : forall x y z, cmp x y = Lt -> cmp y z = Eq -> cmp x z = Lt.
Proof. exact (co_lt_eq _ (tv_ord V)). Qed.

Lemma block_sorted : forall fb, In fb bl -> sorted_by cmp (snd fb).
Proof.
  intros fb Hfb. destruct (in_split _ _ Hfb) as (bpre & bpost & Hbl). pose proof (tv_sorted V) as Hs.
  rewrite (tv_es V), Hbl, concat_blocks_split in Hs.
  eapply sorted_by_mid. exact Hs.
Qed.

Lemma idx_sorted : sorted_by cmp idx.
Proof. eapply index_rel_sorted; [exact (tv_ord V)|exact (tv_rel V)|apply (tv_nonempty V)]. Qed.

(* A position in the table is a position [zb] among the blocks and a position [zi] in the
   entries of that block; [flat zb zi] is the same position in the whole entry list, and
   [izip sep succ zb] the position of the block's entry in the index.  [into fwd zb] enters block
   [zb] at its near end, [cross fwd zb] leaves it for the neighbouring block. *)
Definition flat (zb : bzip) (zi : zip) : zip :=
  let '(bpre, _, bpost) := zb in
  let '(bp, e, bq) := zi in
  (concat (map snd bpre) ++ bp, e, bq ++ concat (map snd bpost)).

Definition into (fwd : bool) (zb : bzip) : option zip :=
  option_map (flat zb) (zenter fwd (snd (zcur zb))).

Definition cross (fwd : bool) (zb : bzip) : option zip :=
  match zadv fwd zb with Some zb' => into fwd zb' | None => None end.

Lemma flat_enter : forall fwd l, Forall nonempty l ->
  zenter fwd (concat (map snd l)) = match zenter fwd l with Some zb => into fwd zb | None => None end.
Proof.
  intros [|] l Hne.
  - destruct l as [|[h bes] bpost]; [reflexivity|]. inversion Hne as [|? ? Hb _]; subst.
    destruct bes as [|e r]; [destruct Hb; reflexivity|]. reflexivity.
  - destruct (snoc_cases l) as [->|(m & [h bes] & ->)]; [reflexivity|].
    apply Forall_app in Hne. destruct Hne as [_ Hne]. inversion Hne as [|? ? Hb _]; subst.
    destruct (snoc_cases bes) as [->|(bp & e & ->)]; [destruct Hb; reflexivity|].
    rewrite zenter_bwd_snoc. unfold into. cbn [zcur snd]. rewrite zenter_bwd_snoc.
    rewrite concat_map_snd_app. cbn [snd]. rewrite app_assoc, zenter_bwd_snoc.
    cbn [option_map flat map concat]. rewrite app_nil_r. reflexivity.
Qed.

Lemma cross_fwd : forall bpre fb bpost, Forall nonempty bpost ->
  cross true (bpre, fb, bpost)
  = match concat (map snd bpost) with
    | [] => None
    | e' :: rest => Some (concat (map snd bpre) ++ snd fb, e', rest)
    end.
Proof.
  intros bpre fb bpost Hne. destruct bpost as [|[h' b'] bpost']; [reflexivity|].
  inversion Hne as [|? ? Hb _]; subst. destruct b' as [|e' r]; [destruct Hb; reflexivity|].
  cbn [cross zadv into zcur snd zenter option_map flat map concat app].
  rewrite concat_map_snd_app, app_nil_r. reflexivity.
Qed.

Lemma flat_adv : forall fwd zb zi, Forall nonempty (unzip zb) -> unzip zi = snd (zcur zb) ->
  zadv fwd (flat zb zi)
  = match zadv fwd zi with Some zi' => Some (flat zb zi') | None => cross fwd zb end.
Proof.
  intros [|] [[bpre [h bes]] bpost] [[bp e] bq] Hne Hzi; cbn [unzip zcur snd] in Hne, Hzi;
    apply Forall_app in Hne; destruct Hne as [Hpre Hpost]; subst bes.
  - destruct bq as [|e' bq'].
    + rewrite cross_fwd by exact (Forall_inv_tail Hpost). cbn [flat zadv app snd].
      destruct (concat (map snd bpost)); [reflexivity|]. rewrite <- app_assoc. reflexivity.
    + cbn [flat zadv app]. rewrite <- app_assoc. reflexivity.
  - destruct (snoc_cases bp) as [->|(bp' & e' & ->)].
    + cbn [flat app]. rewrite app_nil_r.
      destruct (snoc_cases bpre) as [->|(m & [h' b'] & ->)]; [reflexivity|].
      apply Forall_app in Hpre. destruct Hpre as [_ Hpre]. apply Forall_inv in Hpre.
      destruct (snoc_cases b') as [->|(m' & e'' & ->)]; [destruct Hpre; reflexivity|].
      unfold cross. rewrite zadv_bwd_snoc. unfold into. cbn [zcur snd]. rewrite zenter_bwd_snoc.
      rewrite concat_map_snd_app. cbn [snd]. rewrite app_assoc.
      rewrite zadv_bwd_snoc. reflexivity.
    + rewrite zadv_bwd_snoc. cbn [flat]. rewrite app_assoc, zadv_bwd_snoc. reflexivity.
Qed.

(* Seek in the table is Seek in the index, then in the block found there, then -- if that
   block lies below the target -- on to the first entry of the next *)
Lemma locate : forall k,
  match ref_seek cmp idx k with
  | None => ref_seek cmp es k = None
  | Some z => exists zb, unzip zb = bl /\ z = izip sep succ zb /\
      ref_seek cmp es k = match ref_seek cmp (snd (zcur zb)) k with
                          | Some zi => Some (flat zb zi)
                          | None => cross true zb
                          end
  end.
Proof.
  intros k. pose proof (index_locate cmp (tv_ord V) sep succ bl (tv_rel V) k) as L. fold idx in L.
  destruct (ref_seek cmp idx k) as [z|]; [|apply ref_seek_all_lt; rewrite (tv_es V); exact L].
  destruct L as (bpre & fb & bpost & Hbl & -> & Hpre & Hpost).
  exists (bpre, fb, bpost). split; [symmetry; exact Hbl|]. split; [reflexivity|].
  rewrite (tv_es V), Hbl, concat_blocks_split, (ref_seek_mid cmp _ _ _ k Hpre Hpost). cbn [zcur snd].
  destruct (ref_seek cmp (snd fb) k) as [[[p e] q]|]; [reflexivity|].
  symmetry. apply cross_fwd. pose proof (tv_nonempty V) as Hne. rewrite Hbl in Hne.
  exact (Forall_inv_tail (proj2 (proj1 (Forall_app _ _ _) Hne))).
Qed.

(* what every reachable state satisfies about its data iterator *)
Definition two_pre (it : twoiter) : Prop :=
  tw_status it = SOk /\
  match tw_data it with
  | None => True
  | Some d => exists fb zd, In fb bl /\ tw_handle it = handle_encode (fst fb) /\
                            bcur isint interval (snd fb) d zd
  end.

Set Implicit Arguments.

(* the index iterator stands at the entry of block [zcur zb]; the data iterator runs over
   that block and stands at the in-block position zd *)
Record two_at (it : twoiter) (zb : bzip) (zd : option zip) : Prop := {
  ta_bl : unzip zb = bl;
  ta_index : bcur isint 1 idx (tw_index it) (Some (izip sep succ zb));
  ta_data : exists d, tw_data it = Some d /\ bcur isint interval (snd (zcur zb)) d zd;
  ta_handle : tw_handle it = handle_encode (fst (zcur zb));
  ta_status : tw_status it = SOk
}.

Unset Implicit Arguments.

Definition two_off (it : twoiter) : Prop :=
  bcur isint 1 idx (tw_index it) None /\ tw_data it = None /\ tw_status it = SOk.

Definition two_sim (it : twoiter) (z : option zip) : Prop :=
  match z with
  | None => two_off it
  | Some z => exists zb zi, two_at it zb (Some zi) /\ z = flat zb zi
  end.

Lemma zb_in : forall zb : bzip, unzip zb = bl -> In (zcur zb) bl.
Proof. intros zb <-. apply zcur_in. Qed.

Lemma two_at_pre : forall it zb zd, two_at it zb zd -> two_pre it.
Proof.
  intros it zb zd H. split; [apply (ta_status H)|].
  destruct (ta_data H) as (d & -> & Hd).
  exists (zcur zb), zd.
  split; [apply zb_in, (ta_bl H)|]. split; [apply (ta_handle H)|exact Hd].
Qed.
Arguments two_at_pre {it zb zd}.

Lemma two_off_pre : forall it, two_off it -> two_pre it.
Proof. intros it (_ & A & B). split; [exact B|]. rewrite A. exact I. Qed.

Lemma two_sim_pre : forall it z, two_sim it z ->
  two_pre it /\ exists zi, bcur isint 1 idx (tw_index it) zi.
Proof.
  intros it [z|] H; cbn [two_sim] in H.
  - destruct H as (zb & zi & Hat & _).
    split; [eapply two_at_pre; exact Hat|]. eexists. apply (ta_index Hat).
  - split; [apply two_off_pre; exact H|]. exists None. apply H.
Qed.

Variable verify : bool.

Lemma init_invalid : forall it,
  two_pre it -> bcur isint 1 idx (tw_index it) None ->
  two_init_data_block t verify it = Ok (two_set_data it None) /\ two_off (two_set_data it None).
Proof.
  intros it [Hst Hd] Hi. unfold two_init_data_block.
  rewrite (bcur_valid Hi). cbn [negb]. split; [reflexivity|].
  unfold two_off, two_set_data. cbn [tw_index tw_data tw_status]. split; [exact Hi|]. split; [reflexivity|].
  rewrite Hst. destruct (tw_data it) as [d|]; [|reflexivity].
  destruct Hd as (fb & zd & _ & _ & Hc). apply (bcur_status Hc).
Qed.

Lemma init_valid : forall it zb,
  two_pre it -> unzip zb = bl -> bcur isint 1 idx (tw_index it) (Some (izip sep succ zb)) ->
  yields (two_init_data_block t verify it) (fun it1 => exists zd, two_at it1 zb zd).
Proof.
  intros it zb [Hst Hd] Hbl Hi. unfold two_init_data_block.
  rewrite (bcur_valid Hi). cbn [negb].
  pose proof (zb_in zb Hbl) as Hfb. destruct zb as [[bpre [h bes]] bpost]. cbn [zcur] in Hfb.
  destruct (bcur_key_value Hi) as (_ & _ & ->). cbn [rbind snd fst].
  destruct ((match tw_data it with Some _ => true | None => false end)
            && bytes_eqb (handle_encode h) (tw_handle it)) eqn:Ekeep.
  - (* the data iterator already runs over this block *)
    apply andb_prop in Ekeep. destruct Ekeep as [Ed Eb].
    destruct (tw_data it) as [d|] eqn:Edata; [|discriminate].
    apply bytes_eqb_eq in Eb. destruct Hd as (fb0 & zd & Hin0 & Hh0 & Hc0).
    assert (Hsame : (h, bes) = fb0) by (apply (tv_hkey V _ _ Hfb Hin0); cbn [fst]; congruence).
    subst fb0.
    exists zd. constructor; cbn [zcur fst snd]; auto. exists d. auto.
  - apply (yields_bind (yields_intro (tv_block V verify _ Hfb))). cbn [fst snd]. intros d0 Hd0.
    exists None. unfold two_set_data.
    constructor; cbn [tw_data tw_status tw_index tw_handle zcur fst snd]; auto.
    + exists d0. auto.
    + rewrite Hst. destruct (tw_data it) as [d|]; [|reflexivity].
      destruct Hd as (fb0 & zd & _ & _ & Hc0). apply (bcur_status Hc0).
Qed.

Lemma skip_off : forall fwd fuel it, two_off it ->
  yields (two_skip isint t verify fwd fuel it) two_off.
Proof.
  intros fwd fuel it Hoff. pose proof Hoff as (Hi & Hd & Hst).
  replace (two_skip isint t verify fwd fuel it) with (Ok (two_set_data it None)).
  - unfold two_off, two_set_data. cbn [yields tw_index tw_data tw_status]. rewrite Hd. auto.
  - destruct fuel; cbn [two_skip]; unfold two_data_invalid; rewrite Hd, (bcur_valid Hi); reflexivity.
Qed.

Lemma two_at_with_data : forall it zb zd d' zd',
  two_at it zb zd -> bcur isint interval (snd (zcur zb)) d' zd' ->
  two_at (two_with_data it d') zb zd'.
Proof.
  intros it zb zd d' zd' H Hd'.
  constructor; cbn [two_with_data tw_index tw_data tw_handle tw_status].
  - apply (ta_bl H).
  - apply (ta_index H).
  - exists d'. auto.
  - apply (ta_handle H).
  - apply (ta_status H).
Qed.
Arguments two_at_with_data {it zb zd} d' {zd'}.

Lemma two_at_data_invalid : forall it zb,
  two_at it zb None -> two_data_invalid it = true /\ biter_valid (tw_index it) = true.
Proof.
  intros it zb H.
  destruct (ta_data H) as (d & Hd & Hc).
  unfold two_data_invalid. rewrite Hd, (bcur_valid Hc).
  split; [reflexivity|]. apply (bcur_valid (ta_index H)).
Qed.
Arguments two_at_data_invalid {it zb}.

Lemma skip_at : forall fwd fuel it zb z,
  two_at it zb (Some z) -> two_skip isint t verify fwd fuel it = Ok it.
Proof.
  intros fwd fuel it zb z Hat.
  destruct (ta_data Hat) as (d & Hd & Hc). pose proof (bcur_valid Hc) as Hv.
  destruct fuel; cbn [two_skip]; unfold two_data_invalid; rewrite Hd, Hv; reflexivity.
Qed.
Arguments skip_at fwd fuel {it zb z}.

(* What First, Last, Seek and the skip loop share when the index iterator stands at a
   block: open that block and run [f] on its iterator; [K] is whatever follows.  [zd'] is
   where [f] leaves the cursor of the block.  (When the index iterator stands nowhere,
   [init_invalid] says what is left: nothing to open, and [skip_off].) *)
Lemma land_on : forall (f : biter -> res biter) (K : twoiter -> res twoiter) R it zb zd',
  two_pre it -> unzip zb = bl -> bcur isint 1 idx (tw_index it) (Some (izip sep succ zb)) ->
  (forall d zd, bcur isint interval (snd (zcur zb)) d zd ->
     yields (f d) (fun d' => bcur isint interval (snd (zcur zb)) d' zd')) ->
  (forall it2, two_at it2 zb zd' -> yields (K it2) R) ->
  yields (it1 <~ two_init_data_block t verify it ;;
          it2 <~ match tw_data it1 with
                 | Some d => d' <~ f d ;; Ok (two_with_data it1 d')
                 | None => Ok it1
                 end ;;
          K it2) R.
Proof.
  intros f K R it zb zd' Hpre Hbl Hi Hf HK.
  apply (yields_bind (init_valid it zb Hpre Hbl Hi)). intros it1 [zd Hat].
  destruct (ta_data Hat) as (d & Hd & Hc). rewrite Hd.
  apply (@yields_bind _ _ (fun it2 => two_at it2 zb zd')); [|exact HK].
  apply (yields_bind (Hf d zd Hc)). intros d' Hd'. exact (two_at_with_data d' Hat Hd').
Qed.
Arguments land_on f K R {it zb zd'}.

(* where a landing leaves the iterator: inside the block, since no block is empty *)
Lemma landed : forall fwd fuel it2 zb, two_at it2 zb (zenter fwd (snd (zcur zb))) ->
  yields (two_skip isint t verify fwd fuel it2) (fun it' => two_sim it' (into fwd zb)).
Proof.
  intros fwd fuel it2 zb Hat. unfold into.
  destruct (zenter fwd (snd (zcur zb))) as [zi|] eqn:Ezi.
  - rewrite (skip_at fwd fuel Hat). exists zb, zi. auto.
  - exfalso. apply zenter_none in Ezi.
    exact (proj1 (Forall_forall _ _) (tv_nonempty V) _ (zb_in zb (ta_bl Hat)) Ezi).
Qed.

(* from the end of block [zcur zb] to the near end of its neighbour *)
Lemma skip_dir : forall fwd it zb fuel,
  two_at it zb None -> fuel <> [] ->
  yields (two_skip isint t verify fwd fuel it) (fun it' => two_sim it' (cross fwd zb)).
Proof.
  intros fwd it zb fuel Hat Hfuel.
  destruct fuel as [|f0 fuel']; [congruence|]. cbn [two_skip].
  destruct (two_at_data_invalid Hat) as [-> ->]. cbn [negb].
  apply (yields_bind (bcur_adv isint 1 idx fwd _ _ (ta_index Hat))). intros i' Hi'.
  rewrite izip_adv in Hi'.
  pose proof (two_at_pre Hat : two_pre (two_with_index it i')) as Hpre.
  unfold cross. destruct (zadv fwd zb) as [zb'|] eqn:Ez; cbn [option_map] in Hi'.
  - exact (land_on _ _ _ Hpre (eq_trans (zadv_unzip Ez) (ta_bl Hat)) Hi'
             (bcur_enter isint interval _ fwd) (fun it2 => landed fwd fuel' it2 zb')).
  - destruct (init_invalid _ Hpre Hi') as [-> Hoff]. exact (skip_off fwd fuel' _ Hoff).
Qed.
Arguments skip_dir fwd {it zb} fuel.

Lemma two_fuel_ne : forall it : twoiter, two_fuel it <> [].
Proof. intros it. unfold two_fuel. discriminate. Qed.

(* twoiter_first / _last are [two_enter true / false] and twoiter_next / _prev are
   [two_adv true / false], by conversion *)
Definition two_enter (fwd : bool) (it : twoiter) : res twoiter :=
  i <~ (if fwd then biter_first isint (tw_index it) else biter_last isint (tw_index it)) ;;
  it1 <~ two_init_data_block t verify (two_with_index it i) ;;
  it2 <~ match tw_data it1 with
         | Some d => d' <~ (if fwd then biter_first isint d else biter_last isint d) ;;
                     Ok (two_with_data it1 d')
         | None => Ok it1
         end ;;
  two_skip isint t verify fwd (two_fuel it2) it2.

Definition two_adv (fwd : bool) (it : twoiter) : res twoiter :=
  match tw_data it with
  | Some d => d' <~ (if fwd then biter_next isint d else biter_prev isint d) ;;
              let it1 := two_with_data it d' in two_skip isint t verify fwd (two_fuel it1) it1
  | None => Ok it
  end.

Lemma enter_two : forall fwd it z, two_sim it z ->
  yields (two_enter fwd it) (fun it' => two_sim it' (zenter fwd es)).
Proof.
  intros fwd it z0 Hs. destruct (two_sim_pre it z0 Hs) as [Hpre [zi Hzi]]. unfold two_enter.
  apply (yields_bind (bcur_enter isint 1 idx fwd _ _ Hzi)). intros i' Hi'.
  pose proof (Hpre : two_pre (two_with_index it i')) as Hpre'.
  unfold idx in Hi' at 2. rewrite izip_enter in Hi'.
  rewrite (tv_es V), (flat_enter fwd bl (tv_nonempty V)).
  destruct (zenter fwd bl) as [zb|] eqn:Ez; cbn [option_map] in Hi'.
  - exact (land_on _ _ _ Hpre' (zenter_unzip Ez) Hi' (bcur_enter isint interval _ fwd)
             (fun it2 => landed fwd _ it2 zb)).
  - destruct (init_invalid _ Hpre' Hi') as [-> Hoff]. exact (skip_off fwd _ _ Hoff).
Qed.

Lemma adv_two : forall fwd it z, two_sim it (Some z) ->
  yields (two_adv fwd it) (fun it' => two_sim it' (zadv fwd z)).
Proof.
  intros fwd it z (zb & zi & Hat & ->). unfold two_adv.
  destruct (ta_data Hat) as (d & Hd & Hc). rewrite Hd.
  apply (yields_bind (bcur_adv isint interval _ fwd d zi Hc)). intros d' Hd'.
  pose proof (two_at_with_data d' Hat Hd') as Hat2.
  rewrite flat_adv.
  2:{ rewrite (ta_bl Hat). exact (tv_nonempty V). }
  2:{ destruct zi as [[bp e] bq]. symmetry. exact (proj1 (bcur_key_value Hc)). }
  destruct (zadv fwd zi) as [zi'|].
  - cbv zeta. rewrite (skip_at fwd _ Hat2). exists zb, zi'. auto.
  - exact (skip_dir fwd (two_fuel (two_with_data it d')) Hat2 (two_fuel_ne _)).
Qed.

Lemma seek_two : forall target it z, two_sim it z -> (isint = true -> 8 <= nlen target) ->
  yields (twoiter_seek cmp isint t verify target it) (fun it' => two_sim it' (ref_seek cmp es target)).
Proof.
  intros target it z0 Hs Ht. destruct (two_sim_pre it z0 Hs) as [Hpre [zi Hzi]]. unfold twoiter_seek.
  apply (yields_bind (bcur_seek cmp isint 1 idx idx_sorted tv_lt_trans tv_lt_eq target (tw_index it) zi Hzi Ht)).
  intros i' Hi'. pose proof (Hpre : two_pre (two_with_index it i')) as Hpre'.
  pose proof (locate target) as L. destruct (ref_seek cmp idx target) as [z|].
  - destruct L as (zb & Hbl & -> & ->).
    apply (@land_on _ _ _ _ zb (ref_seek cmp (snd (zcur zb)) target) Hpre' Hbl Hi').
    { intros d zd Hc.
      exact (bcur_seek cmp isint interval _ (block_sorted _ (zb_in zb Hbl)) tv_lt_trans tv_lt_eq target d zd Hc Ht). }
    intros it2 Hat2. destruct (ref_seek cmp (snd (zcur zb)) target) as [zi'|].
    + rewrite (skip_at true _ Hat2). exists zb, zi'. auto.
    + exact (skip_dir true (two_fuel it2) Hat2 (two_fuel_ne _)).
  - rewrite L. destruct (init_invalid _ Hpre' Hi') as [-> Hoff]. exact (skip_off true _ _ Hoff).
Qed.

(* what the three observers return in a simulated state *)
Lemma two_sim_reads : forall it z, two_sim it z ->
  twoiter_valid it = (match z with Some _ => true | None => false end) /\
  twoiter_observe it = Ok (zip_obs z) /\ twoiter_status it = SOk.
Proof.
  intros it [z|] Hs; cbn [two_sim] in Hs; unfold twoiter_valid, twoiter_observe, twoiter_status.
  - destruct Hs as (zb & zi & Hat & ->). rewrite (bcur_status (ta_index Hat)).
    destruct (ta_data Hat) as (d & -> & Hc). rewrite (bcur_valid Hc), (bcur_observe Hc), (bcur_status Hc).
    split; [reflexivity|]. split; [|apply (ta_status Hat)].
    destruct zb as [[bpre fb] bpost]. destruct zi as [[bp e] bq]. reflexivity.
  - destruct Hs as (Hi & -> & Hst). rewrite (bcur_status Hi). auto.
Qed.

Lemma step_two : forall op it z, two_sim it z -> op_ok isint op ->
  yields (twoiter_step cmp isint t verify op it) (fun it' => two_sim it' (ref_step cmp es op z)).
Proof.
  intros op it z Hs Hop.
  destruct op; cbn [twoiter_step ref_step].
  - exact (enter_two true it z Hs).
  - exact (enter_two false it z Hs).
  - exact (seek_two _ it z Hs Hop).
  - rewrite (proj1 (two_sim_reads it z Hs)). destruct z as [z|]; [exact (adv_two true it z Hs)|exact Hs].
  - rewrite (proj1 (two_sim_reads it z Hs)). destruct z as [z|]; [exact (adv_two false it z Hs)|exact Hs].
Qed.

Lemma run_two : forall ops it z, two_sim it z -> Forall (op_ok isint) ops ->
  exists it', twoiter_run cmp isint t verify ops it = Ok (ref_run cmp es ops z, it') /\
              twoiter_status it' = SOk.
Proof.
  induction ops as [|op ops IH]; intros it z Hs Hops.
  - cbn [twoiter_run ref_run]. exists it. split; [reflexivity|]. exact (proj2 (proj2 (two_sim_reads it z Hs))).
  - inversion Hops; subst. cbn [twoiter_run].
    destruct (yields_inv (step_two op it z Hs H1)) as (it1 & -> & Hs1). cbn [rbind].
    rewrite (proj1 (proj2 (two_sim_reads it1 _ Hs1))). cbn [rbind].
    destruct (IH it1 _ Hs1 H2) as (it2 & -> & St). cbn [rbind ref_run].
    exists it2. auto.
Qed.

Theorem twoiter_create_sim : exists it0, twoiter_create t = Ok it0 /\ two_sim it0 None.
Proof.
  unfold twoiter_create. destruct (tv_index V) as (i0 & -> & Hi0). cbn [rbind].
  eexists. split; [reflexivity|]. cbn [two_sim]. unfold two_off. cbn [tw_index tw_data tw_status]. auto.
Qed.


Hypothesis fmatch_safe : forall f k, fmatch f k <> OOB.

(* the tail of table_get: read the data block the index names and seek in it *)
Lemma data_block_seek : forall fb k,
  In fb bl -> (isint = true -> 8 <= nlen k) ->
  (block_iter <~ table_blockreader t verify (handle_encode (fst fb)) ;;
   block_iter0 <~ biter_seek cmp isint k block_iter ;;
   found <~ biter_observe block_iter0 ;;
   Ok (found, match biter_status block_iter0 with SOk => SOk | _ => biter_status block_iter0 end))
  = Ok (zip_obs (ref_seek cmp (snd fb) k), SOk).
Proof.
  intros fb k Hfb Hk.
  destruct (tv_block V verify _ Hfb) as (d0 & -> & Hd0). cbn [rbind].
  destruct (yields_inv (bcur_seek cmp isint interval _ (block_sorted fb Hfb) tv_lt_trans tv_lt_eq k d0 None Hd0 Hk))
    as (d1 & -> & Hd1).
  cbn [rbind]. rewrite (bcur_observe Hd1). cbn [rbind].
  rewrite (bcur_status Hd1). reflexivity.
Qed.

(* table_get, given the block [zb] that Seek finds in the index ([locate]).  The second
   alternative: the filter said no, so no key of the block is one the policy cannot tell
   from k *)
Theorem table_get_at : forall k,
  (isint = true -> 8 <= nlen k) ->
  match ref_seek cmp idx k with
  | None => table_get cmp isint fmatch t verify k = Ok (None, SOk)
  | Some z => forall zb, unzip zb = bl -> z = izip sep succ zb ->
      exists r, table_get cmp isint fmatch t verify k = Ok (r, SOk) /\
        (r = zip_obs (ref_seek cmp (snd (zcur zb)) k) \/
         (r = None /\
          forall k', In k' (map fst (snd (zcur zb))) -> ~ (forall f, fmatch f k = fmatch f k')))
  end.
Proof.
  intros k Hk. unfold table_get.
  destruct (tv_index V) as (it0 & -> & Hcur0). cbn [rbind].
  destruct (yields_inv (bcur_seek cmp isint 1 idx idx_sorted tv_lt_trans tv_lt_eq k it0 None Hcur0 Hk)) as (it1 & -> & Hcur1).
  cbn [rbind]. rewrite (bcur_valid Hcur1), (bcur_status Hcur1).
  destruct (ref_seek cmp idx k) as [z|]; [|reflexivity].
  intros zb Hbl ->. pose proof (zb_in zb Hbl) as Hfb.
  pose proof (data_block_seek _ k Hfb Hk) as Hcont.
  pose proof (tv_filter V) as Hflt. pose proof (tv_hdec V _ Hfb) as Hdec.
  destruct zb as [[bpre fb] bpost]. cbn [zcur] in *.
  destruct (bcur_key_value Hcur1) as (_ & _ & ->). cbn [rbind snd].
  destruct (t_filter t) as [fr|]; [|cbn [rbind]; rewrite Hcont; eauto].
  destruct Hflt as (Hfrok & Hmatch). rewrite Hdec. cbn [fst].
  pose proof (filter_matches_safe fmatch fmatch_safe fr (fst (fst fb)) k Hfrok) as Hsafe.
  destruct (filter_matches fmatch fr (fst (fst fb)) k) as [[|]|] eqn:Em; [| |destruct Hsafe]; cbn [rbind negb].
  - rewrite Hcont. eauto.
  - exists None. split; [reflexivity|]. right. split; [reflexivity|].
    intros k' Hin Heq. rewrite (filter_matches_ext fmatch fr _ k k' Heq), (Hmatch fb k' Hfb Hin) in Em. discriminate Em.
Qed.

Theorem table_get_never_wrong : forall k,
  (isint = true -> 8 <= nlen k) ->
  exists r, table_get cmp isint fmatch t verify k = Ok (r, SOk) /\
            (r = None \/ r = zip_obs (ref_seek cmp es k)).
Proof.
  intros k Hk. pose proof (locate k) as L. pose proof (table_get_at k Hk) as G.
  destruct (ref_seek cmp idx k) as [z|]; [|exists None; auto].
  destruct L as (zb & Hbl & Hz & ->).
  destruct (G zb Hbl Hz) as (r & Hget & [Hr|(Hr & _)]); exists r; (split; [exact Hget|]); [|left; exact Hr].
  destruct (ref_seek cmp (snd (zcur zb)) k) as [[[bp e] bq]|]; [right|left; exact Hr].
  rewrite Hr. destruct zb as [[bpre fb] bpost]. reflexivity.
Qed.

Section User.
(* ldb_table_internal_get at the level of user keys: when the successor of the target has
   the same "user key" (the part of the key the filter policy looks at), it is found --
   neither the filter nor the shortened index separators can hide it. *)
Variable ukey : bytes -> bytes.
Hypothesis Hfu : forall k k', ukey k = ukey k' -> forall f, fmatch f k = fmatch f k'.
Hypothesis Hsepu : forall a b k e,
  cmp a b = Lt -> cmp a k = Lt -> cmp k (sep a b) <> Gt -> cmp b e <> Gt -> ukey e <> ukey k.

Theorem table_get_user : forall k p e q,
  (isint = true -> 8 <= nlen k) ->
  ref_seek cmp es k = Some (p, e, q) -> ukey (fst e) = ukey k ->
  table_get cmp isint fmatch t verify k = Ok (Some e, SOk).
Proof.
  intros k p e q Hk Eg Hu. pose proof (locate k) as L. pose proof (table_get_at k Hk) as G.
  destruct (ref_seek cmp idx k) as [z|] eqn:Ei; [|rewrite L in Eg; discriminate Eg].
  destruct L as (zb & Hbl & Hz & Es). destruct (G zb Hbl Hz) as (r & -> & Hr). f_equal. f_equal.
  subst z. destruct zb as [[bpre [h bes]] bpost]. cbn [zcur snd unzip] in Es, Hr, Hbl.
  rewrite Eg in Es.
  destruct (ref_seek cmp bes k) as [[[bp e'] bq]|] eqn:Eb.
  - inversion Es; subst p e' q.
    destruct Hr as [Hr|(_ & Hnot)]; [exact Hr|].
    exfalso. apply (Hnot (fst e)); [|apply Hfu; symmetry; exact Hu].
    rewrite (proj1 (ref_seek_some Eb)). apply in_map, in_elt.
  - exfalso.
    destruct bpost as [|[h1 [|e1 b1]] bpost1]; try discriminate Es.
    inversion Es; subst p e1 q. clear Es.
    (* the index key of the block is the separator between its last key and [e] *)
    destruct (ref_seek_some Ei) as (_ & _ & Hxk). cbn [izip fst snd next_first firstk hd] in Hxk.
    assert (Hne : bes <> []) by exact (proj1 (Forall_forall _ _) (tv_nonempty V) (h, bes) (zb_in (bpre, (h, bes), _) Hbl)).
    destruct (lastk_in bes Hne) as (el & Hel1 & Hel2).
    apply ref_seek_none in Eb.
    apply (Hsepu (lastk bes) (fst e) k (fst e)).
    + rewrite <- Hel2. pose proof (tv_sorted V) as Hs.
      rewrite (tv_es V), <- Hbl, concat_blocks_split in Hs. apply sorted_by_app_r in Hs.
      apply (sorted_by_cross cmp _ _ el e Hs Hel1). cbn [map concat snd app]. left. reflexivity.
    + rewrite <- Hel2. rewrite Forall_forall in Eb. apply Eb. exact Hel1.
    + apply (cmp_not_lt_ge (tv_ord V)). exact Hxk.
    + rewrite (cmp_refl (tv_ord V)). discriminate.
    + exact Hu.
Qed.

End User.

(* a key of the table is its own successor *)
Theorem table_get_present : forall k v,
  (isint = true -> 8 <= nlen k) -> In (k, v) es ->
  table_get cmp isint fmatch t verify k = Ok (Some (k, v), SOk).
Proof.
  intros k v Hk Hin. destruct (in_split _ _ Hin) as (p & q & Hp).
  apply (table_get_user (fun u => u)) with (p := p) (q := q); [| |exact Hk| |reflexivity].
  - intros u u' <- f. reflexivity.
  - intros a b u e Hab _ Hus Hbe Heq. subst e.
    (* u <= sep a b < b <= u *)
    pose proof (cmp_le_lt (tv_ord V) _ _ _ Hus (proj2 (tv_sep V a b Hab))) as H1.
    pose proof (cmp_lt_le (tv_ord V) _ _ _ H1 Hbe) as H2.
    rewrite (cmp_refl (tv_ord V)) in H2. discriminate.
  - exact (ref_seek_present cmp (tv_ord V) es p k v q (tv_sorted V) Hp).
Qed.

Theorem table_get_above_all : forall k,
  (isint = true -> 8 <= nlen k) ->
  Forall (fun e => cmp (fst e) k = Lt) es ->
  table_get cmp isint fmatch t verify k = Ok (None, SOk).
Proof.
  intros k Hk Hall. destruct (table_get_never_wrong k Hk) as (r & Hget & [Hr|Hr]).
  - rewrite Hget, Hr. reflexivity.
  - rewrite Hget, Hr. f_equal. f_equal.
    destruct (ref_seek cmp es k) as [[[p e] q]|] eqn:E; [|reflexivity].
    destruct (ref_seek_some E) as (He & _ & Hge).
    exfalso. apply Hge. rewrite Forall_forall in Hall. apply Hall. rewrite He.
    apply in_or_app. right. left. reflexivity.
Qed.

End View.

Section Get.
Variable cmp : bytes -> bytes -> comparison.
Variable isint : bool.
Variable sep : bytes -> bytes -> bytes.
Variable succ : bytes -> bytes.
Variable has_filter : bool.
Variable fmatch : bytes -> bytes -> res bool.
Variable interval : N.
Hypothesis Hord : cmp_order cmp.
Hypothesis Hsep : sep_contract cmp sep.
Hypothesis Hsucc : succ_contract cmp succ.

Variable dkey : bytes -> Prop.
Hypothesis Hdkey : forall k, dkey k -> ikeyok isint k.
Hypothesis Hsepok : forall a b, dkey a -> ikeyok isint (sep a b).
Hypothesis Hsuccok : forall a, dkey a -> ikeyok isint (succ a).

Variable file : bytes.
Variable es : list entry.
Variable t : table.
Variable bl : list (handle * list entry).
Hypothesis Hbt : built_table sep succ has_filter fmatch interval file es t bl.
Hypothesis Hes : Forall (eok dkey) es.
Hypothesis Hcount : nlen es + 1 < 4294967296.
Hypothesis Hsorted : sorted_by cmp es.
Hypothesis Hlen : nlen file < 4294967296.

Hypothesis fmatch_safe : forall f k, fmatch f k <> OOB.

(* never a wrong entry: nothing, or the successor of the target in the entry list *)
Theorem table_get_sound : forall verify k,
  (isint = true -> 8 <= nlen k) ->
  exists r, table_get cmp isint fmatch t verify k = Ok (r, SOk) /\
            (r = None \/ r = zip_obs (ref_seek cmp es k)).
Proof.
  intros verify k.
  exact (table_get_never_wrong cmp isint sep succ fmatch interval es t bl
           (built_view (Build_key_hooks dkey Hord Hsep Hsucc Hdkey Hsepok Hsuccok) Hbt Hes Hcount Hsorted Hlen)
           verify fmatch_safe k).
Qed.

End Get.

Section Driver.
Variable cmp : bytes -> bytes -> comparison.
Variable isint : bool.
Variable sep : bytes -> bytes -> bytes.
Variable succ : bytes -> bytes.
Variable has_filter : bool.
Variable fbuild : list bytes -> bytes.
Variable fmatch : bytes -> bytes -> res bool.
Variable compress : bytes -> bytes.
Variables block_size interval compression : N.
Hypothesis Hcompress : compress_inverts_small compress compression.
Hypothesis policy_sound : forall keys key, In key keys -> fmatch (fbuild keys) key = Ok true.
Variable dkey : bytes -> Prop.
Hypothesis K : key_hooks cmp isint sep succ dkey.

Lemma table_build_opened : forall paranoid es,
  Forall (eok dkey) es -> nlen es + 1 < 4294967296 -> sorted_by cmp es ->
  let file := table_build sep succ has_filter fbuild compress block_size interval compression es in
  wf_bytes file = true -> nlen file < 4294967296 ->
  exists t bl, table_open has_filter paranoid file = Ok (inr t) /\
               tview cmp isint sep succ fmatch interval es t bl.
Proof.
  intros paranoid es Hes Hcount Hsorted file Hwf Hlen.
  destruct (table_build_open sep succ has_filter fbuild fmatch compress block_size interval compression
              Hcompress policy_sound paranoid es Hwf Hlen) as (t & bl & Hopen & Hbt).
  exists t, bl. split; [exact Hopen|].
  exact (built_view K Hbt Hes Hcount Hsorted Hlen).
Qed.

Theorem table_run_build : forall paranoid verify es ops,
  Forall (eok dkey) es -> nlen es + 1 < 4294967296 -> sorted_by cmp es ->
  let file := table_build sep succ has_filter fbuild compress block_size interval compression es in
  wf_bytes file = true -> nlen file < 4294967296 ->
  Forall (op_ok isint) ops ->
  table_run cmp isint has_filter paranoid verify file ops = Ok (inr (ref_run cmp es ops None, SOk)).
Proof.
  intros paranoid verify es ops Hes Hcount Hsorted file Hwf Hlen Hops.
  destruct (table_build_opened paranoid es Hes Hcount Hsorted Hwf Hlen) as (t & bl & Hopen & O).
  fold file in Hopen, O. unfold table_run. rewrite Hopen. cbn [rbind].
  destruct (twoiter_create_sim cmp isint sep succ fmatch interval es t bl O)
    as (it0 & -> & Hs0). cbn [rbind].
  destruct (run_two cmp isint sep succ fmatch interval es t bl O verify ops it0 None Hs0 Hops)
    as (it' & -> & St).
  cbn [rbind]. rewrite St. reflexivity.
Qed.

Hypothesis fmatch_safe : forall f k, fmatch f k <> OOB.

Theorem table_lookup_build : forall paranoid verify es,
  Forall (eok dkey) es -> nlen es + 1 < 4294967296 -> sorted_by cmp es ->
  let file := table_build sep succ has_filter fbuild compress block_size interval compression es in
  wf_bytes file = true -> nlen file < 4294967296 ->
  forall k, (isint = true -> 8 <= nlen k) ->
  exists r, table_lookup cmp isint has_filter fmatch paranoid verify file k = Ok (inr (r, SOk)) /\
    (r = None \/ r = zip_obs (ref_seek cmp es k)) /\
    (forall v, In (k, v) es -> r = Some (k, v)) /\
    (Forall (fun e => cmp (fst e) k = Lt) es -> r = None).
Proof.
  intros paranoid verify es Hes Hcount Hsorted file Hwf Hlen k Hk.
  destruct (table_build_opened paranoid es Hes Hcount Hsorted Hwf Hlen) as (t & bl & Hopen & O).
  fold file in Hopen, O. unfold table_lookup. rewrite Hopen. cbn [rbind].
  destruct (table_get_never_wrong cmp isint sep succ fmatch interval es t bl O
              verify fmatch_safe k Hk) as (r & Hget & Hr).
  exists r. rewrite Hget. cbn [rbind]. split; [reflexivity|]. split; [exact Hr|]. split.
  - intros v Hin.
    pose proof (table_get_present cmp isint sep succ fmatch interval es t bl O
                  verify fmatch_safe k v Hk Hin) as Hp.
    rewrite Hget in Hp. inversion Hp. reflexivity.
  - intros Hall.
    pose proof (table_get_above_all cmp isint sep succ fmatch interval es t bl O
                  verify fmatch_safe k Hk Hall) as Hp.
    rewrite Hget in Hp. inversion Hp. reflexivity.
Qed.

Variable ukey : bytes -> bytes.
Hypothesis Hfu : forall k k', ukey k = ukey k' -> forall f, fmatch f k = fmatch f k'.
Hypothesis Hsepu : forall a b k e,
  cmp a b = Lt -> cmp a k = Lt -> cmp k (sep a b) <> Gt -> cmp b e <> Gt -> ukey e <> ukey k.

Theorem table_lookup_user_build : forall paranoid verify es,
  Forall (eok dkey) es -> nlen es + 1 < 4294967296 -> sorted_by cmp es ->
  let file := table_build sep succ has_filter fbuild compress block_size interval compression es in
  wf_bytes file = true -> nlen file < 4294967296 ->
  forall k p e q, (isint = true -> 8 <= nlen k) ->
  ref_seek cmp es k = Some (p, e, q) -> ukey (fst e) = ukey k ->
  table_lookup cmp isint has_filter fmatch paranoid verify file k = Ok (inr (Some e, SOk)).
Proof.
  intros paranoid verify es Hes Hcount Hsorted file Hwf Hlen k p e q Hk Eg Hu.
  destruct (table_build_opened paranoid es Hes Hcount Hsorted Hwf Hlen) as (t & bl & Hopen & O).
  fold file in Hopen, O. unfold table_lookup. rewrite Hopen. cbn [rbind].
  rewrite (table_get_user cmp isint sep succ fmatch interval es t bl O verify
             fmatch_safe ukey Hfu Hsepu k p e q Hk Eg Hu).
  reflexivity.
Qed.

End Driver.

(* The two lcdb comparators (TableFormat's own copies of the hooks are those of IKey). *)
Lemma tbl_sep_eq : forall a b, tbl_sep a b = shortest_separator a b.
Proof. intros. reflexivity. Qed.

Lemma tbl_succ_eq : forall a, tbl_succ a = short_successor a.
Proof. intros. reflexivity. Qed.

Lemma bytes_sep_contract : sep_contract bytes_compare tbl_sep.
Proof.
  intros a b H. rewrite tbl_sep_eq. destruct (shortest_separator_contract a b H) as [A B].
  unfold bytes_leb, bytes_ltb in *. split.
  - intros G. rewrite G in A. discriminate.
  - destruct (bytes_compare (shortest_separator a b) b); congruence.
Qed.

Lemma bytes_succ_contract : succ_contract bytes_compare tbl_succ.
Proof.
  intros a. rewrite tbl_succ_eq. pose proof (short_successor_contract a) as A.
  unfold bytes_leb in A. intros G. rewrite G in A. discriminate.
Qed.

Lemma ikey_order : cmp_order tbl_ikey_compare.
Proof. exact (order_cmp_order _ tbl_ikey_order). Qed.

Lemma tbl_seek_tag_eq : tbl_seek_tag = seek_tag.
Proof. reflexivity. Qed.

Lemma tbl_isep_eq : forall a b, tbl_isep a b = ikc_shortest_separator a b.
Proof.
  intros. unfold tbl_isep, ikc_shortest_separator.
  rewrite !tbl_user_key_eq, tbl_sep_eq, tbl_seek_tag_eq. reflexivity.
Qed.

Lemma tbl_isucc_eq : forall a, tbl_isucc a = ikc_short_successor a.
Proof.
  intros. unfold tbl_isucc, ikc_short_successor.
  rewrite !tbl_user_key_eq, tbl_succ_eq, tbl_seek_tag_eq. reflexivity.
Qed.

Lemma ikey_sep_contract : sep_contract tbl_ikey_compare tbl_isep.
Proof.
  intros a b H. rewrite tbl_isep_eq, !tbl_ikey_compare_eq. rewrite tbl_ikey_compare_eq in H.
  apply ikc_shortest_separator_contract. exact H.
Qed.

Lemma ikey_succ_contract : succ_contract tbl_ikey_compare tbl_isucc.
Proof.
  intros a. rewrite tbl_isucc_eq, tbl_ikey_compare_eq. apply ikc_short_successor_contract.
Qed.

Definition dkey_bytewise (k : bytes) : Prop := nlen k < 4294967296.
Definition dkey_internal (k : bytes) : Prop := nlen k < 4294967296 /\ 8 <= nlen k.

(* the hooks return keys that may be stored: they only shorten (IKeyProofs) *)
Lemma bytewise_key_hooks : key_hooks bytes_compare false tbl_sep tbl_succ dkey_bytewise.
Proof.
  apply (Build_key_hooks dkey_bytewise bytes_order bytes_sep_contract bytes_succ_contract);
    unfold dkey_bytewise, ikeyok, nlen.
  - intros k H. split; [exact H|discriminate].
  - intros a b H. pose proof (shortest_separator_length a b). rewrite <- tbl_sep_eq in *.
    split; [lia|discriminate].
  - intros a H. pose proof (short_successor_length a). rewrite <- tbl_succ_eq in *.
    split; [lia|discriminate].
Qed.

Lemma internal_key_hooks : key_hooks tbl_ikey_compare true tbl_isep tbl_isucc dkey_internal.
Proof.
  apply (Build_key_hooks dkey_internal ikey_order ikey_sep_contract ikey_succ_contract);
    unfold dkey_internal, ikeyok, nlen.
  - intros k [A B]. split; [exact A|intros _; exact B].
  - intros a b [A B]. rewrite tbl_isep_eq.
    pose proof (ikc_shortest_separator_length a b). split; [lia|intros _; lia].
  - intros a [A B]. rewrite tbl_isucc_eq.
    pose proof (ikc_short_successor_length a). split; [lia|intros _; lia].
Qed.

Lemma eok_bytewise : forall es,
  Forall (fun e => nlen (fst e) < 4294967296 /\ nlen (snd e) < 4294967296) es -> Forall (eok dkey_bytewise) es.
Proof. intros es H. eapply Forall_impl; [|exact H]. intros e [A B]. split; [split; assumption|exact A]. Qed.

Lemma eok_internal : forall es,
  Forall (fun e => nlen (fst e) < 4294967296 /\ 8 <= nlen (fst e) /\ nlen (snd e) < 4294967296) es ->
  Forall (eok dkey_internal) es.
Proof. intros es H. eapply Forall_impl; [|exact H]. intros e (A & B & C). split; split; assumption. Qed.

(* the internal-key comparator: user key = all but the 8-byte tag *)
Lemma tbl_user_key_seek : forall u, tbl_user_key (u ++ tbl_seek_tag) = u.
Proof. intros u. rewrite tbl_user_key_eq, tbl_seek_tag_eq. apply ikey_user_seek. Qed.

Lemma ikey_le_user : forall a b, tbl_ikey_compare a b <> Gt ->
  bytes_compare (tbl_user_key a) (tbl_user_key b) <> Gt.
Proof.
  intros a b H G. apply H. unfold tbl_ikey_compare. rewrite G. reflexivity.
Qed.

Lemma ikey_sep_user : forall a b k e,
  tbl_ikey_compare a b = Lt -> tbl_ikey_compare a k = Lt ->
  tbl_ikey_compare k (tbl_isep a b) <> Gt -> tbl_ikey_compare b e <> Gt ->
  tbl_user_key e <> tbl_user_key k.
Proof.
  intros a b k e Hab Hak Hks Hbe. rewrite tbl_isep_eq in Hks.
  destruct (ikc_shortest_separator_cases a b) as [E|(tmp & E & Hsb)];
    [rewrite <- tbl_ikey_compare_eq; exact Hab|rewrite E in Hks..].
  - exfalso. apply Hks. apply (cmp_gt_lt ikey_order). exact Hak.
  - apply ikey_le_user in Hks. rewrite <- tbl_seek_tag_eq, tbl_user_key_seek in Hks.
    apply ikey_le_user in Hbe. rewrite <- tbl_user_key_eq in Hsb.
    (* uk <= tmp < ub <= ue *)
    pose proof (cmp_le_lt bytes_compare_order _ _ _ Hks Hsb) as H1.
    pose proof (cmp_lt_le bytes_compare_order _ _ _ H1 Hbe) as H2.
    intros Heq. rewrite Heq, bytes_compare_refl in H2. discriminate.
Qed.

Lemma internal_fmatch_user : forall k k', tbl_user_key k = tbl_user_key k' ->
  forall f, internal_fmatch f k = internal_fmatch f k'.
Proof.
  intros k k' H f. unfold internal_fmatch, strip_tag. unfold tbl_user_key in H. rewrite H. reflexivity.
Qed.
