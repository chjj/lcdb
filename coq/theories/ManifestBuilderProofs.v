(* ManifestBuilderProofs.v -- the version builder of ManifestReplay.v
   (builder_apply / builder_save_to).  ldb_versions_recover accumulates all edits in
   ONE builder and saves once; ldb_versions_apply, when the edits were written, used
   a fresh builder per edit and saved each time.  Here: one more edit on the
   accumulating builder, saved over the base version, gives what the edit on a fresh
   builder gives when saved over what had been saved so far (save_apply_levels),
   provided no file number is added twice to a level.
   ManifestReplayProofs.vstate_of_fold draws the conclusion for a sequence of edits.
   What does not depend on the comparator stands before Section Builder: the set of deleted
   numbers as its members, point updates of the list of levels, an edit seen from one level. *)
From LCDB Require Import BaseProofs MetaLemmas ManifestReplay.
From LCDB Require Import EngineSpec EngineStepsBase.
From Coq Require Import Sorted.
Local Open Scope N_scope.

(* dset_put / dset_del are rb_set64_put / rb_set64_del: the set as its members *)
Lemma dset_has_In : forall n d, dset_has n d = true <-> In n d.
Proof. exact (existsb_eqb_In N.eqb N.eqb_eq). Qed.

Lemma In_dset_put : forall n m d, In n (dset_put m d) <-> m = n \/ In n d.
Proof.
  intros n m d. unfold dset_put. destruct (dset_has m d) eqn:Hm; [|reflexivity].
  apply dset_has_In in Hm. split; [right; assumption|intros [<-|H]; assumption].
Qed.

Lemma In_dset_del : forall n m d, In n (dset_del m d) <-> In n d /\ n <> m.
Proof. intros n m d. unfold dset_del. rewrite filter_In, negb_true_iff, N.eqb_neq. reflexivity. Qed.

Definition put_all (dels : list N) (d : list N) : list N :=
  fold_left (fun acc n => dset_put n acc) dels d.
Definition del_all (ns : list N) (d : list N) : list N :=
  fold_left (fun acc n => dset_del n acc) ns d.

Lemma In_put_all : forall n dels d, In n (put_all dels d) <-> In n dels \/ In n d.
Proof.
  intros n. induction dels as [|m dels IH]; intros d; cbn [put_all fold_left In]; [tauto|].
  fold (put_all dels (dset_put m d)). rewrite IH, In_dset_put. tauto.
Qed.

Lemma In_del_all : forall n ns d, In n (del_all ns d) <-> In n d /\ ~ In n ns.
Proof.
  intros n. induction ns as [|m ns IH]; intros d; cbn [del_all fold_left In]; [tauto|].
  fold (del_all ns (dset_del m d)). rewrite IH, In_dset_del. intuition congruence.
Qed.

Definition not_deleted (d : list N) (f : filemeta) : bool := negb (dset_has (f_number f) d).

Lemma not_deleted_iff : forall d x, not_deleted d x = true <-> ~ In (f_number x) d.
Proof. intros d x. unfold not_deleted. rewrite negb_true_iff, <- not_true_iff_false, dset_has_In. reflexivity. Qed.

Lemma flat_map_maybe_add : forall d l, flat_map (maybe_add d) l = filter (not_deleted d) l.
Proof.
  intros d. induction l as [|x l IH]; [reflexivity|].
  cbn [flat_map filter]. rewrite IH. unfold maybe_add, not_deleted.
  destruct (dset_has (f_number x) d); reflexivity.
Qed.

Lemma length_upd_nth : forall {X} n (f : X -> X) l, length (upd_nth n f l) = length l.
Proof.
  intros X n f l. revert n. induction l as [|x l IH]; intros n; [destruct n; reflexivity|].
  destruct n; cbn [upd_nth length]; [reflexivity|]. rewrite IH. reflexivity.
Qed.

Lemma nth_upd_nth : forall {X} n (f : X -> X) ls l d,
  (l < length ls)%nat ->
  nth l (upd_nth n f ls) d = if Nat.eqb n l then f (nth l ls d) else nth l ls d.
Proof.
  intros X n f ls. revert n. induction ls as [|x ls IH]; intros n l d Hl; [cbn in Hl; lia|].
  destruct n as [|n]; destruct l as [|l]; cbn [upd_nth nth Nat.eqb]; try reflexivity.
  apply IH. cbn [length] in Hl. lia.
Qed.

Lemma upd_nth_app : forall {X} (f : X -> X) pre x r,
  upd_nth (length pre) f (pre ++ x :: r) = pre ++ f x :: r.
Proof.
  intros X f. induction pre as [|y pre IH]; intros x r; cbn [length app upd_nth]; [reflexivity|].
  rewrite IH. reflexivity.
Qed.

(* a fold of point updates, seen from one index *)
Section FoldUpd.
Context {X P : Type} (idx : P -> nat) (g : P -> X -> X).

Lemma length_fold_upd : forall ps ls,
  length (fold_left (fun ls p => upd_nth (idx p) (g p) ls) ps ls) = length ls.
Proof.
  induction ps as [|p ps IH]; intros ls; cbn [fold_left]; [reflexivity|].
  rewrite IH. apply length_upd_nth.
Qed.

Lemma nth_fold_upd : forall l ps ls d,
  (l < length ls)%nat ->
  nth l (fold_left (fun ls p => upd_nth (idx p) (g p) ls) ps ls) d =
  fold_left (fun st p => g p st) (filter (fun p => Nat.eqb (idx p) l) ps) (nth l ls d).
Proof.
  intros l. induction ps as [|p ps IH]; intros ls d Hl; cbn [fold_left filter]; [reflexivity|].
  rewrite IH by (rewrite length_upd_nth; exact Hl). rewrite nth_upd_nth by exact Hl.
  destruct (Nat.eqb (idx p) l); reflexivity.
Qed.
End FoldUpd.

Definition at_level {X} (lv : X -> N) (l : nat) (x : X) : bool := Nat.eqb (N.to_nat (lv x)) l.
Definition dels_at (l : nat) (e : edit) : list N :=
  map snd (filter (at_level fst l) (e_deleted_files e)).
Definition adds_at (l : nat) (e : edit) : list filemeta :=
  map meta_of (filter (at_level nf_level l) (e_new_files e)).
Definition nums_at (l : nat) (e : edit) : list N := map f_number (adds_at l e).

(* edit_canon changes only the deleted files *)
Lemma adds_at_canon : forall l e, adds_at l (edit_canon e) = adds_at l e.
Proof. reflexivity. Qed.

Section Builder.
Variable kcmp : bytes -> bytes -> comparison.
Hypothesis Hk : total_order kcmp.

Notation bs := (by_smallest kcmp).
Definition flt (x y : filemeta) : Prop := bs x y = Lt.
Notation sorted := (StronglySorted flt).

Lemma bs_order : order bs.
Proof. exact (lex_order kcmp f_smallest _ Hk (order_on f_number _ N_order)). Qed.

Lemma bs_eq_num : forall a b, bs a b = Eq -> f_number a = f_number b.
Proof.
  intros a b H. unfold by_smallest in H.
  destruct (kcmp (f_smallest a) (f_smallest b)); try discriminate H.
  apply N.compare_eq_iff. exact H.
Qed.

Lemma flt_irrefl : forall a, ~ flt a a.
Proof.
  unfold flt. intros a H. pose proof (cmp_opp bs_order a a) as Ha. rewrite H in Ha. discriminate Ha.
Qed.

Lemma bs_total_num : forall a b, f_number a <> f_number b -> flt a b \/ flt b a.
Proof.
  intros a b Hn. destruct (bs a b) eqn:Hab.
  - exfalso. apply Hn. apply bs_eq_num. exact Hab.
  - left. exact Hab.
  - right. apply (cmp_gt_lt bs_order). exact Hab.
Qed.

(* fset_insert is rb_set_put on added_files: MetaLemmas.set_put at by_smallest *)
Definition ins_all (adds : list filemeta) (a : list filemeta) : list filemeta :=
  fold_left (fun acc f => fset_insert kcmp f acc) adds a.

Lemma ins_all_sorted : forall adds a, sorted a -> sorted (ins_all adds a).
Proof. exact (set_put_all_sorted bs bs_order). Qed.

Lemma ins_all_In : forall adds a x,
  NoDup (map f_number adds) ->
  (forall f g, In f adds -> In g a -> f_number g <> f_number f) ->
  (In x (ins_all adds a) <-> In x a \/ In x adds).
Proof.
  intros adds a x Hnd Hfr. apply (set_put_all_In bs). intros f g Hf Hg E. apply bs_eq_num in E.
  apply in_app_iff in Hg. destruct Hg as [Hg|Hg].
  - destruct (Hfr f g Hf Hg). symmetry. exact E.
  - exact (NoDup_map_inj f_number adds f g Hnd Hf Hg E).
Qed.

Fixpoint merge_files (base added : list filemeta) : list filemeta :=
  match added with
  | [] => base
  | a :: added' => let (lo, hi) := span_lt kcmp a base in lo ++ a :: merge_files hi added'
  end.

Lemma save_level_filter : forall d added base,
  save_level kcmp d base added = filter (not_deleted d) (merge_files base added).
Proof.
  intros d. induction added as [|a added IH]; intros base; cbn [save_level merge_files].
  - apply flat_map_maybe_add.
  - destruct (span_lt kcmp a base) as [lo hi] eqn:Hsp.
    rewrite filter_app. cbn [filter]. rewrite flat_map_maybe_add, IH.
    f_equal. unfold maybe_add, not_deleted. destruct (dset_has (f_number a) d); reflexivity.
Qed.

Lemma span_lt_spec : forall a base lo hi,
  span_lt kcmp a base = (lo, hi) ->
  base = lo ++ hi /\ (forall x, In x lo -> flt x a) /\
  match hi with [] => True | h :: _ => bs h a <> Lt end.
Proof.
  intros a. induction base as [|b base IH]; intros lo hi H; cbn [span_lt] in H.
  - inversion H; subst. split; [reflexivity|]. split; [intros x []|exact I].
  - destruct (bs b a) eqn:Hba.
    + inversion H; subst. split; [reflexivity|]. split; [intros x []|]. rewrite Hba. discriminate.
    + destruct (span_lt kcmp a base) as [lo' hi'] eqn:Hsp. inversion H; subst.
      destruct (IH _ _ eq_refl) as (Hb & Hlo & Hhi).
      split; [cbn [app]; f_equal; exact Hb|]. split; [|exact Hhi].
      intros x [Hx|Hx]; [subst x; exact Hba|apply Hlo; exact Hx].
    + inversion H; subst. split; [reflexivity|]. split; [intros x []|]. rewrite Hba. discriminate.
Qed.

Lemma merge_files_in : forall added base x,
  In x (merge_files base added) <-> In x base \/ In x added.
Proof.
  induction added as [|a added IH]; intros base x; cbn [merge_files].
  - split; [intros H; left; exact H|intros [H|[]]; exact H].
  - destruct (span_lt kcmp a base) as [lo hi] eqn:Hsp.
    destruct (span_lt_spec _ _ _ _ Hsp) as (Hb & _ & _). subst base.
    rewrite !in_app_iff. cbn [In]. rewrite IH. tauto.
Qed.

Lemma merge_files_sorted : forall added base,
  sorted base -> sorted added ->
  (forall b a, In b base -> In a added -> f_number b <> f_number a) ->
  sorted (merge_files base added).
Proof.
  induction added as [|a added IH]; intros base Hb Ha Hne; cbn [merge_files].
  - exact Hb.
  - destruct (span_lt kcmp a base) as [lo hi] eqn:Hsp.
    destruct (span_lt_spec _ _ _ _ Hsp) as (Hbase & Hlo & Hhi). subst base.
    apply SS_app in Hb. destruct Hb as (Slo & Shi & Hcross).
    inversion Ha as [|a' l' Sa Fa]; subst. rewrite Forall_forall in Fa.
    (* a is before everything in hi *)
    assert (Hahi : forall y, In y hi -> flt a y).
    { destruct hi as [|h hi']; [intros y []|].
      assert (Hah : flt a h).
      { destruct (bs_total_num h a) as [H|H].
        - apply Hne; [apply in_or_app; right; left; reflexivity|left; reflexivity].
        - exfalso. apply Hhi. exact H.
        - exact H. }
      inversion Shi as [|h' l'' Sh Fh]; subst. rewrite Forall_forall in Fh.
      intros y [Hy|Hy]; [subst y; exact Hah|apply (cmp_lt_trans bs_order a h y); [exact Hah|apply Fh; exact Hy]]. }
    assert (Hrest : sorted (merge_files hi added)).
    { apply IH; [exact Shi|exact Sa|].
      intros b a0 Hb0 Ha0. apply Hne; [apply in_or_app; right; exact Hb0|right; exact Ha0]. }
    assert (Harest : forall y, In y (merge_files hi added) -> flt a y).
    { intros y Hy. apply merge_files_in in Hy. destruct Hy as [Hy|Hy]; [apply Hahi; exact Hy|apply Fa; exact Hy]. }
    apply SS_app. split; [exact Slo|]. split.
    + constructor; [exact Hrest|]. apply Forall_forall. exact Harest.
    + intros x y Hx [Hy|Hy].
      * subst y. apply Hlo. exact Hx.
      * apply (cmp_lt_trans bs_order x a y); [apply Hlo; exact Hx|apply Harest; exact Hy].
Qed.

(* ---- one level ----
   A level state over a base level stands for a set of files: the base and the added files whose
   number is not deleted.  [save] lists that set in order (save_repr), and a strictly sorted list is
   determined by its members (SS_ext): what is to be shown of saved levels is shown of [den]. *)
Definition den (B : list filemeta) (st : level_state) (x : filemeta) : Prop :=
  (In x B \/ In x (ls_added st)) /\ ~ In (f_number x) (ls_deleted st).

Definition save (B : list filemeta) (st : level_state) : list filemeta :=
  save_level kcmp (ls_deleted st) B (ls_added st).

(* base and added files are in order and numbered apart *)
Definition lvl_ok (B : list filemeta) (st : level_state) : Prop :=
  sorted B /\ sorted (ls_added st) /\
  forall b a, In b B -> In a (ls_added st) -> f_number b <> f_number a.

Lemma save_repr : forall B st, lvl_ok B st ->
  sorted (save B st) /\ forall x, In x (save B st) <-> den B st x.
Proof.
  intros B st (SB & SA & Hcross). unfold save, den. rewrite save_level_filter. split.
  - apply SS_filter. apply merge_files_sorted; assumption.
  - intros x. rewrite filter_In, merge_files_in, not_deleted_iff. reflexivity.
Qed.

(* builder_apply on one level, for the deleted numbers and the new files an edit has there *)
Definition lvl_apply (dels : list N) (adds : list filemeta) (st : level_state) : level_state :=
  mkLS (del_all (map f_number adds) (put_all dels (ls_deleted st))) (ins_all adds (ls_added st)).

(* the files [adds] are new to the level: numbered apart from each other and from what is there
   (the header's "no file number is added twice") *)
Definition new_to (B : list filemeta) (st : level_state) (adds : list filemeta) : Prop :=
  NoDup (map f_number adds) /\
  forall f x, In f adds -> In x B \/ In x (ls_added st) -> f_number x <> f_number f.

(* one edit on a level, saved: what it deletes leaves, then its new files arrive *)
Lemma save_apply_repr : forall B st dels adds, lvl_ok B st -> new_to B st adds ->
  sorted (save B (lvl_apply dels adds st)) /\
  forall x, In x (save B (lvl_apply dels adds st)) <-> den B st x /\ ~ In (f_number x) dels \/ In x adds.
Proof.
  intros B st dels adds (SB & SA & Hcross) (Hnd & Hfr).
  assert (HinA : forall x, In x (ins_all adds (ls_added st)) <-> In x (ls_added st) \/ In x adds).
  { intros x. apply ins_all_In; [exact Hnd|]. intros f g Hf Hg. apply (Hfr f g Hf). right. exact Hg. }
  destruct (save_repr B (lvl_apply dels adds st)) as [S M].
  { split; [exact SB|]. split; [apply ins_all_sorted; exact SA|].
    intros b a Hb Ha. apply HinA in Ha. destruct Ha as [Ha|Ha]; [apply Hcross; assumption|].
    apply (Hfr a b Ha). left. exact Hb. }
  split; [exact S|]. intros x. rewrite M. unfold den, lvl_apply. cbn [ls_deleted ls_added].
  rewrite HinA, In_del_all, In_put_all.
  (* a member of adds has its number among those of adds, an old member has not *)
  assert (Hadd : In x adds -> In (f_number x) (map f_number adds)) by apply in_map.
  assert (Hold : In x B \/ In x (ls_added st) -> ~ In (f_number x) (map f_number adds)).
  { intros H Hn. apply in_map_iff in Hn. destruct Hn as (f & Heq & Hf). apply (Hfr f x Hf H). congruence. }
  clear - Hadd Hold. tauto.
Qed.

(* ldb_versions_apply starts from a fresh level state over the level itself *)
Lemma save_fresh_repr : forall L dels adds, sorted L -> NoDup (map f_number adds) ->
  (forall f x, In f adds -> In x L -> f_number x <> f_number f) ->
  sorted (save L (lvl_apply dels adds ls_empty)) /\
  forall x, In x (save L (lvl_apply dels adds ls_empty)) <-> In x L /\ ~ In (f_number x) dels \/ In x adds.
Proof.
  intros L dels adds SL Hnd Hfr. destruct (save_apply_repr L ls_empty dels adds) as [S M].
  - split; [exact SL|]. split; [constructor|intros b a _ []].
  - split; [exact Hnd|]. intros f x Hf [Hx|[]]. apply (Hfr f x Hf Hx).
  - split; [exact S|]. intros x. rewrite M. unfold den. cbn [ls_empty ls_added ls_deleted In]. tauto.
Qed.

(* One level, one more edit: saving the accumulated state over the base = saving the edit alone
   over what had been saved so far: both list the same set. *)
Lemma save_apply : forall B st dels adds, lvl_ok B st -> new_to B st adds ->
  save B (lvl_apply dels adds st) = save (save B st) (lvl_apply dels adds ls_empty).
Proof.
  intros B st dels adds Hok Hnew.
  destruct (save_repr B st Hok) as [S0 M0].
  destruct (save_apply_repr B st dels adds Hok Hnew) as [S1 M1].
  destruct (save_fresh_repr (save B st) dels adds S0 (proj1 Hnew)) as [S2 M2].
  { intros f x Hf Hx. apply (proj2 Hnew f x Hf). apply M0 in Hx. apply Hx. }
  apply (SS_ext flt flt_irrefl (cmp_lt_trans bs_order) _ _ S1 S2).
  intros x. rewrite M1, M2, M0. reflexivity.
Qed.

(* b_levels (builder_apply kcmp b e) as a function of b_levels b *)
Definition apply_levels (ls : list level_state) (e : edit) : list level_state :=
  fold_left (apply_newfile kcmp) (e_new_files e) (fold_left apply_deleted (e_deleted_files e) ls).

Lemma length_apply_levels : forall ls e, length (apply_levels ls e) = length ls.
Proof.
  intros. unfold apply_levels, apply_newfile, apply_deleted. rewrite !length_fold_upd. reflexivity.
Qed.

Lemma fold_level_deleted : forall (ds : list (N * N)) st,
  fold_left (fun st p => mkLS (dset_put (snd p) (ls_deleted st)) (ls_added st)) ds st =
  mkLS (put_all (map snd ds) (ls_deleted st)) (ls_added st).
Proof.
  induction ds as [|p ds IH]; intros st; cbn [fold_left map]; [destruct st; reflexivity|].
  rewrite IH. reflexivity.
Qed.

Lemma fold_level_newfile : forall nfs st,
  fold_left (fun st nf => mkLS (dset_del (nf_number nf) (ls_deleted st))
                               (fset_insert kcmp (meta_of nf) (ls_added st))) nfs st =
  lvl_apply [] (map meta_of nfs) st.
Proof.
  induction nfs as [|nf nfs IH]; intros st; cbn [fold_left map]; [destruct st; reflexivity|].
  rewrite IH. reflexivity.
Qed.

Lemma nth_apply_levels : forall l ls e,
  (l < length ls)%nat ->
  nth l (apply_levels ls e) ls_empty = lvl_apply (dels_at l e) (adds_at l e) (nth l ls ls_empty).
Proof.
  intros l ls e Hl. unfold apply_levels, apply_newfile, apply_deleted.
  rewrite nth_fold_upd by (rewrite length_fold_upd; exact Hl).
  rewrite nth_fold_upd by exact Hl.
  rewrite fold_level_deleted. apply fold_level_newfile.
Qed.

Lemma length_save_levels : forall ls base, length (save_levels kcmp base ls) = length ls.
Proof.
  induction ls as [|st ls IH]; intros base; cbn [save_levels length]; [reflexivity|].
  rewrite IH. reflexivity.
Qed.

Lemma nth_save_levels : forall ls base l,
  (l < length ls)%nat ->
  nth l (save_levels kcmp base ls) [] = save (nth l base []) (nth l ls ls_empty).
Proof.
  induction ls as [|st ls IH]; intros base l Hl; [cbn in Hl; lia|].
  cbn [save_levels]. destruct l as [|l]; cbn [nth].
  - destruct base; reflexivity.
  - rewrite IH by (cbn [length] in Hl; lia). destruct base as [|b base]; cbn [tl nth]; [|reflexivity].
    destruct l; reflexivity.
Qed.

Lemma save_levels_fresh : forall B, save_levels kcmp B (repeat ls_empty (length B)) = B.
Proof.
  induction B as [|b B IH]; [reflexivity|]. cbn [length repeat save_levels tl ls_empty ls_deleted ls_added save_level].
  rewrite flat_map_maybe_add, filter_true, IH by (intros y _; reflexivity). reflexivity.
Qed.

(* vs_levels (apply_edit kcmp v e) as a function of vs_levels v; the proofs pass from one to the
   other by conversion *)
Definition step_levels (L : list (list filemeta)) (e : edit) : list (list filemeta) :=
  save_levels kcmp L (apply_levels (repeat ls_empty NLEVELS) e).

Lemma length_step_levels : forall L e, length (step_levels L e) = NLEVELS.
Proof. intros. unfold step_levels. rewrite length_save_levels, length_apply_levels. apply repeat_length. Qed.

(* ldb_versions_apply on one level: a fresh level state, the edit, saved over the level *)
Lemma nth_step_levels : forall L e l, (l < NLEVELS)%nat ->
  nth l (step_levels L e) [] = save (nth l L []) (lvl_apply (dels_at l e) (adds_at l e) ls_empty).
Proof.
  intros L e l Hl. unfold step_levels.
  rewrite nth_save_levels by (rewrite length_apply_levels, repeat_length; exact Hl).
  rewrite nth_apply_levels by (rewrite repeat_length; exact Hl).
  rewrite nth_repeat. reflexivity.
Qed.

(* what holds of a builder that has taken in the edits [es], whatever they are: per level, the
   added files are in order and their numbers are among those es adds there *)
Definition accumulated (es : list edit) (ls : list level_state) : Prop :=
  length ls = NLEVELS /\
  forall l, (l < NLEVELS)%nat ->
    sorted (ls_added (nth l ls ls_empty)) /\
    Forall (fun a => In (f_number a) (flat_map (nums_at l) es)) (ls_added (nth l ls ls_empty)).

Lemma accumulated_init : accumulated [] (repeat ls_empty NLEVELS).
Proof.
  split; [apply repeat_length|]. intros l _. rewrite nth_repeat. split; constructor.
Qed.

Lemma accumulated_step : forall es ls e,
  accumulated es ls -> accumulated (es ++ [e]) (apply_levels ls e).
Proof.
  intros es ls e (Hlen & H). split; [rewrite length_apply_levels; exact Hlen|].
  intros l Hl. destruct (H l Hl) as [SA Hin].
  rewrite nth_apply_levels by (rewrite Hlen; exact Hl). cbn [lvl_apply ls_added].
  split; [apply ins_all_sorted; exact SA|].
  rewrite flat_map_app. cbn [flat_map]. rewrite app_nil_r.
  apply (set_put_all_Forall bs); apply Forall_forall; intros a Ha; apply in_or_app.
  - right. apply in_map. exact Ha.
  - left. rewrite Forall_forall in Hin. apply Hin. exact Ha.
Qed.

(* One more edit, all levels: the edit on the accumulating builder, saved over the base B = the edit on a
   fresh builder, saved over what the accumulated builder saves over B -- provided no number is added
   twice to a level, by B or the edits. *)
Theorem save_apply_levels : forall B es ls e,
  (forall l, (l < NLEVELS)%nat -> sorted (nth l B [])) ->
  accumulated es ls ->
  (forall l, (l < NLEVELS)%nat -> NoDup (map f_number (nth l B []) ++ flat_map (nums_at l) (es ++ [e]))) ->
  save_levels kcmp B (apply_levels ls e) = step_levels (save_levels kcmp B ls) e.
Proof.
  intros B es ls e HSB (Hlen & Hacc) Hfr.
  apply (nth_ext _ _ [] []).
  - rewrite length_save_levels, length_apply_levels, length_step_levels. exact Hlen.
  - intros l Hl. rewrite length_save_levels, length_apply_levels, Hlen in Hl.
    rewrite nth_save_levels by (rewrite length_apply_levels, Hlen; exact Hl).
    rewrite nth_apply_levels by (rewrite Hlen; exact Hl).
    rewrite nth_step_levels by exact Hl.
    rewrite nth_save_levels by (rewrite Hlen; exact Hl).
    destruct (Hacc l Hl) as [SA Hin]. rewrite Forall_forall in Hin. specialize (Hfr l Hl).
    rewrite flat_map_app in Hfr. cbn [flat_map] in Hfr. rewrite app_nil_r in Hfr.
    apply NoDup_app_iff in Hfr. destruct Hfr as (_ & Hnd & HB).
    apply NoDup_app_iff in Hnd. destruct Hnd as (_ & Hnd & HA).
    apply save_apply.
    + split; [apply HSB; exact Hl|]. split; [exact SA|].
      intros b a Hb Ha Heq. apply (HB (f_number b)); [apply in_map; exact Hb|].
      apply in_or_app. left. rewrite Heq. apply Hin. exact Ha.
    + split; [exact Hnd|]. intros f x Hf [Hx|Hx] Heq.
      * apply (HB (f_number x)); [apply in_map; exact Hx|].
        apply in_or_app. right. rewrite Heq. apply in_map. exact Hf.
      * apply (HA (f_number x)); [apply Hin; exact Hx|]. rewrite Heq. apply in_map. exact Hf.
Qed.

End Builder.
