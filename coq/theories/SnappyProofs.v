(* SnappyProofs.v -- proofs about Snappy.v:
   C16: snappy_decode never returns OOB (memory safety on arbitrary input);
   ops-level soundness: decoding the serialisation of a valid element list
   yields its expansion. *)
From LCDB Require Import Base Varint Block Trie Snappy BaseProofs VarintProofs BlockProofs.
From Coq Require Import Lia.
Local Open Scope N_scope.

(* a checked read of n <= xn bytes, and that it keeps the input cursor: (xs, xn) with xn = nlen xs *)
Lemma take_in_cursor : forall xs xn n, xn = nlen xs -> n <= xn ->
  take_in xs n = Ok (take_n n xs, drop_n n xs) /\ nlen (take_n n xs) = n /\ xn - n = nlen (drop_n n xs).
Proof.
  intros xs xn n -> H. unfold take_in. rewrite nlen_take, nlen_drop, N.min_l, N.eqb_refl by exact H. auto.
Qed.

Lemma take_in_app : forall a b n, n = nlen a -> take_in (a ++ b) n = Ok (a, b).
Proof.
  intros a b n ->. unfold take_in. rewrite take_n_nlen_app, drop_n_nlen_app, N.eqb_refl. reflexivity.
Qed.

(* the byte-wise copy loop of the C code, as a pure function on the reversed output *)
Fixpoint copy_spec (len : nat) (off : nat) (out : bytes) : bytes :=
  match len with
  | O => out
  | S l => copy_spec l off (nth (off - 1) out 0 :: out)
  end.

Lemma copy_bytewise_spec : forall len off out,
  1 <= off -> off <= nlen out ->
  copy_bytewise len off out = Ok (copy_spec len (N.to_nat off) out).
Proof.
  induction len; intros off out H1 H2; cbn [copy_bytewise copy_spec]; [reflexivity|].
  destruct (nth_error out (N.to_nat (off - 1))) eqn:E.
  - rewrite IHlen by (rewrite ?nlen_cons; lia).
    replace (N.to_nat off - 1)%nat with (N.to_nat (off - 1)) by lia.
    rewrite (nth_error_nth _ _ 0 E). reflexivity.
  - apply nth_error_None in E. unfold nlen in H2. lia.
Qed.

(* memcpy(zp, zp - off, len) equals the byte loop when the ranges do not overlap *)
Lemma copy_spec_block : forall len off out,
  (len <= off)%nat -> (off <= length out)%nat ->
  copy_spec len off out = firstn len (skipn (off - len) out) ++ out.
Proof.
  induction len; intros off out H1 H2; cbn [copy_spec]; [reflexivity|].
  rewrite IHlen by (cbn [length]; lia).
  replace (off - len)%nat with (S (off - S len)) by lia. cbn [skipn].
  rewrite (firstn_succ_nth 0) by (rewrite skipn_length; lia).
  rewrite <- app_assoc. cbn [app]. rewrite nth_skipn.
  replace (off - S len + len)%nat with (off - 1)%nat by lia. reflexivity.
Qed.

Lemma do_copy_spec : forall len off out,
  1 <= off -> off <= nlen out ->
  do_copy len off out = Ok (copy_spec (N.to_nat len) (N.to_nat off) out).
Proof.
  intros len off out H1 H2. unfold do_copy.
  destruct (N.leb_spec len off) as [E|E].
  - unfold copy_block. rewrite nlen_take, nlen_drop, N.min_l by lia.
    rewrite N.eqb_refl. rewrite copy_spec_block by (unfold nlen in *; lia).
    unfold take_n, drop_n. repeat f_equal. lia.
  - apply copy_bytewise_spec; assumption.
Qed.

Lemma copy_spec_length : forall len off out, length (copy_spec len off out) = (length out + len)%nat.
Proof. induction len; intros; cbn [copy_spec]; [lia|]. rewrite IHlen. cbn [length]. lia. Qed.

Lemma decode_loop_safe : forall fuel xs xn out zpos zn,
  xn = nlen xs -> zpos = nlen out ->
  decode_loop fuel xs xn out zpos zn <> OOB.
Proof.
  induction fuel as [|f fuel IH]; intros xs xn out zpos zn Hx Hz; cbn [decode_loop].
  - destruct (xn =? 0); [destruct (zn =? 0)|]; discriminate.
  - destruct (N.eqb_spec xn 0) as [|E0]; [destruct (zn =? 0); discriminate|].
    destruct xs as [|b0 xs1]; [elim E0; exact Hx|].
    assert (Hx1 : xn - 1 = nlen xs1) by (rewrite Hx, nlen_cons, N.add_comm; apply N.add_sub).
    (* how the tag byte is split into fields plays no role, nor does any decoded
       length or offset beyond the tests the decoder makes *)
    generalize (b0 / 32), (b0 / 4), (b0 mod 4). intros hi x tag.
    destruct (tag =? 0).
    + set (nb := if x <? 60 then 0 else x - 59). clearbody nb.
      destruct (N.ltb_spec (xn - 1) nb) as [|E1]; [discriminate|].
      destruct (take_in_cursor _ _ nb Hx1 E1) as (-> & _ & Hx2). cbn [rbind].
      set (x' := if x <? 60 then x else le_num _). clearbody x'.
      destruct (2147483647 <=? x'); [discriminate|].
      destruct (zn <? x' + 1); [discriminate|].
      destruct (N.ltb_spec (xn - 1 - nb) (x' + 1)) as [|E3]; [discriminate|]. cbn [orb].
      destruct (take_in_cursor _ _ (x' + 1) Hx2 E3) as (-> & Hl & Hx3). cbn [rbind].
      apply IH; [exact Hx3|]. rewrite nlen_rev_append, Hl, Hz. apply N.add_comm.
    + set (hdr := if tag =? 1 then 2 else if tag =? 2 then 3 else 5).
      assert (Hh : 1 <= hdr) by (subst hdr; destruct (tag =? 1); [|destruct (tag =? 2)]; discriminate).
      clearbody hdr.
      destruct (N.ltb_spec xn hdr) as [|E1]; [discriminate|].
      destruct (take_in_cursor _ _ (hdr - 1) Hx1 (N.sub_le_mono_r _ _ 1 E1)) as (-> & _ & Hx2).
      cbn [rbind].
      set (len := if tag =? 1 then 4 + x mod 8 else 1 + x). clearbody len.
      set (off := if tag =? 1 then hi * 256 + le_num _ else le_num _). clearbody off.
      destruct (N.eqb_spec off 0) as [|E2]; [discriminate|].
      destruct (2147483648 <=? off); [discriminate|]. cbn [orb].
      destruct (N.ltb_spec zpos off) as [|E3]; [discriminate|].
      destruct (zn <? len); [discriminate|]. cbn [orb].
      rewrite do_copy_spec by (clear - E2 E3 Hz; lia). cbn [rbind]. apply IH.
      * rewrite <- Hx2. clear - Hh. lia.
      * unfold nlen. rewrite copy_spec_length, Hz, Nat2N.inj_add, N2Nat.id. reflexivity.
Qed.

(* C16: the Snappy decoder is memory safe on arbitrary input *)
Theorem snappy_decode_safe : forall x, snappy_decode x <> OOB.
Proof.
  intros x. unfold snappy_decode.
  destruct (varint32_read x) as [[zn rest]|]; [|discriminate].
  destruct (2147483647 <? zn); [discriminate|].
  apply decode_loop_safe; reflexivity.
Qed.

(* elements of a Snappy stream *)
Inductive sop :=
| SLit (w : N) (lit : bytes)        (* literal; w = number of extra length bytes (0..4) *)
| SCopy (kind : N) (off len : N).   (* copy with 1-, 2- or 4-byte offset (kind = 1, 2, 4) *)

Fixpoint le_bytes (w : nat) (x : N) : bytes :=
  match w with
  | O => []
  | S w' => x mod 256 :: le_bytes w' (x / 256)
  end.

Definition sop_bytes (o : sop) : bytes :=
  match o with
  | SLit w lit =>
      let n := nlen lit - 1 in
      (if w =? 0 then [n * 4] else ((59 + w) * 4) :: le_bytes (N.to_nat w) n) ++ lit
  | SCopy kind off len =>
      if kind =? 1 then [(off / 256) * 32 + (len - 4) * 4 + 1; off mod 256]
      else if kind =? 2 then ((len - 1) * 4 + 2) :: le_bytes 2 off
      else ((len - 1) * 4 + 3) :: le_bytes 4 off
  end.

(* validity of an element when [zpos] bytes have been produced *)
Definition sop_ok (zpos : N) (o : sop) : Prop :=
  match o with
  | SLit w lit =>
      1 <= nlen lit /\ nlen lit < 2147483648 /\ w <= 4 /\
      (if w =? 0 then nlen lit <= 60 else 256 ^ (w - 1) * 0 <= nlen lit - 1 < 256 ^ w)
  | SCopy kind off len =>
      1 <= off /\ off <= zpos /\
      ((kind = 1 /\ 4 <= len <= 11 /\ off < 2048) \/
       (kind = 2 /\ 1 <= len <= 64 /\ off < 65536) \/
       (kind = 4 /\ 1 <= len <= 64 /\ off < 2147483648))
  end.

Definition sop_len (o : sop) : N :=
  match o with SLit _ lit => nlen lit | SCopy _ _ len => len end.

(* effect on the reversed output *)
Definition sop_apply (o : sop) (out : bytes) : bytes :=
  match o with
  | SLit _ lit => rev_append lit out
  | SCopy _ off len => copy_spec (N.to_nat len) (N.to_nat off) out
  end.

Fixpoint sops_ok (zpos : N) (ops : list sop) : Prop :=
  match ops with
  | [] => True
  | o :: ops' => sop_ok zpos o /\ sops_ok (zpos + sop_len o) ops'
  end.

Fixpoint sops_apply (ops : list sop) (out : bytes) : bytes :=
  match ops with
  | [] => out
  | o :: ops' => sops_apply ops' (sop_apply o out)
  end.

Definition sops_len (ops : list sop) : N := fold_right (fun o a => sop_len o + a) 0 ops.
Definition sops_bytes (ops : list sop) : bytes := flat_map sop_bytes ops.

Lemma le_num_le_bytes : forall w x, x < 256 ^ N.of_nat w -> le_num (le_bytes w x) = x.
Proof. exact (val_digits 256). Qed.

Lemma nlen_le_bytes : forall w x, nlen (le_bytes w x) = N.of_nat w.
Proof.
  induction w; intros; cbn [le_bytes]; [reflexivity|]. rewrite nlen_cons, IHw. lia.
Qed.

Lemma sop_bytes_nonempty : forall o, (1 <= length (sop_bytes o))%nat.
Proof.
  intros [w lit|kind off len]; cbn [sop_bytes].
  - destruct (w =? 0); cbn [app length]; lia.
  - destruct (kind =? 1); [cbn; lia|]. destruct (kind =? 2); cbn [length]; lia.
Qed.

(* One round of the decoder on a well-formed literal, and below on a well-formed copy with
   tag [t] and offset bytes [ob], whatever follows; [decode_loop_sop] then only has to
   match the tag arithmetic of each kind of element. *)
Lemma decode_loop_literal : forall f fuel x lb lit xs out zpos zn,
  nlen lb = (if x <? 60 then 0 else x - 59) ->
  nlen lit = (if x <? 60 then x else le_num lb) + 1 ->
  nlen lit < 2147483648 -> nlen lit <= zn ->
  decode_loop (f :: fuel) (x * 4 :: lb ++ lit ++ xs) (nlen (x * 4 :: lb ++ lit ++ xs)) out zpos zn =
  decode_loop fuel xs (nlen xs) (rev_append lit out) (zpos + nlen lit) (zn - nlen lit).
Proof.
  intros f fuel x lb lit xs out zpos zn Hlb Hlit Hmax Hzn.
  cbn [decode_loop]. rewrite N.mod_mul, N.div_mul by discriminate.
  rewrite N.eqb_refl, <- Hlb, take_in_app by reflexivity. cbn [rbind].
  set (n := if x <? 60 then x else le_num lb) in *. clearbody n. clear Hlb.
  rewrite <- Hlit, take_in_app by reflexivity. cbn [rbind].
  rewrite nlen_cons, !nlen_app.
  replace (1 + (nlen lb + (nlen lit + nlen xs)) =? 0) with false by (symmetry; apply N.eqb_neq; lia).
  replace (1 + (nlen lb + (nlen lit + nlen xs)) - 1 <? nlen lb) with false by (symmetry; apply N.ltb_ge; lia).
  replace (2147483647 <=? n) with false by (symmetry; apply N.leb_gt; lia).
  replace (zn <? nlen lit) with false by (symmetry; apply N.ltb_ge; lia).
  replace (1 + (nlen lb + (nlen lit + nlen xs)) - 1 - nlen lb <? nlen lit)
    with false by (symmetry; apply N.ltb_ge; lia).
  cbn [orb].
  f_equal. lia.
Qed.

Lemma decode_loop_copy : forall f fuel xs out zpos zn len off,
  1 <= off <= zpos -> off < 2147483648 -> len <= zn -> zpos = nlen out ->
  forall b0 x t ob, b0 = x * 4 + t -> 1 <= t < 4 ->
  nlen ob + 1 = (if t =? 1 then 2 else if t =? 2 then 3 else 5) ->
  len = (if t =? 1 then 4 + x mod 8 else 1 + x) ->
  off = (if t =? 1 then x / 8 * 256 + le_num ob else le_num ob) ->
  decode_loop (f :: fuel) (b0 :: ob ++ xs) (nlen (b0 :: ob ++ xs)) out zpos zn =
  decode_loop fuel xs (nlen xs) (copy_spec (N.to_nat len) (N.to_nat off) out) (zpos + len) (zn - len).
Proof.
  intros f fuel xs out zpos zn len off Ho1 Ho2 Hl Hz b0 x t ob -> Ht Hob Hlen Hoff.
  cbn [decode_loop]. change 32 with (4 * 8). rewrite <- N.div_div by discriminate.
  destruct (tag_fields 4 x t) as [-> ->]; [lia|].
  replace (t =? 0) with false by (symmetry; apply N.eqb_neq; lia).
  rewrite <- Hob, <- Hlen, N.add_sub, take_in_app by reflexivity.
  cbn [rbind]. rewrite <- Hoff, nlen_cons, nlen_app. clear x t Ht Hob Hlen Hoff.
  replace (1 + (nlen ob + nlen xs) =? 0) with false by (symmetry; apply N.eqb_neq; lia).
  replace (1 + (nlen ob + nlen xs) <? nlen ob + 1) with false by (symmetry; apply N.ltb_ge; lia).
  replace (off =? 0) with false by (symmetry; apply N.eqb_neq; lia).
  replace (2147483648 <=? off) with false by (symmetry; apply N.leb_gt; lia).
  replace (zpos <? off) with false by (symmetry; apply N.ltb_ge; lia).
  replace (zn <? len) with false by (symmetry; apply N.ltb_ge; lia).
  cbn [orb].
  rewrite do_copy_spec by lia. cbn [rbind]. f_equal; lia.
Qed.

Lemma decode_loop_sop : forall o fuel' xs out zpos zn,
  sop_ok zpos o -> zpos = nlen out -> sop_len o <= zn ->
  forall f, decode_loop (f :: fuel') (sop_bytes o ++ xs) (nlen (sop_bytes o ++ xs)) out zpos zn =
  decode_loop fuel' xs (nlen xs) (sop_apply o out) (zpos + sop_len o) (zn - sop_len o).
Proof.
  intros [w lit|kind off len] fuel' xs out zpos zn Hok Hz Hzn f;
    cbn [sop_bytes sop_ok sop_len sop_apply] in *.
  - destruct Hok as (H1 & H2 & H3 & H4). rewrite <- app_assoc.
    destruct (N.eqb_spec w 0) as [Ew|Ew].
    + assert (E : nlen lit - 1 <? 60 = true) by (apply N.ltb_lt; lia).
      apply (decode_loop_literal f fuel' (nlen lit - 1) [] lit xs); rewrite ?E;
        [reflexivity | lia | exact H2 | exact Hzn].
    + assert (E : 59 + w <? 60 = false) by (apply N.ltb_ge; lia).
      apply (decode_loop_literal f fuel' (59 + w) (le_bytes (N.to_nat w) (nlen lit - 1)) lit xs);
        rewrite ?E; [ | | exact H2 | exact Hzn].
      * rewrite nlen_le_bytes. lia.
      * rewrite le_num_le_bytes by (rewrite N2Nat.id; lia). lia.
  - destruct Hok as (H1 & H2 & Hk).
    pose proof (decode_loop_copy f fuel' xs out zpos zn len off (conj H1 H2)) as Hcopy.
    destruct Hk as [(-> & Hl & Ho)|[(-> & Hl & Ho)|(-> & Hl & Ho)]];
      cbn [N.eqb Pos.eqb]; specialize (Hcopy ltac:(clear - Ho; lia) Hzn Hz).
    + pose proof (N.div_mod' off 256) as Hdm.
      set (hi := off / 256) in *. set (lo := off mod 256) in *. clearbody hi lo.
      destruct (tag_fields 8 hi (len - 4)) as [U1 U2]; [clear - Hl; lia|].
      apply Hcopy with (x := hi * 8 + (len - 4)) (t := 1) (ob := [lo]);
        [clear; lia | clear; lia | reflexivity | | ]; cbn [N.eqb Pos.eqb le_num].
      * rewrite U1. clear - Hl. lia.
      * rewrite U2. clear - Hdm. lia.
    + apply Hcopy with (x := len - 1) (t := 2) (ob := le_bytes 2 off);
        [reflexivity | clear; lia | reflexivity | | ]; cbn [N.eqb Pos.eqb].
      * clear - Hl. lia.
      * rewrite le_num_le_bytes by exact Ho. reflexivity.
    + apply Hcopy with (x := len - 1) (t := 3) (ob := le_bytes 4 off);
        [reflexivity | clear; lia | reflexivity | | ]; cbn [N.eqb Pos.eqb].
      * clear - Hl. lia.
      * rewrite le_num_le_bytes by (clear - Ho; change (256 ^ N.of_nat 4) with 4294967296; lia).
        reflexivity.
Qed.

Lemma sop_apply_length : forall o out, nlen (sop_apply o out) = nlen out + sop_len o.
Proof.
  intros [w lit|kind off len] out; cbn [sop_apply sop_len].
  - rewrite nlen_rev_append. lia.
  - unfold nlen. rewrite copy_spec_length. lia.
Qed.

Lemma decode_loop_sops : forall ops fuel out zpos zn,
  sops_ok zpos ops -> zpos = nlen out -> zn = sops_len ops ->
  (length ops <= length fuel)%nat ->
  decode_loop fuel (sops_bytes ops) (nlen (sops_bytes ops)) out zpos zn
  = Ok (Some (rev' (sops_apply ops out))).
Proof.
  induction ops as [|o ops IH]; intros fuel out zpos zn Hok Hz Hzn Hfuel.
  - cbn [sops_bytes flat_map sops_apply sops_len fold_right] in *. subst zn.
    destruct fuel; reflexivity.
  - destruct Hok as [Ho Hok]. cbn [length] in Hfuel.
    destruct fuel as [|f fuel]; [cbn [length] in Hfuel; lia|]. cbn [length] in Hfuel.
    unfold sops_bytes. cbn [flat_map]. fold (sops_bytes ops).
    cbn [sops_len fold_right] in Hzn. fold (sops_len ops) in Hzn.
    rewrite decode_loop_sop by (auto; lia).
    cbn [sops_apply]. apply IH.
    + exact Hok.
    + rewrite sop_apply_length. lia.
    + lia.
    + lia.
Qed.

Lemma sops_bytes_length : forall ops, (length ops <= length (sops_bytes ops))%nat.
Proof.
  induction ops as [|o ops IH]; [cbn; lia|].
  unfold sops_bytes in *. cbn [flat_map length]. rewrite app_length.
  pose proof (sop_bytes_nonempty o). lia.
Qed.

(* C16: decoding the serialisation of a valid element list yields its expansion *)
Theorem snappy_decode_ops : forall ops,
  sops_ok 0 ops -> sops_len ops < 2147483648 ->
  snappy_decode (varint32_write (sops_len ops) ++ sops_bytes ops)
  = Ok (Some (rev (sops_apply ops []))).
Proof.
  intros ops Hok Hlen. unfold snappy_decode.
  rewrite varint32_read_write by lia.
  replace (2147483647 <? sops_len ops) with false by (symmetry; apply N.ltb_ge; lia).
  rewrite decode_loop_sops; auto.
  - unfold rev'. rewrite <- rev_alt. reflexivity.
  - rewrite app_length. pose proof (sops_bytes_length ops). lia.
Qed.
