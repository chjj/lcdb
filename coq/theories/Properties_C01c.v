(* Properties_C01c.v -- C01 ("reads return the latest write ... regardless of cache
   evictions, ..."), the two abstractions the engine model (Engine.v) makes about lcdb's
   in-memory structures, justified on executable replicas that are tied to the C code by
   K1 differentials (checks/extra_c01.py):

   1. The LRU cache (src/util/cache.c; block cache and table cache) is TRANSPARENT.
      Cache.v is a sequential model of the 16-shard cache (sharding by hash; per shard the
      lru list, refs, in_cache, usage, eviction, capacity 0; the hash table and the in_use
      list are not components of the model, Cache.v says why).  For every client script
      (inserts, lookups, releases of held handles, erases, prunes, in any order, any
      capacity): a lookup returns a miss or the value most recently inserted for that key;
      usage is bounded; an entry pinned by a handle is never freed; every inserted entry is
      handed to its deleter exactly once.  Hence the engine model may read tables and blocks
      directly, as if there were no cache.

   2. The memtable (src/skiplist.c + src/memtable.c) IS A SORTED LIST.  Skiplist.v models the
      pointer structure as the C code builds it (arena of nodes, per-level next links,
      max_height, the prev[] array of find_greater_or_equal).  For every comparator that is a
      total order, every sequence of pairwise inequivalent keys and EVERY height sequence
      in 1..12: level 0 lists the inserted keys in sorted order, every level is the sublist of
      the taller nodes, find_greater_or_equal is [find] on the sorted list (what
      Engine.seek_ge assumes), find_less_than / find_last and the iterator move as in the
      sorted list; and the replica of ldb_memtable_get over the encoded entries equals
      Engine.get_in_run over the [entry] list that Engine.do_write maintains.

   Statements only; proofs in CacheProofs.v, SkiplistProofs.v (+ SkiplistLemmas / SkiplistInv),
   MemtableProofs.v, MemtableGet.v. *)
From LCDB Require Import Base Engine EngineSpec Cache CacheSpec CacheInv3 CacheProofs
     Skiplist SkiplistSpec SkiplistProofs Memtable MemtableProofs MemtableGet.
Require Import Permutation.
Local Open Scope N_scope.

(* after ANY script, a lookup of k returns a miss or the value most recently inserted for k
   and not erased since (CacheSpec.spec_latest) -- never a stale or foreign value *)
Theorem C01_cache_transparent :
  forall capacity ops st fr, reached capacity ops st fr ->
  forall k c' h v, lru_lookup (cs_cache st) k = (c', Some (h, v)) ->
  spec_latest ops k = Some v.
Proof. exact cache_transparent. Qed.
Print Assumptions C01_cache_transparent.

(* at most one in-cache entry per key *)
Theorem C01_cache_at_most_one :
  forall capacity ops st fr, reached capacity ops st fr ->
  forall i s, is_shard st i s ->
  forall e1 e2, In e1 (sh_heap s) -> In e2 (sh_heap s) ->
  ce_in_cache e1 = true -> ce_in_cache e2 = true -> ce_key e1 = ce_key e2 -> e1 = e2.
Proof. exact cache_at_most_one. Qed.
Print Assumptions C01_cache_at_most_one.

(* usage = sum of the charges of the in-cache entries (size_t arithmetic).
   [charges_ok ops]: every charge passed to insert is a size_t (< 2^64), as in C. *)
Theorem C01_cache_usage :
  forall capacity ops st fr, charges_ok ops -> reached capacity ops st fr ->
  forall i s, is_shard st i s ->
  sh_usage s = sum_charges (in_cache_entries s) mod two64.
Proof. exact cache_usage_wf. Qed.
Print Assumptions C01_cache_usage.

(* after every insert the shard that took the entry is within max(capacity, what client
   handles pin): eviction only happens inside insert and only takes unreferenced entries.
   (The literal "usage <= capacity whenever no handle is outstanding" is not a property of
   this cache, nor of LevelDB's: capacity 1, insert a, insert b (both held, charge 1 each),
   release both: usage 2, nothing outstanding -- release never evicts.) *)
Theorem C01_cache_bounded :
  forall capacity ops st fr, charges_ok ops -> reached capacity ops st fr ->
  forall k v ch st' obs f, ch < two64 -> cache_step st (CInsert k v ch) = (st', obs, f) ->
  forall s', is_shard st' (shard_index k) s' ->
  sh_usage s' <= N.max (sh_cap s') (sum_charges (pinned_entries s')).
Proof. exact cache_bounded_wf. Qed.
Print Assumptions C01_cache_bounded.

(* when no handle is outstanding at the time of the insert: usage <= max(capacity, charge) *)
Theorem C01_cache_bounded_unpinned :
  forall capacity ops st fr, charges_ok ops -> reached capacity ops st fr ->
  Forall (fun o => o = None) (cs_slots st) ->
  forall k v ch st' obs f, ch < two64 -> cache_step st (CInsert k v ch) = (st', obs, f) ->
  forall s', is_shard st' (shard_index k) s' ->
  sh_usage s' <= N.max (sh_cap s') ch.
Proof. exact cache_bounded_unpinned_wf. Qed.
Print Assumptions C01_cache_bounded_unpinned.

(* every held handle names a live entry; no step frees an entry that is still held *)
Theorem C01_cache_pinned_never_freed :
  forall capacity ops st fr, reached capacity ops st fr ->
  (forall i id, In (Some (i, id)) (cs_slots st) ->
     exists e, heap_get (sh_heap (get_shard (cs_cache st) i)) id = Some e /\ 1 <= ce_refs e) /\
  (forall op st' obs f, cache_step st op = (st', obs, f) ->
     forall e, In e f -> ~ In (Some (shard_index (ce_key e), ce_id e)) (cs_slots st')).
Proof. exact cache_pinned. Qed.
Print Assumptions C01_cache_pinned_never_freed.

(* deleter calls so far + live entries = inserts so far; over the whole life (script, release
   of every held handle, ldb_lru_destroy) every inserted entry is freed exactly once *)
Theorem C01_cache_freed_plus_live :
  forall capacity ops st fr, reached capacity ops st fr ->
  Permutation (map kv fr ++ map kv (all_heap (cs_cache st))) (inserted_kv ops).
Proof. exact cache_freed_plus_live. Qed.
Print Assumptions C01_cache_freed_plus_live.

Theorem C01_cache_deleter_exactly_once :
  forall capacity ops,
  all_heap (fst (lifecycle capacity ops)) = [] /\
  Permutation (map kv (snd (lifecycle capacity ops))) (inserted_kv ops).
Proof. exact cache_exactly_once. Qed.
Print Assumptions C01_cache_deleter_exactly_once.

Theorem C01_skiplist_is_sorted_list :
  forall (K : Type) (cmp : K -> K -> comparison), cmp_order cmp ->
  forall keys hs, keys_distinct cmp keys -> heights_ok keys hs ->
  Skiplist.skiplist_contents (sl_build cmp keys hs) = sort_keys cmp keys.
Proof. exact SkiplistProofs.skiplist_contents. Qed.
Print Assumptions C01_skiplist_is_sorted_list.

Theorem C01_skiplist_levels :
  forall (K : Type) (cmp : K -> K -> comparison), cmp_order cmp ->
  forall keys hs, keys_distinct cmp keys -> heights_ok keys hs ->
  let sl := sl_build cmp keys hs in
  (forall l, (l < MAX_HEIGHT)%nat ->
     level_nodes sl l = filter (fun n => (l <? node_height sl n)%nat) (level_nodes sl 0)) /\
  map (node_height sl) (seq 1 (length keys)) = hs /\
  sl_maxh sl = fold_right Nat.max 1%nat hs.
Proof. exact skiplist_levels. Qed.
Print Assumptions C01_skiplist_levels.

Theorem C01_skiplist_seek :
  forall (K : Type) (cmp : K -> K -> comparison), cmp_order cmp ->
  forall keys hs, keys_distinct cmp keys -> heights_ok keys hs ->
  forall k, key_at (sl_build cmp keys hs) (fst (find_ge cmp (sl_build cmp keys hs) k))
            = find (ge_key cmp k) (sort_keys cmp keys).
Proof. exact skiplist_seek. Qed.
Print Assumptions C01_skiplist_seek.

Theorem C01_skiplist_find_lt_last :
  forall (K : Type) (cmp : K -> K -> comparison), cmp_order cmp ->
  forall keys hs, keys_distinct cmp keys -> heights_ok keys hs ->
  let sl := sl_build cmp keys hs in
  (forall k, node_key sl (find_lt cmp sl k) = find (lt_key cmp k) (rev (sort_keys cmp keys)) /\
             (find_lt cmp sl k = O <-> find (lt_key cmp k) (rev (sort_keys cmp keys)) = None)) /\
  node_key sl (find_last sl) = hd_error (rev (sort_keys cmp keys)) /\
  (find_last sl = O <-> keys = []).
Proof. exact skiplist_find_lt. Qed.
Print Assumptions C01_skiplist_find_lt_last.

Theorem C01_skiplist_iterator :
  forall (K : Type) (cmp : K -> K -> comparison), cmp_order cmp ->
  forall keys hs, keys_distinct cmp keys -> heights_ok keys hs ->
  let sl := sl_build cmp keys hs in
  let order := level_nodes sl 0 in
  let sorted := sort_keys cmp keys in
  length order = length sorted /\
  (forall i n, nth_error order i = Some n -> n <> O /\ node_key sl n = nth_error sorted i) /\
  it_first sl = nth_error order 0 /\
  it_last sl = nth_error order (length order - 1) /\
  (forall i n, nth_error order i = Some n -> it_next sl n = nth_error order (S i)) /\
  (forall i n, nth_error order i = Some n ->
     it_prev cmp sl n = match i with O => None | S j => nth_error order j end) /\
  (forall k, exists i, it_seek cmp sl k = nth_error order i /\
     (forall j x, (j < i)%nat -> nth_error sorted j = Some x -> cmp x k = Lt) /\
     (forall x, nth_error sorted i = Some x -> cmp x k <> Lt)).
Proof. exact skiplist_iterator. Qed.
Print Assumptions C01_skiplist_iterator.

(* ldb_skiplist_compare over encoded entries is a total order whenever the user comparator is *)
Theorem C01_memtable_comparator_order :
  forall ucmp, total_order ucmp -> cmp_order (mt_compare ucmp).
Proof. exact mt_compare_order. Qed.
Print Assumptions C01_memtable_comparator_order.

Theorem C01_memtable_entry_roundtrip : forall k seq ty v,
  seq < MAXSEQ1 -> ty < 256 -> nlen k + 8 < 4294967296 -> nlen v < 4294967296 ->
  mem_entry_decode (mem_entry_encode k seq ty v) = Some (k, seq, ty, v).
Proof. exact mem_entry_roundtrip. Qed.
Print Assumptions C01_memtable_entry_roundtrip.

(* ldb_memtable_get over the skiplist of encoded entries (any heights) = Engine.get_in_run
   over the sorted entry list of the engine model *)
Theorem C01_memtable_get_is_seek : forall ucmp, total_order ucmp ->
  forall adds hs k q,
  Forall add_ok adds -> adds_distinct ucmp adds -> heights_ok (map enc_add adds) hs ->
  q < MAXSEQ1 -> nlen k + 8 < 4294967296 ->
  memtable_get ucmp (memtable_add_all ucmp sl_empty adds hs) k q
  = get_in_run ucmp (fold_left (fun m e => insert_sorted ucmp e m) (map entry_of_add adds) []) k q.
Proof. exact memtable_get_is_seek. Qed.
Print Assumptions C01_memtable_get_is_seek.

(* level 0 of the memtable skiplist (what the memtable iterator walks, what a flush hands to
   the table builder) is the engine model's sorted run, entry by entry *)
Theorem C01_memtable_contents_is_run : forall ucmp, total_order ucmp ->
  forall adds hs,
  Forall add_ok adds -> adds_distinct ucmp adds -> heights_ok (map enc_add adds) hs ->
  Skiplist.skiplist_contents (memtable_add_all ucmp sl_empty adds hs)
  = map enc_entry (fold_left (fun m e => insert_sorted ucmp e m) (map entry_of_add adds) []).
Proof. exact memtable_contents_is_run. Qed.
Print Assumptions C01_memtable_contents_is_run.
