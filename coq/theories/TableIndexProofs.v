(* TableIndexProofs.v -- the shape of a built table, as seen by the table reader.  For the entry
   list cut into non-empty data blocks [bs] (where the builder cuts does not matter),
   [table_image bs] is the file: the data blocks in stored form end to end, the filter block, the
   metaindex block, the index block -- one entry per data block, keyed by the separator between
   the last key of the block and the first key of the next (short successor for the last block)
   and valued by the encoded handle -- and the footer.  One invariant of the table builder
   ([tinv]) shows [table_build es = table_image bs]; nothing after that mentions the builder:
   that every handle points at its block ([layout]) is read off [table_image] alone.  The linear
   reader never compares keys, so its round trip needs no sortedness; that the index keys
   separate the blocks ([index_rel]) needs sorted entries and a comparator whose separator and
   successor meet their contracts. *)
From LCDB Require Import TableFormat.
From LCDB Require Import BaseProofs BlockProofs BlockSeekProofs FilterProofs FilterBlockProofs
  TableProofs TableBuildProofs BlockCursorProofs.
Local Open Scope N_scope.

Definition firstk (l : list entry) : bytes := fst (hd ([], []) l).
Definition lastk (l : list entry) : bytes := fst (last l ([], [])).
Definition firstk_opt (l : list entry) : option bytes :=
  match l with [] => None | e :: _ => Some (fst e) end.

Lemma lastk_app : forall a b, b <> [] -> lastk (a ++ b) = lastk b.
Proof.
  intros a b Hb. unfold lastk. f_equal.
  induction a as [|x a IH]; [reflexivity|].
  cbn [app]. rewrite <- IH. cbn [last]. destruct (a ++ b) eqn:E; [|reflexivity].
  apply app_eq_nil in E. destruct E; congruence.
Qed.

Lemma firstk_opt_app : forall a b, a <> [] -> firstk_opt (a ++ b) = firstk_opt a.
Proof. intros [|x a] b H; [congruence|reflexivity]. Qed.

Lemma lastk_in : forall l, l <> [] -> exists e, In e l /\ fst e = lastk l.
Proof.
  intros l Hl. exists (last l ([], [])). split; [|reflexivity].
  rewrite (app_removelast_last ([], []) Hl) at 2. apply in_or_app. right. left. reflexivity.
Qed.

Definition hend (h : handle) : N := fst h + snd h + 5.

Lemma hend_small : forall h n B, hend h <= n -> n < B -> fst h < B /\ snd h < B.
Proof. intros h n B. unfold hend. lia. Qed.

Fixpoint blocks_from (off : N) (bl : list (handle * list entry)) : Prop :=
  match bl with
  | [] => True
  | fb :: r => off <= fst (fst fb) /\ blocks_from (hend (fst fb)) r
  end.

Lemma blocks_from_ge : forall bl o fb, blocks_from o bl -> In fb bl -> o <= fst (fst fb).
Proof.
  induction bl as [|x bl IH]; intros o fb Hb Hin; [destruct Hin|].
  destruct Hb as [A B]. destruct Hin as [->|Hin]; [exact A|].
  specialize (IH _ _ B Hin). unfold hend in IH. lia.
Qed.

Lemma blocks_from_fun : forall bl o h b b',
  blocks_from o bl -> In (h, b) bl -> In (h, b') bl -> b = b'.
Proof.
  induction bl as [|x bl IH]; intros o h b b' Hb H1 H2; [destruct H1|].
  destruct Hb as [A B]. destruct H1 as [->|H1]; destruct H2 as [H2|H2].
  - congruence.
  - pose proof (blocks_from_ge _ _ _ B H2) as G. cbn [fst] in G. unfold hend in G. lia.
  - subst x. pose proof (blocks_from_ge _ _ _ B H1) as G. cbn [fst] in G. unfold hend in G. lia.
  - eapply IH; eauto.
Qed.

Definition grp (fb : handle * list entry) : N * list bytes := (fst (fst fb), map fst (snd fb)).
Definition nonempty (fb : handle * list entry) : Prop := snd fb <> [].

Section IndexOf.
Variable sep : bytes -> bytes -> bytes.
Variable succ : bytes -> bytes.
Variable has_filter : bool.
Variable fmatch : bytes -> bytes -> res bool.
Variable interval : N.

Definition next_first (bl : list (handle * list entry)) (nxt : option bytes) : option bytes :=
  match bl with [] => nxt | fb :: _ => Some (firstk (snd fb)) end.

Definition index_key (bes : list entry) (nxt : option bytes) : bytes :=
  match nxt with Some k => sep (lastk bes) k | None => succ (lastk bes) end.

Fixpoint index_of (bl : list (handle * list entry)) (nxt : option bytes) : list entry :=
  match bl with
  | [] => []
  | fb :: bl' => (index_key (snd fb) (next_first bl' nxt), handle_encode (fst fb)) :: index_of bl' nxt
  end.

Lemma index_of_app : forall bpre fb bpost nxt,
  index_of (bpre ++ fb :: bpost) nxt
  = index_of bpre (Some (firstk (snd fb)))
    ++ (index_key (snd fb) (next_first bpost nxt), handle_encode (fst fb)) :: index_of bpost nxt.
Proof.
  induction bpre as [|x bpre IH]; intros fb bpost nxt; cbn [app index_of]; [reflexivity|].
  rewrite IH. f_equal. f_equal. destruct bpre; reflexivity.
Qed.

Lemma index_of_length : forall bl nxt, length (index_of bl nxt) = length bl.
Proof. induction bl; intros; cbn [index_of length]; auto. Qed.

Lemma index_of_values : forall bl nxt, map snd (index_of bl nxt) = map hkey bl.
Proof. induction bl as [|x bl IH]; intros; cbn [index_of map snd]; [reflexivity|]. rewrite IH. reflexivity. Qed.

(* [izip zb]: the position in the index of the entry of block [zcur zb] (index_of_app read
   as a function) *)
Definition bzip : Type := zipper (handle * list entry).

Definition izip (zb : bzip) : zip :=
  let '(bpre, fb, bpost) := zb in
  (index_of bpre (Some (firstk (snd fb))),
   (index_key (snd fb) (next_first bpost None), handle_encode (fst fb)),
   index_of bpost None).

Lemma izip_enter : forall fwd l,
  zenter fwd (index_of l None) = option_map izip (zenter fwd l).
Proof.
  intros [|] l.
  - destruct l; reflexivity.
  - destruct (snoc_cases l) as [->|(m & fb & ->)]; [reflexivity|].
    rewrite (index_of_app m fb [] None). cbn [index_of]. rewrite !zenter_bwd_snoc. reflexivity.
Qed.

Lemma izip_adv : forall fwd zb, zadv fwd (izip zb) = option_map izip (zadv fwd zb).
Proof.
  intros [|] [[bpre fb] bpost].
  - destruct bpost as [|fb' bpost']; [reflexivity|].
    cbn [izip zadv option_map index_of].
    rewrite (index_of_app bpre fb [] (Some (firstk (snd fb')))). reflexivity.
  - destruct (snoc_cases bpre) as [->|(m & fb' & ->)]; [reflexivity|].
    rewrite zadv_bwd_snoc. cbn [option_map izip].
    rewrite (index_of_app m fb' [] (Some (firstk (snd fb)))). cbn [index_of].
    rewrite zadv_bwd_snoc. reflexivity.
Qed.

Record built_table (file : bytes) (es : list entry) (t : table) (bl : list (handle * list entry)) : Prop := {
  bt_es : es = concat (map snd bl);
  bt_nonempty : Forall (fun fb => snd fb <> []) bl;
  bt_from : blocks_from 0 bl;
  bt_file : t_file t = file;
  bt_fsize : t_fsize t = nlen file;
  bt_blocks : forall verify, Forall (fun fb =>
                read_block file (nlen file) verify (fst fb) = Ok (RBok (block_build interval (snd fb)))) bl;
  bt_bsize : Forall (fun fb => nlen (block_build interval (snd fb)) < 4294967296 /\
                               hend (fst fb) <= nlen file) bl;
  bt_index : block_init (block_build 1 (index_of bl None)) = Ok (t_index t);
  bt_isize : nlen (block_build 1 (index_of bl None)) < 4294967296;
  bt_filter : if has_filter
              then exists fr, t_filter t = Some fr /\ fr_ok fr /\
                     forall fb k, In fb bl -> In k (map fst (snd fb)) ->
                       filter_matches fmatch fr (fst (fst fb)) k = Ok true
              else t_filter t = None
}.

End IndexOf.

Definition file_of (chunks : list bytes) : bytes := concat (rev chunks).

Lemma file_of_cons : forall a c, file_of (a :: c) = file_of c ++ a.
Proof.
  intros. unfold file_of. cbn [rev]. apply concat_snoc.
Qed.

(* what ldb_tablegen_write_raw_block appends, and the handle it returns *)
Lemma write_raw_block_image : forall chunks off c ty, exists chunks',
  write_raw_block chunks off c ty = (chunks', off + nlen c + 5, (off, nlen c)) /\
  file_of chunks' = file_of chunks ++ c ++ block_trailer c ty.
Proof.
  intros. eexists. split; [reflexivity|]. rewrite !file_of_cons, <- app_assoc. reflexivity.
Qed.

(* by computation; as a rewrite it keeps [reflexivity] from unfolding bb_add on a literal key *)
Lemma block_build_single : forall I k v, bb_finish (bb_add I bb_empty k v) = block_build I [(k, v)].
Proof. reflexivity. Qed.

Lemma Forall_concat_blocks : forall (P : entry -> Prop) (fl : list (handle * list entry)),
  Forall P (concat (map snd fl)) -> Forall (fun fb => Forall P (snd fb)) fl.
Proof.
  intros P fl H. exact (proj1 (Forall_map snd (Forall P) fl) (proj1 (Forall_concat P (map snd fl)) H)).
Qed.

Lemma length_blocks_le : forall (fl : list (handle * list entry)),
  Forall (fun fb => snd fb <> []) fl -> (length fl <= length (concat (map snd fl)))%nat.
Proof.
  induction fl as [|fb fl IH]; intros H; [cbn; lia|].
  inversion H; subst. cbn [map concat length]. rewrite app_length.
  destruct (snd fb); [congruence|]. cbn [length]. specialize (IH H3). lia.
Qed.

Lemma in_block_len : forall (fl : list (handle * list entry)) fb,
  In fb fl -> nlen (snd fb) <= nlen (concat (map snd fl)).
Proof.
  induction fl as [|x fl IH]; intros fb Hin; [destruct Hin|].
  cbn [map concat]. rewrite nlen_app. destruct Hin as [->|Hin]; [lia|].
  specialize (IH fb Hin). lia.
Qed.

Section Builder.
Variable is_internal : bool.
Variable sep : bytes -> bytes -> bytes.
Variable succ : bytes -> bytes.
Variable has_filter : bool.
Variable fbuild : list bytes -> bytes.
Variable compress : bytes -> bytes.
Variables block_size interval compression : N.

(* a block as it lies in the file: the form ldb_tablegen_write_block keeps of it, then the
   trailer; [csize]: the size its handle gives *)
Definition stored (raw : bytes) : bytes :=
  let '(c, ty) := block_contents compress compression raw in c ++ block_trailer c ty.
Definition csize (raw : bytes) : N := nlen (fst (block_contents compress compression raw)).

Lemma nlen_stored : forall raw, nlen (stored raw) = csize raw + 5.
Proof.
  intros raw. unfold stored, csize. destruct (block_contents compress compression raw) as [c ty].
  rewrite nlen_app. reflexivity.
Qed.

Lemma write_block_image : forall chunks off b, exists chunks',
  write_block compress compression chunks off b
  = (chunks', off + csize (bb_finish b) + 5, (off, csize (bb_finish b))) /\
  file_of chunks' = file_of chunks ++ stored (bb_finish b).
Proof.
  intros chunks off b. unfold write_block, stored, csize.
  destruct (block_contents compress compression (bb_finish b)) as [c ty]. apply write_raw_block_image.
Qed.

(* the data blocks [bs] laid end to end from offset [off]: with their handles; the bytes *)
Fixpoint place (off : N) (bs : list (list entry)) : list (handle * list entry) :=
  match bs with
  | [] => []
  | b :: bs' => ((off, csize (block_build interval b)), b)
                :: place (off + csize (block_build interval b) + 5) bs'
  end.

Definition data_image (bs : list (list entry)) : bytes :=
  flat_map (fun b => stored (block_build interval b)) bs.

Lemma data_image_snoc : forall bs b,
  data_image (bs ++ [b]) = data_image bs ++ stored (block_build interval b).
Proof. intros. unfold data_image. rewrite flat_map_app. cbn [flat_map]. rewrite app_nil_r. reflexivity. Qed.

Lemma place_snoc : forall bs off b,
  place off (bs ++ [b])
  = place off bs ++ [((off + nlen (data_image bs), csize (block_build interval b)), b)].
Proof.
  induction bs as [|x bs IH]; intros off b; cbn [app place data_image flat_map].
  - rewrite N.add_0_r. reflexivity.
  - rewrite IH, nlen_app, nlen_stored, !N.add_assoc. reflexivity.
Qed.

Lemma place_snd : forall bs off, map snd (place off bs) = bs.
Proof. induction bs as [|b bs IH]; intros off; cbn [place map snd]; [|rewrite IH]; reflexivity. Qed.

Lemma place_from : forall bs off, blocks_from off (place off bs).
Proof.
  induction bs as [|b bs IH]; intros off; cbn [place blocks_from fst]; [exact I|].
  split; [apply N.le_refl|apply IH].
Qed.

(* the whole file, for the entries cut into the data blocks [bs] *)
Definition filter_image (bs : list (list entry)) : bytes :=
  filter_block_build fbuild (map grp (place 0 bs) ++ [(nlen (data_image bs), [])]).
Definition meta_image (bs : list (list entry)) : bytes :=
  block_build interval
    (if has_filter
     then [(FILTER_KEY, handle_encode (nlen (data_image bs), nlen (filter_image bs)))] else []).
Definition index_image (bs : list (list entry)) : bytes :=
  block_build 1 (index_of sep succ (place 0 bs) None).

Definition table_image (bs : list (list entry)) : bytes :=
  let df := data_image bs ++
            (if has_filter then filter_image bs ++ block_trailer (filter_image bs) 0 else []) in
  (df ++ stored (meta_image bs)) ++ stored (index_image bs) ++
  footer_encode (nlen df, csize (meta_image bs))
                (nlen (df ++ stored (meta_image bs)), csize (index_image bs)).

(* the index builder once the held-back entry is written, the next key being [nxt]
   (tb_add: the key being added; tb_finish: none) *)
Definition index_next (t : tbuilder) (nxt : option bytes) : bbuilder :=
  match tb_pending t with
  | Some h => bb_add 1 (tb_index t)
                (match nxt with Some k => sep (tb_last_key t) k | None => succ (tb_last_key t) end)
                (handle_encode h)
  | None => tb_index t
  end.

(* the data block being filled joins the written ones *)
Definition close (bs : list (list entry)) (cur : list entry) : list (list entry) :=
  match cur with [] => bs | _ => bs ++ [cur] end.

Lemma concat_close : forall bs cur, concat (close bs cur) = concat bs ++ cur.
Proof.
  intros bs [|e cur]; cbn [close]; [rewrite app_nil_r; reflexivity|].
  rewrite concat_app. cbn [concat]. rewrite app_nil_r. reflexivity.
Qed.

(* the builder after the entries [concat bs ++ cur]: [bs] the data blocks written, [cur]
   the entries of the one being filled.  The index entry of the last written block is held
   back ([tb_pending]) until the first key of the next block is known: [ti_index] says what
   the index block will hold once it is written. *)
Set Implicit Arguments.
Record tinv (t : tbuilder) (bs : list (list entry)) (cur : list entry) : Prop := {
  ti_file : file_of (tb_chunks t) = data_image bs;
  ti_off : tb_offset t = nlen (data_image bs);
  ti_nonempty : Forall (fun b => b <> []) bs;
  ti_data : tb_data t = bb_add_all interval bb_empty cur;
  ti_pending : cur <> [] -> tb_pending t = None;
  ti_index : forall nxt, index_next t nxt
             = bb_add_all 1 bb_empty
                 (index_of sep succ (place 0 bs) (match cur with [] => nxt | e :: _ => Some (fst e) end));
  ti_last : tb_last_key t = lastk (concat bs ++ cur);
  ti_filter : has_filter = true ->
              tb_filter t = fold_left (fb_add_group fbuild)
                              (map grp (place 0 bs) ++ [(tb_offset t, map fst cur)]) fb_empty
}.
Unset Implicit Arguments.

Lemma tinv_empty : tinv (tb_empty fbuild) [] [].
Proof. constructor; try reflexivity. constructor. Qed.

Lemma tb_flush_inv : forall t bs cur,
  tinv t bs cur -> tinv (tb_flush has_filter fbuild compress compression t) (close bs cur) [].
Proof.
  intros t bs cur Hinv. unfold tb_flush. rewrite (ti_data Hinv).
  destruct cur as [|e cur0]; [exact Hinv|]. set (cur := e :: cur0) in *.
  destruct (bb_is_empty _) eqn:E; [apply bb_add_all_empty_iff in E; discriminate|].
  rewrite <- (ti_data Hinv).
  destruct (write_block_image (tb_chunks t) (tb_offset t) (tb_data t)) as (chunks' & -> & Hf).
  assert (Hdata : bb_finish (tb_data t) = block_build interval cur) by (rewrite (ti_data Hinv); reflexivity).
  rewrite Hdata in *.
  (* the held-back entry was written when [cur] got its first key *)
  pose proof (ti_index Hinv None) as Hidx. unfold index_next in Hidx.
  rewrite (ti_pending Hinv) in Hidx by discriminate.
  cbn [close cur].
  constructor; cbn [tb_offset tb_chunks tb_data tb_index tb_pending tb_last_key tb_filter].
  - rewrite Hf, (ti_file Hinv), data_image_snoc. reflexivity.
  - rewrite (ti_off Hinv), data_image_snoc, nlen_app, nlen_stored. lia.
  - apply Forall_app. split; [exact (ti_nonempty Hinv)|]. constructor; [discriminate|constructor].
  - reflexivity.
  - intros H. destruct H. reflexivity.
  - intros nxt. unfold index_next. cbn [tb_index tb_pending tb_last_key].
    rewrite place_snoc, (index_of_app _ _ _ _ [] _), bb_add_all_snoc, Hidx, (ti_off Hinv), (ti_last Hinv).
    rewrite lastk_app by discriminate. cbn [fst snd index_of next_first]. unfold index_key.
    destruct nxt; reflexivity.
  - rewrite (ti_last Hinv), concat_app. cbn [concat]. rewrite !app_nil_r. reflexivity.
  - intros Hf1. rewrite Hf1, (ti_filter Hinv Hf1), place_snoc, map_app, (fold_left_app _ (_ ++ _)).
    rewrite (ti_off Hinv). reflexivity.
Qed.

Lemma tb_add_inv : forall t bs cur k v,
  tinv t bs cur ->
  exists bs' cur',
    tinv (tb_add sep has_filter fbuild compress block_size interval compression t k v) bs' cur' /\
    concat bs' ++ cur' = (concat bs ++ cur) ++ [(k, v)].
Proof.
  intros t bs cur k v Hinv.
  unfold tb_add. cbv zeta.
  set (t1 := mk_tb _ _ _ _ _ _ None).
  assert (H1 : tinv t1 bs (cur ++ [(k, v)])).
  { constructor; unfold t1; cbn [tb_offset tb_chunks tb_data tb_last_key tb_filter].
    - apply (ti_file Hinv).
    - apply (ti_off Hinv).
    - apply (ti_nonempty Hinv).
    - rewrite (ti_data Hinv), bb_add_all_snoc. reflexivity.
    - reflexivity.
    - intros nxt. etransitivity; [exact (ti_index Hinv (Some k))|]. destruct cur; reflexivity.
    - rewrite app_assoc, lastk_app by discriminate. reflexivity.
    - intros Hf1. rewrite Hf1. rewrite (ti_filter Hinv Hf1).
      rewrite !(fold_left_app _ (map grp _)). cbn [fold_left]. unfold fb_add_group. cbn [fst snd].
      rewrite map_app, fold_left_app. reflexivity. }
  destruct (block_size <=? _).
  - exists (close bs (cur ++ [(k, v)])), []. split; [exact (tb_flush_inv _ _ _ H1)|].
    rewrite app_nil_r, concat_close, app_assoc. reflexivity.
  - exists bs, (cur ++ [(k, v)]). split; [exact H1|]. rewrite app_assoc. reflexivity.
Qed.

Lemma tb_add_all_inv : forall es t bs cur,
  tinv t bs cur ->
  exists bs' cur',
    tinv (fold_left (fun t e => tb_add sep has_filter fbuild compress block_size interval compression
                                        t (fst e) (snd e)) es t) bs' cur' /\
    concat bs' ++ cur' = (concat bs ++ cur) ++ es.
Proof.
  induction es as [|[k v] es IH]; intros t bs cur Hinv.
  - cbn [fold_left]. rewrite app_nil_r. eauto.
  - cbn [fold_left fst snd].
    destruct (tb_add_inv t bs cur k v Hinv) as (bs1 & cur1 & H' & E1).
    destruct (IH _ _ _ H') as (bs2 & cur2 & H'' & E2).
    exists bs2, cur2. split; [exact H''|]. rewrite E2, E1, <- app_assoc. reflexivity.
Qed.

(* the end of ldb_tablegen_finish: metaindex block, index block, footer, after the bytes [df] *)
Lemma finish_tail : forall chunks df meta index,
  file_of chunks = df ->
  (let '(chunks3, offset3, mh) := write_block compress compression chunks (nlen df) meta in
   let '(chunks4, _, ih) := write_block compress compression chunks3 offset3 index in
   concat (rev (footer_encode mh ih :: chunks4)))
  = (df ++ stored (bb_finish meta)) ++ stored (bb_finish index) ++
    footer_encode (nlen df, csize (bb_finish meta))
                  (nlen (df ++ stored (bb_finish meta)), csize (bb_finish index)).
Proof.
  intros chunks df meta index Hf.
  destruct (write_block_image chunks (nlen df) meta) as (c3 & -> & Hf3).
  edestruct (write_block_image c3) as (c4 & E4 & Hf4). rewrite E4.
  change (concat (rev ?c)) with (file_of c).
  rewrite file_of_cons, Hf4, Hf3, Hf, nlen_app, nlen_stored, N.add_assoc, <- app_assoc. reflexivity.
Qed.

Lemma tb_finish_image : forall t bs cur, tinv t bs cur ->
  tb_finish succ has_filter fbuild compress interval compression t = table_image (close bs cur).
Proof.
  intros t bs0 cur Hinv0. apply tb_flush_inv in Hinv0. revert Hinv0.
  unfold tb_finish. generalize (close bs0 cur) (tb_flush has_filter fbuild compress compression t).
  intros bs t1 Hinv. cbv zeta.
  change (match tb_pending t1 with Some h => _ | None => _ end) with (index_next t1 None).
  rewrite (ti_index Hinv None). unfold table_image, meta_image, index_image.
  pose proof (ti_filter Hinv) as Hfilt. rewrite (ti_off Hinv) in *.
  destruct has_filter.
  - replace (fb_finish fbuild (tb_filter t1)) with (filter_image bs) by (rewrite (Hfilt eq_refl); reflexivity).
    rewrite <- (block_build_single interval).
    edestruct (write_raw_block_image (tb_chunks t1)) as (c2 & E2 & Hf2). rewrite E2. cbv beta iota.
    rewrite (ti_file Hinv) in Hf2.
    replace (nlen (data_image bs) + nlen (filter_image bs) + 5)
      with (nlen (data_image bs ++ filter_image bs ++ block_trailer (filter_image bs) 0))
      by (rewrite !nlen_app, nlen_block_trailer, N.add_assoc; reflexivity).
    exact (finish_tail c2 _ _ _ Hf2).
  - cbv beta iota. rewrite app_nil_r. exact (finish_tail _ _ _ _ (ti_file Hinv)).
Qed.

Theorem table_build_image : forall es,
  exists bs, concat bs = es /\ Forall (fun b => b <> []) bs /\
    table_build sep succ has_filter fbuild compress block_size interval compression es = table_image bs.
Proof.
  intros es. unfold table_build.
  destruct (tb_add_all_inv es (tb_empty fbuild) [] [] tinv_empty) as (bs & cur & Hinv & Hes).
  exists (close bs cur). split; [rewrite concat_close; exact Hes|].
  split; [exact (ti_nonempty (tb_flush_inv _ _ _ Hinv))|exact (tb_finish_image _ _ _ Hinv)].
Qed.

Lemma place_groups_sorted : forall bs p off, p <= off / 2048 ->
  groups_sorted p (map grp (place off bs) ++ [(off + nlen (data_image bs), [])]).
Proof.
  induction bs as [|b bs IH]; intros p off Hp; cbn [place map app groups_sorted data_image flat_map].
  - unfold grp. cbn [fst nlen length N.of_nat]. rewrite N.add_0_r. auto.
  - split; [exact Hp|]. rewrite nlen_app, nlen_stored, !N.add_assoc.
    apply IH. cbn [grp fst]. apply N.div_le_mono; lia.
Qed.

(* ldb_tablegen_write_block keeps the block as it is, or the compressor's output *)
Lemma block_contents_cases : forall raw,
  block_contents compress compression raw = (raw, 0) \/
  block_contents compress compression raw = (compress raw, 1) /\
  compression = 1 /\ nlen (compress raw) < nlen raw - nlen raw / 8.
Proof.
  intros raw. unfold block_contents.
  destruct (compression =? 1) eqn:Ec; [|auto].
  destruct (nlen (compress raw) <? nlen raw - nlen raw / 8) eqn:El; [|auto].
  right. split; [reflexivity|]. split; [apply N.eqb_eq, Ec|apply N.ltb_lt, El].
Qed.

Hypothesis Hcompress : compress_inverts compress compression.

(* [raw] lies at [h] in the form the builder kept of it *)
Definition placed (file : bytes) (h : handle) (raw : bytes) : Prop :=
  stored_at file h raw /\ snd h = csize raw.

Lemma placed_piece : forall pre raw post,
  placed (pre ++ stored raw ++ post) (nlen pre, csize raw) raw.
Proof.
  intros pre raw post. split; [|reflexivity]. unfold stored, csize.
  destruct (block_contents_cases raw) as [->|(-> & Hc & Hlt)]; cbn [fst].
  - exists pre, raw, 0, post. repeat (split; [reflexivity|]). left. auto.
  - exists pre, (compress raw), 1, post. repeat (split; [reflexivity|]). right.
    split; [reflexivity|exact (Hcompress Hc raw Hlt)].
Qed.

(* the i-th handle points at the i-th block *)
Lemma place_stored : forall bs pre post,
  Forall (fun fb => placed (pre ++ data_image bs ++ post) (fst fb) (block_build interval (snd fb)))
         (place (nlen pre) bs).
Proof.
  induction bs as [|b bs IH]; intros pre post; cbn [place data_image flat_map]; [constructor|].
  rewrite <- app_assoc. constructor.
  - apply placed_piece.
  - specialize (IH (pre ++ stored (block_build interval b)) post).
    rewrite nlen_app, nlen_stored, N.add_assoc, <- !app_assoc in IH. exact IH.
Qed.

(* what the table reader finds in [file] *)
Set Implicit Arguments.
Record layout (file : bytes) (bs : list (list entry)) (mh ih : handle) : Prop := {
  lo_footer : exists body, file = body ++ footer_encode mh ih;
  lo_blocks : Forall (fun fb => placed file (fst fb) (block_build interval (snd fb))) (place 0 bs);
  lo_index : placed file ih (index_image bs);
  lo_meta : placed file mh (meta_image bs);
  lo_filter : has_filter = true ->
              stored_at file (nlen (data_image bs), nlen (filter_image bs)) (filter_image bs)
}.
Unset Implicit Arguments.

Lemma table_image_layout : forall bs, exists mh ih, layout (table_image bs) bs mh ih.
Proof.
  intros bs. unfold table_image.
  set (F := if has_filter then _ else _). set (M := stored (meta_image bs)).
  eexists _, _. constructor.
  - eexists. rewrite app_assoc. reflexivity.
  - rewrite <- !app_assoc. apply (place_stored bs []).
  - apply placed_piece.
  - rewrite <- (app_assoc (_ ++ _)). apply placed_piece.
  - intros Hf. subst F. rewrite Hf. exists (data_image bs), (filter_image bs), 0. eexists.
    split; [rewrite <- !app_assoc; reflexivity|auto].
Qed.

Lemma table_build_layout : forall es,
  exists bs mh ih, concat (map snd (place 0 bs)) = es /\ Forall nonempty (place 0 bs) /\
    layout (table_build sep succ has_filter fbuild compress block_size interval compression es) bs mh ih.
Proof.
  intros es. destruct (table_build_image es) as (bs & Hes & Hne & ->).
  destruct (table_image_layout bs) as (mh & ih & L). exists bs, mh, ih.
  rewrite <- (place_snd bs 0), Forall_map in Hne. rewrite place_snd. auto.
Qed.

(* data keys satisfy dkey; the comparator hooks keep index keys usable *)
Variable dkey : bytes -> Prop.
Hypothesis Hdkey : forall k, dkey k -> ikeyok is_internal k.
Hypothesis Hsep : forall a b, dkey a -> ikeyok is_internal (sep a b).
Hypothesis Hsucc : forall a, dkey a -> ikeyok is_internal (succ a).

Lemma index_of_ok : forall (l : list (handle * list entry)) nxt,
  Forall (fun fb => Forall (fun e => wf_entry e /\ dkey (fst e)) (snd fb)) l ->
  Forall (fun fb => nonempty fb /\ h64 (fst fb)) l ->
  Forall (fun e => ikeyok is_internal (fst e) /\ nlen (snd e) <= 20) (index_of sep succ l nxt).
Proof.
  induction l as [|fb l IH]; intros nxt Hc H; cbn [index_of]; [constructor|].
  inversion Hc as [|? ? Hok Hc']; inversion H as [|? ? (Hne & Hb) H']; subst.
  constructor; [|apply IH; assumption]. cbn [fst snd]. split.
  - destruct (lastk_in (snd fb) Hne) as [e [He1 He2]].
    assert (Hd : dkey (lastk (snd fb))).
    { rewrite <- He2. rewrite Forall_forall in Hok. apply (Hok e He1). }
    unfold index_key. destruct (next_first l nxt); [apply Hsep|apply Hsucc]; exact Hd.
  - apply (handle_encode_length (fst fb) Hb).
Qed.

(* every data block, and the index block, holds entries that a block can store *)
Lemma blocks_storable : forall fl : list (handle * list entry),
  Forall (fun e => wf_entry e /\ dkey (fst e)) (concat (map snd fl)) ->
  nlen (concat (map snd fl)) + 1 < 4294967296 ->
  Forall (fun fb => nonempty fb /\ h64 (fst fb)) fl ->
  Forall (fun fb => wf_entries (snd fb) /\ keys_ge8 is_internal (snd fb)) fl /\
  wf_entries (index_of sep succ fl None) /\ keys_ge8 is_internal (index_of sep succ fl None).
Proof.
  intros fl Hes Hcount Hfl.
  pose proof (Forall_concat_blocks _ fl Hes) as Hc.
  pose proof (index_of_ok fl None Hc Hfl) as Hidx.
  split; [|split].
  - apply Forall_forall. intros fb Hin. rewrite Forall_forall in Hc. specialize (Hc fb Hin).
    pose proof (in_block_len fl fb Hin) as Hle. split.
    + split; [eapply Forall_impl; [|exact Hc]; intros e [A _]; exact A|lia].
    + intros Hi. eapply Forall_impl; [|exact Hc]. intros e [_ B]. apply Hdkey in B. apply B. exact Hi.
  - split.
    + eapply Forall_impl; [|exact Hidx]. intros [k v] [[A _] B]. split; cbn [fst snd] in *; lia.
    + assert (Hne : Forall nonempty fl)
        by (eapply Forall_impl; [|exact Hfl]; intros fb (A & _); exact A).
      pose proof (length_blocks_le fl Hne) as Hl. unfold nlen in *. rewrite index_of_length. lia.
  - intros Hi. eapply Forall_impl; [|exact Hidx]. intros e [[_ A] _]. exact (A Hi).
Qed.

(* C16: the table builder round-trips through the linear reader *)
Theorem table_entries_build : forall paranoid verify es,
  Forall (fun e => wf_entry e /\ dkey (fst e)) es -> nlen es + 1 < 4294967296 ->
  let file := table_build sep succ has_filter fbuild compress block_size interval compression es in
  wf_bytes file = true -> nlen file < 18446744073709551616 ->
  table_entries is_internal has_filter paranoid verify file = Ok (inr es).
Proof.
  intros paranoid verify es Hes Hcount file Hwf Hlen.
  destruct (table_build_layout es) as (bs & mh & ih & <- & Hne & L).
  fold file in L. clearbody file.
  destruct (lo_footer L) as [body Hfile]. pose proof (lo_blocks L) as Hst.
  set (fl := place 0 bs) in *. rewrite Forall_forall in Hst, Hne.
  destruct (blocks_storable fl Hes Hcount) as (Hb & Hiwf & Hi8).
  { apply Forall_forall. intros fb Hin.
    exact (conj (Hne fb Hin) (stored_at_h64 _ _ _ (proj1 (Hst fb Hin)) Hlen)). }
  destruct (table_open_footer has_filter paranoid file body mh ih _ _ Hfile Hwf Hlen
              (proj1 (lo_index L)) (proj1 (lo_meta L))) as (blk & _ & Hdata & Hopen).
  unfold table_entries. rewrite Hopen.
  destruct (yields_inv (table_read_meta_ok has_filter file paranoid mh)) as [flt [-> _]].
  cbn [rbind t_index t_file t_fsize]. rewrite Hdata. unfold index_image. fold fl.
  rewrite (block_entries_gen_build _ _ _ Hiwf Hi8).
  apply (table_entries_loop_flushed is_internal interval file verify fl _ Hwf Hlen
           (index_of_values sep succ fl None)).
  apply Forall_forall. intros fb Hin. rewrite Forall_forall in Hb.
  destruct (Hb fb Hin) as [B C]. destruct (Hst fb Hin) as [A _]. auto.
Qed.

End Builder.

Record cmp_order (cmp : bytes -> bytes -> comparison) : Prop := {
  co_antisym : forall x y, cmp x y = CompOpp (cmp y x);
  co_lt_trans : forall x y z, cmp x y = Lt -> cmp y z = Lt -> cmp x z = Lt;
  co_lt_eq : forall x y z, cmp x y = Lt -> cmp y z = Eq -> cmp x z = Lt;
  co_eq_lt : forall x y z, cmp x y = Eq -> cmp y z = Lt -> cmp x z = Lt
}.

(* it is BaseProofs.order: what it leaves out of the respect for [Eq] follows *)
Lemma order_cmp_order cmp : order cmp -> cmp_order cmp.
Proof.
  intros O. constructor; [exact (cmp_opp O)|exact (cmp_lt_trans O)| |].
  - intros x y z H1 H2. rewrite <- (cmp_eq_r O y z x H2). exact H1.
  - intros x y z H1 H2. rewrite (cmp_eq_l O x y z H1). exact H2.
Qed.

Lemma cmp_order_order cmp : cmp_order cmp -> order cmp.
Proof.
  intros Hord. pose proof (co_antisym _ Hord) as opp.
  assert (L : forall a b c, cmp a b = Eq -> cmp a c = Lt -> cmp b c = Lt).
  { intros a b c E. apply (co_eq_lt _ Hord). rewrite opp, E. reflexivity. }
  assert (G : forall a b c, cmp a b = Eq -> cmp a c = Gt -> cmp b c = Gt).
  { intros a b c E H. rewrite opp in H |- *.
    destruct (cmp c a) eqn:X; try discriminate H. rewrite (co_lt_eq _ Hord c a b X E). reflexivity. }
  constructor; [exact opp|exact (co_lt_trans _ Hord)|].
  intros a b c E. assert (E' : cmp b a = Eq) by (rewrite opp, E; reflexivity).
  destruct (cmp a c) eqn:X; [|symmetry; exact (L a b c E X)|symmetry; exact (G a b c E X)].
  destruct (cmp b c) eqn:Y; [reflexivity| |].
  - rewrite (L b a c E' Y) in X. discriminate X.
  - rewrite (G b a c E' Y) in X. discriminate X.
Qed.
Coercion cmp_order_order : cmp_order >-> order.

Lemma bytes_order : cmp_order bytes_compare.
Proof. exact (order_cmp_order _ bytes_compare_order). Qed.

(* Seek for the key of a block that holds one entry *)
Lemma single_block_seek : forall I (k v : bytes),
  nlen k < 4294967296 -> nlen v < 4294967296 -> nlen (block_build I [(k, v)]) < 4294967296 ->
  exists blk it0 it1, block_init (block_build I [(k, v)]) = Ok blk /\ biter_create blk = Ok it0 /\
    biter_seek bytes_compare false k it0 = Ok it1 /\
    biter_valid it1 = true /\ biter_key it1 = k /\ biter_value it1 = Ok v.
Proof.
  intros I k v Hk Hv Hlen.
  destruct (block_build_cursor false I [(k, v)]) as (blk & it0 & Hbi & Hbc & Hcur0);
    [split; [repeat constructor; assumption|reflexivity]|intros H; discriminate H|exact Hlen|].
  destruct (yields_inv (bcur_seek bytes_compare false I _ (sorted_by_single _ _)
              (co_lt_trans _ bytes_order) (co_lt_eq _ bytes_order)
              k it0 None Hcur0 ltac:(intros H; discriminate H))) as (it1 & Hseek & Hcur1).
  unfold ref_seek in Hcur1. cbn [split_lt fst] in Hcur1. rewrite bytes_compare_refl in Hcur1.
  destruct (bcur_key_value Hcur1) as (_ & A & B).
  exists blk, it0, it1. repeat (split; [assumption|]). split; [exact (bcur_valid Hcur1)|]. auto.
Qed.

Section Open.
Variable sep : bytes -> bytes -> bytes.
Variable succ : bytes -> bytes.
Variable has_filter : bool.
Variable fbuild : list bytes -> bytes.
Variable fmatch : bytes -> bytes -> res bool.
Variable compress : bytes -> bytes.
Variables block_size interval compression : N.
Hypothesis Hcompress : compress_inverts_small compress compression.
Hypothesis policy_sound : forall keys key, In key keys -> fmatch (fbuild keys) key = Ok true.

Local Notation place := (place compress interval compression).
Local Notation placed := (placed compress compression).
Local Notation data_image := (data_image compress interval compression).
Local Notation filter_image := (filter_image fbuild compress interval compression).

(* a block kept in compressed form is below 4 GiB, one kept as it is fits the file *)
Lemma placed_small : forall file h raw,
  placed file h raw -> nlen file < 4294967296 -> nlen raw < 4294967296 /\ hend h <= nlen file.
Proof.
  intros file h raw [Hst Hsz] Hlen. pose proof (stored_at_bound _ _ _ Hst) as Hb.
  unfold csize in Hsz. unfold hend.
  destruct (block_contents_cases compress compression raw) as [E|(_ & Hc & Hlt)];
    [rewrite E in Hsz; cbn [fst] in Hsz; lia|].
  split; [apply (Hcompress Hc raw Hlt)|exact Hb].
Qed.

(* a metaindex block that names a filter block built from the key groups of data blocks at
   increasing offsets: the filter read through it admits every key at the offset of its block *)
Lemma table_read_meta_built : forall paranoid file mh fh (fl : list (handle * list entry)) oend,
  let groups := map grp fl ++ [(oend, [])] in
  (has_filter = true ->
   stored_at file mh (block_build interval [(FILTER_KEY, handle_encode fh)]) /\
   nlen (block_build interval [(FILTER_KEY, handle_encode fh)]) < 4294967296 /\
   stored_at file fh (filter_block_build fbuild groups) /\
   snd fh = nlen (filter_block_build fbuild groups)) ->
  groups_sorted 0 groups -> wf_bytes file = true -> nlen file < 4294967296 ->
  exists flt, table_read_meta has_filter file (nlen file) paranoid mh = Ok flt /\
    if has_filter
    then exists fr, flt = Some fr /\ fr_ok fr /\
           forall fb k, In fb fl -> In k (map fst (snd fb)) ->
             filter_matches fmatch fr (fst (fst fb)) k = Ok true
    else flt = None.
Proof.
  intros paranoid file mh fh fl oend groups Hst Hgs Hwf Hlen.
  destruct has_filter; [destruct (Hst eq_refl) as (Hstmh & Hmlen & Hstfh & Hfsz); clear Hst|exists None; auto].
  set (fblock := filter_block_build fbuild groups) in *.
  pose proof (N.lt_trans _ _ _ Hlen (eq_refl : 4294967296 < 18446744073709551616)) as Hlen64.
  pose proof (stored_at_bound _ _ _ Hstfh) as Hbf.
  pose proof (stored_at_h64 _ _ _ Hstfh Hlen64) as Hf64. destruct (hend_small fh _ _ Hbf Hlen) as [_ Hf3].
  unfold table_read_meta. cbn [negb].
  rewrite (read_block_stored file mh _ paranoid Hstmh Hwf Hlen64). cbn [rbind].
  destruct (single_block_seek interval FILTER_KEY (handle_encode fh) eq_refl
              (N.le_lt_trans _ 20 4294967296 (proj2 (handle_encode_length fh Hf64)) eq_refl) Hmlen)
    as (mblk & mit0 & mit1 & Hmi & Hmc & Hseek & Hv & Hk & Hval).
  rewrite Hmi. cbn [rbind]. rewrite Hmc. cbn [rbind]. rewrite Hseek. cbn [rbind].
  rewrite Hv, Hk, bytes_eqb_refl. cbn [andb]. rewrite Hval. cbn [rbind].
  unfold table_read_filter. rewrite (handle_decode_encode_nil fh Hf64).
  rewrite (read_block_stored file fh _ paranoid Hstfh Hwf Hlen64). cbn [rbind].
  destruct (yields_inv (filter_init_ok fblock)) as [fr [Hfi Hfrok]]. rewrite Hfi. cbn [rbind].
  exists (Some fr). split; [reflexivity|]. exists fr. split; [reflexivity|]. split; [exact Hfrok|].
  intros fb k Hfb Hk'.
  assert (Hm : filter_block_matches fmatch fblock (fst (fst fb)) k = Ok true).
  { apply (filter_block_no_false_negative fbuild fmatch policy_sound groups _ (map fst (snd fb)) k Hgs);
      [fold fblock; rewrite <- Hfsz; exact Hf3| |exact Hk'].
    apply in_or_app. left. exact (in_map grp _ _ Hfb). }
  unfold filter_block_matches in Hm. rewrite Hfi in Hm. cbn [rbind] in Hm. exact Hm.
Qed.

Theorem table_build_open : forall paranoid es,
  let file := table_build sep succ has_filter fbuild compress block_size interval compression es in
  wf_bytes file = true -> nlen file < 4294967296 ->
  exists t bl, table_open has_filter paranoid file = Ok (inr t) /\
               built_table sep succ has_filter fmatch interval file es t bl.
Proof.
  intros paranoid es file Hwf Hlen.
  pose proof (compress_inverts_of_small _ _ Hcompress) as Hinverts.
  destruct (table_build_layout sep succ has_filter fbuild compress block_size interval compression
              Hinverts es) as (bs & mh & ih & Hes & Hne & L).
  fold file in L. clearbody file.
  assert (Hlen64 : nlen file < 18446744073709551616) by lia.
  destruct (lo_footer L) as [body Hfile]. pose proof (lo_blocks L) as Hblocks.
  destruct (table_open_footer has_filter paranoid file body mh ih _ _ Hfile Hwf Hlen64
              (proj1 (lo_index L)) (proj1 (lo_meta L))) as (blk & Hblk & _ & Hopen).
  destruct (table_read_meta_built paranoid file mh (nlen (data_image bs), nlen (filter_image bs))
              (place 0 bs) (nlen (data_image bs))) as (flt & Hrm & Hfltspec);
    [|exact (place_groups_sorted compress interval compression bs 0 0 (N.le_0_l _))|exact Hwf|exact Hlen|].
  { intros E. pose proof (lo_meta L) as Hm. unfold meta_image in Hm. rewrite E in Hm.
    split; [exact (proj1 Hm)|]. split; [exact (proj1 (placed_small _ _ _ Hm Hlen))|].
    split; [exact (lo_filter L E)|reflexivity]. }
  rewrite Hopen, Hrm. cbn [rbind].
  eexists. exists (place 0 bs). split; [reflexivity|].
  constructor; cbn [t_file t_fsize t_index t_filter].
  - symmetry. exact Hes.
  - exact Hne.
  - apply place_from.
  - reflexivity.
  - reflexivity.
  - intros verify. eapply Forall_impl; [|exact Hblocks]. intros fb [A _].
    apply (read_block_stored file (fst fb) _ verify A Hwf Hlen64).
  - eapply Forall_impl; [|exact Hblocks]. intros fb A. exact (placed_small _ _ _ A Hlen).
  - exact Hblk.
  - exact (proj1 (placed_small _ _ _ (lo_index L) Hlen)).
  - exact Hfltspec.
Qed.

End Open.

Definition sep_contract (cmp : bytes -> bytes -> comparison) (sep : bytes -> bytes -> bytes) : Prop :=
  forall a b, cmp a b = Lt -> cmp a (sep a b) <> Gt /\ cmp (sep a b) b = Lt.
Definition succ_contract (cmp : bytes -> bytes -> comparison) (succ : bytes -> bytes) : Prop :=
  forall a, cmp a (succ a) <> Gt.

Section Order.
Variable cmp : bytes -> bytes -> comparison.
Hypothesis Hord : cmp_order cmp.

Lemma co_eq_sym : forall x y, cmp x y = Eq -> cmp y x = Eq.
Proof. exact (cmp_eq_sym Hord). Qed.

Lemma co_lt_not_ge : forall x y, cmp x y = Lt -> cmp y x <> Lt.
Proof. intros x y H H1. apply (cmp_gt_lt Hord) in H1. congruence. Qed.

(* the index entries and the data blocks: every index key is >= the keys of its block
   and < the keys of all later blocks *)
Inductive index_rel : list entry -> list (handle * list entry) -> Prop :=
| ir_nil : index_rel [] []
| ir_cons : forall s h bes idx bl,
    (forall e, In e bes -> cmp (fst e) s <> Gt) ->
    (forall e, In e (concat (map snd bl)) -> cmp s (fst e) = Lt) ->
    index_rel idx bl ->
    index_rel ((s, handle_encode h) :: idx) ((h, bes) :: bl).

Lemma index_rel_cons : forall s hv idx h bes bl, index_rel ((s, hv) :: idx) ((h, bes) :: bl) ->
  (forall e, In e bes -> cmp (fst e) s <> Gt) /\
  (forall e, In e (concat (map snd bl)) -> cmp s (fst e) = Lt) /\ index_rel idx bl.
Proof. intros s hv idx h bes bl H. inversion H. auto. Qed.

(* a key below all entries of the blocks is below all their index keys *)
Lemma index_rel_above : forall idx bl, index_rel idx bl -> Forall nonempty bl ->
  forall s, (forall e, In e (concat (map snd bl)) -> cmp s (fst e) = Lt) ->
  forall y, In y idx -> cmp s (fst y) = Lt.
Proof.
  induction 1 as [|s0 h bes idx bl A B C IH]; intros Hne s Hs y Hy; [destruct Hy|].
  inversion Hne as [|? ? Hbes Hne']; subst. cbn [map concat snd] in Hs.
  destruct Hy as [<-|Hy].
  - destruct bes as [|e bes]; [destruct Hbes; reflexivity|].
    apply (cmp_lt_le Hord s (fst e)); [apply Hs|apply A]; left; reflexivity.
  - apply (IH Hne' s); [|exact Hy]. intros e He. apply Hs, in_or_app. right. exact He.
Qed.

Lemma index_rel_sorted : forall idx bl,
  index_rel idx bl -> Forall nonempty bl -> sorted_by cmp idx.
Proof.
  induction 1 as [|s h bes idx bl A B C IH]; intros Hne; [intros [|? ?] ? ? ? ? ? ? H; discriminate H|].
  inversion Hne as [|? ? _ Hne']; subst.
  exact (sorted_by_cons cmp (s, _) _ (index_rel_above idx bl C Hne' s B) (IH Hne')).
Qed.

Variable sep : bytes -> bytes -> bytes.
Variable succ : bytes -> bytes.

(* Seek in the index finds the block: the blocks before it lie below the target, the blocks
   after it do not *)
Theorem index_locate : forall bl, index_rel (index_of sep succ bl None) bl -> forall k,
  match ref_seek cmp (index_of sep succ bl None) k with
  | None => Forall (fun e => cmp (fst e) k = Lt) (concat (map snd bl))
  | Some z => exists bpre fb bpost, bl = bpre ++ fb :: bpost /\ z = izip sep succ (bpre, fb, bpost) /\
      Forall (fun e => cmp (fst e) k = Lt) (concat (map snd bpre)) /\
      Forall (fun e => cmp (fst e) k <> Lt) (concat (map snd bpost))
  end.
Proof.
  induction bl as [|[h bes] bl IH]; intros Hrel k; [constructor|].
  cbn [index_of snd fst] in *. rewrite ref_seek_cons. cbn [fst map concat snd].
  destruct (index_rel_cons _ _ _ _ _ _ Hrel) as (A & B & C). specialize (IH C k).
  set (s := index_key sep succ bes (next_first bl None)) in *.
  destruct (cmp s k) eqn:Es.
  2:{ assert (Hbes : Forall (fun e => cmp (fst e) k = Lt) bes).
      { apply Forall_forall. intros e He. exact (cmp_le_lt Hord _ s _ (A e He) Es). }
      destruct (ref_seek cmp (index_of sep succ bl None) k) as [z|]; cbn [option_map]; [|apply Forall_app; auto].
      destruct IH as (bpre & fb & bpost & -> & -> & Hpre & Hpost).
      exists ((h, bes) :: bpre), fb, bpost. split; [reflexivity|].
      split; [destruct bpre; reflexivity|]. split; [apply Forall_app; auto|exact Hpost]. }
  (* Eq, Gt: s is not below k, and every entry of a later block is above s (B): none of them is below k *)
  all: exists [], (h, bes), bl; repeat (split; [reflexivity|]); split; [constructor|];
    apply Forall_forall; intros e He Hc; rewrite (cmp_lt_trans Hord _ _ _ (B e He) Hc) in Es; discriminate Es.
Qed.

Hypothesis Hsep : sep_contract cmp sep.
Hypothesis Hsucc : succ_contract cmp succ.

Theorem index_of_rel : forall bl nxt,
  Forall nonempty bl ->
  sorted_by cmp (concat (map snd bl)) ->
  (forall k, nxt = Some k -> forall e, In e (concat (map snd bl)) -> cmp (fst e) k = Lt) ->
  index_rel (index_of sep succ bl nxt) bl.
Proof.
  induction bl as [|[h bes] bl IH]; intros nxt Hne Hs Hnxt; cbn [index_of]; [constructor|].
  inversion Hne as [|? ? Hbes Hne']; subst. cbn [snd fst] in *.
  cbn [map concat snd] in Hs, Hnxt.
  (* [el], the last entry of the block, is >= every entry of the block, so a key >= [el]
     will do for the block *)
  destruct (exists_last (Hbes : bes <> [])) as (b0 & el & ->).
  assert (Hge : forall s, cmp (fst el) s <> Gt ->
                forall e, In e (b0 ++ [el]) -> cmp (fst e) s <> Gt).
  { intros s Hs' e He. apply (cmp_le_trans Hord _ (fst el)); [|exact Hs'].
    apply in_app_or in He. destruct He as [He|[<-|[]]].
    - rewrite (sorted_by_cross cmp _ _ e el (sorted_by_app_l _ _ _ Hs) He (or_introl eq_refl)). discriminate.
    - rewrite (cmp_refl Hord). discriminate. }
  unfold index_key. rewrite lastk_app by discriminate. change (lastk [el]) with (fst el).
  destruct bl as [|[h1 b1] bl1]; cbn [next_first snd].
  - constructor; [|intros e []|constructor].
    apply Hge. destruct nxt as [k|]; [|apply Hsucc].
    apply Hsep, (Hnxt k eq_refl). apply in_or_app. left. apply in_or_app. right. left. reflexivity.
  - (* the separator is taken against [x], the first entry of the later blocks, and is
       below it, hence below all of them *)
    inversion Hne' as [|? ? Hb1 _]; subst. destruct b1 as [|x b1]; [destruct Hb1; reflexivity|].
    change (firstk (x :: b1)) with (fst x).
    destruct (Hsep (fst el) (fst x)) as [H1 H2].
    { apply (sorted_by_cross cmp _ _ el x Hs); [apply in_or_app; right|]; left; reflexivity. }
    apply sorted_by_app_r in Hs. constructor.
    + apply Hge, H1.
    + intros e [<-|He]; [exact H2|]. apply (co_lt_trans _ Hord _ (fst x)); [exact H2|].
      exact (sorted_by_cross cmp [x] _ x e Hs (or_introl eq_refl) He).
    + apply IH; [exact Hne'|exact Hs|].
      intros k Hk e He. apply (Hnxt k Hk). apply in_or_app. right. exact He.
Qed.

End Order.
