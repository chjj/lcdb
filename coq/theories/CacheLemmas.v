(* CacheLemmas.v -- list / heap / arithmetic lemmas for the cache proofs; ldb_hash is a 32-bit value. *)
From LCDB Require Import Base BaseProofs Crc32cProofs Cache CacheSpec.
From Coq Require Import Lia Permutation.
Local Open Scope N_scope.

#[local] Arguments N.mul : simpl never.
#[local] Arguments N.add : simpl never.
#[local] Arguments N.div : simpl never.
#[local] Arguments N.modulo : simpl never.
#[local] Arguments N.ltb : simpl never.
#[local] Arguments N.pow : simpl never.

Lemma mod_two32_lt : forall x, x mod two32 < two32.
Proof. intros x. apply N.mod_lt. discriminate. Qed.

Lemma div_two32_lt : forall x c, x < two32 -> x / c < two32.
Proof.
  intros x c Hx. eapply N.le_lt_trans; [|exact Hx].
  destruct (N.eq_dec c 0) as [->|Hc].
  - destruct x; cbn; lia.
  - apply N.div_le_upper_bound; [exact Hc|]. nia.
Qed.

Lemma hash_mix_lt : forall x c, N.lxor (x mod two32) ((x mod two32) / c) < two32.
Proof.
  intros x c. apply (lxor_lt_32 _ _); [apply mod_two32_lt|].
  apply div_two32_lt, mod_two32_lt.
Qed.

Lemma hash_loop_lt : forall n l h, (length l <= n)%nat -> h < two32 -> hash_loop l h < two32.
Proof.
  induction n as [|n IH]; intros l h Hl Hh.
  - destruct l as [|a l]; [exact Hh | cbn [length] in Hl; lia].
  - destruct l as [|a [|b [|c [|d rest]]]].
    + exact Hh.
    + cbn [hash_loop]. apply hash_mix_lt.
    + cbn [hash_loop]. apply hash_mix_lt.
    + cbn [hash_loop]. apply hash_mix_lt.
    + cbn [hash_loop]. apply IH; [cbn [length] in Hl; lia|]. apply hash_mix_lt.
Qed.

Lemma ldb_hash0_lt : forall data, ldb_hash data 0 < two32.
Proof.
  intros data. unfold ldb_hash. apply hash_loop_lt with (n := length data); [lia|].
  rewrite N.lxor_0_l. apply mod_two32_lt.
Qed.

Lemma shard_index_lt : forall k, (shard_index k < NUM_SHARDS)%nat.
Proof.
  intros k. unfold shard_index, NUM_SHARDS. pose proof (ldb_hash0_lt k) as H. unfold two32 in H.
  assert (ldb_hash k 0 / 268435456 < 16) by (apply N.div_lt_upper_bound; lia).
  lia.
Qed.

Lemma heap_get_some : forall h id e, heap_get h id = Some e -> In e h /\ ce_id e = id.
Proof.
  unfold heap_get. intros h id e H. apply find_some in H. destruct H as [H1 H2].
  split; [exact H1|]. apply N.eqb_eq. exact H2.
Qed.

Lemma heap_get_none : forall h id, heap_get h id = None -> forall e, In e h -> ce_id e <> id.
Proof.
  unfold heap_get. intros h id H e He. pose proof (find_none _ _ H e He) as H1.
  cbv beta in H1. apply N.eqb_neq. exact H1.
Qed.

Lemma heap_get_in : forall h e, NoDup (map ce_id h) -> In e h -> heap_get h (ce_id e) = Some e.
Proof.
  intros h e Hnd He. destruct (heap_get h (ce_id e)) as [x|] eqn:E.
  - apply heap_get_some in E. destruct E as [E1 E2]. f_equal.
    apply (NoDup_map_inj ce_id h); assumption.
  - exfalso. exact (heap_get_none _ _ E e He eq_refl).
Qed.

Lemma heap_get_notin : forall h id, (forall e, In e h -> ce_id e <> id) -> heap_get h id = None.
Proof.
  intros h id H. destruct (heap_get h id) as [x|] eqn:E; [|reflexivity].
  apply heap_get_some in E. destruct E as [E1 E2]. exfalso. exact (H x E1 E2).
Qed.

Lemma heap_get_set : forall h id e e', ce_id e' = id -> heap_get h id = Some e ->
  heap_get (heap_set h e') id = Some e'.
Proof.
  unfold heap_get, heap_set. intros h id e e' <-. induction h as [|a t IH]; intros H; [discriminate H|].
  cbn [map find] in *. destruct (N.eqb_spec (ce_id a) (ce_id e')) as [E|E].
  - rewrite N.eqb_refl. reflexivity.
  - rewrite (proj2 (N.eqb_neq _ _) E). exact (IH H).
Qed.

Lemma heap_set_ids : forall h e, map ce_id (heap_set h e) = map ce_id h.
Proof.
  intros h e. unfold heap_set. rewrite map_map. apply map_ext. intros a.
  destruct (N.eqb_spec (ce_id a) (ce_id e)) as [E|E]; [symmetry; exact E|reflexivity].
Qed.

Lemma in_heap_set : forall h e e' x, In e h -> ce_id e = ce_id e' ->
  (In x (heap_set h e') <-> x = e' \/ (In x h /\ ce_id x <> ce_id e)).
Proof.
  intros h e e' x Hin Hid. unfold heap_set. rewrite in_map_iff, Hid. split.
  - intros [y [Hy Hy']]. destruct (N.eqb_spec (ce_id y) (ce_id e')) as [E|E]; subst.
    + left. reflexivity.
    + right. split; assumption.
  - intros [Hx | [Hx Hne]].
    + subst x. exists e. rewrite (proj2 (N.eqb_eq _ _) Hid). split; [reflexivity|exact Hin].
    + exists x. rewrite (proj2 (N.eqb_neq _ _) Hne). split; [reflexivity|exact Hx].
Qed.

Lemma in_heap_del : forall h id x, In x (heap_del h id) <-> In x h /\ ce_id x <> id.
Proof.
  intros h id x. unfold heap_del. rewrite filter_In. rewrite negb_true_iff, N.eqb_neq. reflexivity.
Qed.

Lemma heap_del_ids : forall h id, map ce_id (heap_del h id) = filter (fun x => negb (x =? id)) (map ce_id h).
Proof.
  intros h id. unfold heap_del. induction h as [|a t IH]; [reflexivity|].
  cbn [filter map]. destruct (ce_id a =? id); cbn [negb map]; rewrite IH; reflexivity.
Qed.

Lemma heap_del_nodup : forall h id, NoDup (map ce_id h) -> NoDup (map ce_id (heap_del h id)).
Proof. intros h id H. rewrite heap_del_ids. apply NoDup_filter. exact H. Qed.

Lemma heap_del_notin : forall h id, (forall e, In e h -> ce_id e <> id) -> heap_del h id = h.
Proof. intros h id H. apply filter_true. intros e He. apply negb_true_iff, N.eqb_neq, H, He. Qed.

Lemma heap_set_notin : forall h e', (forall e, In e h -> ce_id e <> ce_id e') -> heap_set h e' = h.
Proof.
  unfold heap_set. induction h as [|a t IH]; intros e' H; [reflexivity|].
  cbn [map]. rewrite (proj2 (N.eqb_neq _ _) (H a (or_introl eq_refl))).
  f_equal. apply IH. intros e He. apply H. right. exact He.
Qed.

Lemma heap_del_set : forall h e' id, ce_id e' = id -> heap_del (heap_set h e') id = heap_del h id.
Proof.
  intros h e' id Hid. unfold heap_del, heap_set. induction h as [|a t IH]; [reflexivity|].
  cbn [map filter]. destruct (N.eqb_spec (ce_id a) (ce_id e')) as [E|E].
  - rewrite Hid, N.eqb_refl. rewrite <- Hid, E, N.eqb_refl. cbn [negb]. rewrite <- Hid in IH. exact IH.
  - rewrite <- Hid. rewrite (proj2 (N.eqb_neq _ _) E). cbn [negb]. f_equal. rewrite <- Hid in IH. exact IH.
Qed.

Lemma nodup_cons_ids : forall a t, NoDup (map ce_id (a :: t)) ->
  NoDup (map ce_id t) /\ forall e, In e t -> ce_id e <> ce_id a.
Proof.
  intros a t H. cbn [map] in H. inversion H as [|x l Hnot Hnd]; subst. split; [exact Hnd|].
  intros e He E. apply Hnot. rewrite <- E. apply in_map. exact He.
Qed.

Lemma heap_split : forall h e, NoDup (map ce_id h) -> In e h ->
  exists h1 h2, h = h1 ++ e :: h2 /\ heap_del h (ce_id e) = h1 ++ h2 /\
    forall e', ce_id e' = ce_id e -> heap_set h e' = h1 ++ e' :: h2.
Proof.
  intros h e Hnd Hin. destruct (in_split e h Hin) as [h1 [h2 ->]]. exists h1, h2.
  rewrite map_app in Hnd. cbn [map] in Hnd. apply NoDup_remove_2 in Hnd.
  assert (H1 : forall x, In x h1 -> ce_id x <> ce_id e).
  { intros x Hx E. apply Hnd. apply in_or_app. left. rewrite <- E. apply in_map. exact Hx. }
  assert (H2 : forall x, In x h2 -> ce_id x <> ce_id e).
  { intros x Hx E. apply Hnd. apply in_or_app. right. rewrite <- E. apply in_map. exact Hx. }
  split; [reflexivity|]. split.
  - unfold heap_del. rewrite filter_app. cbn [filter]. rewrite N.eqb_refl. cbn [negb].
    fold (heap_del h1 (ce_id e)) (heap_del h2 (ce_id e)).
    rewrite !heap_del_notin by assumption. reflexivity.
  - intros e' E. unfold heap_set. rewrite map_app. cbn [map].
    fold (heap_set h1 e') (heap_set h2 e').
    rewrite !heap_set_notin by (rewrite E; assumption). rewrite E, N.eqb_refl. reflexivity.
Qed.

Lemma heap_perm_del : forall h id e, NoDup (map ce_id h) -> In e h -> ce_id e = id ->
  Permutation h (e :: heap_del h id).
Proof.
  intros h id e Hnd Hin <-. destruct (heap_split h e Hnd Hin) as (h1 & h2 & Eh & -> & _).
  rewrite Eh at 1. symmetry. apply Permutation_middle.
Qed.

Lemma heap_set_perm : forall h e' e, NoDup (map ce_id h) -> In e h -> ce_id e = ce_id e' ->
  Permutation (heap_set h e') (e' :: heap_del h (ce_id e')).
Proof.
  intros h e' e Hnd Hin Hid. destruct (heap_split h e Hnd Hin) as (h1 & h2 & _ & Hdel & Hset).
  rewrite (Hset e' (eq_sym Hid)), <- Hid, Hdel. symmetry. apply Permutation_middle.
Qed.

Lemma nodup_ids_snoc : forall h e, NoDup (map ce_id h) -> (forall x, In x h -> ce_id x <> ce_id e) ->
  NoDup (map ce_id (h ++ [e])).
Proof.
  intros h e Hnd Hnot. rewrite map_app. apply NoDup_snoc; [exact Hnd|].
  intros Hin. apply in_map_iff in Hin. destruct Hin as [x [Hx Hin]]. exact (Hnot x Hin Hx).
Qed.

Lemma in_list_remove : forall id l x, In x (list_remove id l) <-> In x l /\ x <> id.
Proof.
  intros id l x. unfold list_remove. rewrite filter_In, negb_true_iff, N.eqb_neq. reflexivity.
Qed.

Lemma list_remove_nodup : forall id l, NoDup l -> NoDup (list_remove id l).
Proof. intros id l H. apply NoDup_filter. exact H. Qed.

Lemma list_remove_notin : forall id l, ~ In id l -> list_remove id l = l.
Proof. intros id l H. apply filter_true. intros x Hx. apply negb_true_iff, N.eqb_neq. intros ->. exact (H Hx). Qed.

Lemma list_remove_head : forall id t, NoDup (id :: t) -> list_remove id (id :: t) = t.
Proof.
  intros id t H. inversion H as [|x l Hnot Hnd]; subst.
  unfold list_remove. cbn [filter]. rewrite N.eqb_refl. cbn [negb].
  apply list_remove_notin. exact Hnot.
Qed.

(* the charge an entry contributes to the usage of its shard; the sum over a heap *)
Definition icc (e : centry) : N := if ce_in_cache e then ce_charge e else 0.
Definition icsum (h : list centry) : N := sum_charges (filter ce_in_cache h).

Lemma icsum_cons : forall e h, icsum (e :: h) = icc e + icsum h.
Proof.
  intros e h. unfold icsum, icc, sum_charges. cbn [filter]. destruct (ce_in_cache e); cbn [fold_right]; lia.
Qed.

Lemma icsum_nil : icsum [] = 0.
Proof. reflexivity. Qed.

Lemma icsum_perm : forall h h', Permutation h h' -> icsum h = icsum h'.
Proof.
  intros h h' H. induction H as [|x l l' H IH|x y l|l l' l'' H1 IH1 H2 IH2].
  - reflexivity.
  - rewrite !icsum_cons, IH. reflexivity.
  - rewrite !icsum_cons. lia.
  - congruence.
Qed.

Lemma icsum_app : forall a b, icsum (a ++ b) = icsum a + icsum b.
Proof.
  induction a as [|x a IH]; intros b; [rewrite icsum_nil; cbn [app]; lia|].
  cbn [app]. rewrite !icsum_cons, IH. lia.
Qed.

Lemma icsum_del : forall h id e, NoDup (map ce_id h) -> In e h -> ce_id e = id ->
  icsum h = icc e + icsum (heap_del h id).
Proof.
  intros h id e Hnd Hin Hid. rewrite (icsum_perm _ _ (heap_perm_del h id e Hnd Hin Hid)).
  apply icsum_cons.
Qed.

Lemma icsum_set : forall h e' e, NoDup (map ce_id h) -> In e h -> ce_id e = ce_id e' ->
  icsum (heap_set h e') = icc e' + icsum (heap_del h (ce_id e')).
Proof.
  intros h e' e Hnd Hin Hid. rewrite (icsum_perm _ _ (heap_set_perm h e' e Hnd Hin Hid)).
  apply icsum_cons.
Qed.

Lemma icsum_zero : forall h, (forall e, In e h -> ce_in_cache e = false) -> icsum h = 0.
Proof.
  induction h as [|a t IH]; intros H; [reflexivity|].
  rewrite icsum_cons, IH; [|intros e He; apply H; right; exact He].
  unfold icc. rewrite (H a (or_introl eq_refl)). reflexivity.
Qed.

Lemma kv_del_perm : forall h id e, NoDup (map ce_id h) -> In e h -> ce_id e = id ->
  Permutation (map kv h) (kv e :: map kv (heap_del h id)).
Proof.
  intros h id e Hnd Hin Hid.
  exact (Permutation_map kv (heap_perm_del h id e Hnd Hin Hid)).
Qed.

Lemma kv_set_perm : forall h e' e, NoDup (map ce_id h) -> In e h -> ce_id e = ce_id e' -> kv e = kv e' ->
  Permutation (map kv (heap_set h e')) (map kv h).
Proof.
  intros h e' e Hnd Hin Hid Hkv.
  eapply perm_trans; [exact (Permutation_map kv (heap_set_perm h e' e Hnd Hin Hid))|].
  cbn [map]. rewrite <- Hkv. symmetry. apply kv_del_perm; assumption.
Qed.

Lemma usage_sub : forall u c S', c < two64 -> u = (c + S') mod two64 ->
  (u + two64 - c) mod two64 = S' mod two64.
Proof.
  intros u c S' Hc ->. rewrite <- N.add_sub_assoc by lia.
  rewrite N.add_mod_idemp_l by discriminate.
  replace (c + S' + (two64 - c)) with (S' + 1 * two64) by lia.
  apply N.mod_add. discriminate.
Qed.

Lemma usage_add : forall u c S, u = S mod two64 -> (u + c) mod two64 = (S + c) mod two64.
Proof. intros u c S ->. apply N.add_mod_idemp_l. discriminate. Qed.

Lemma set_nth_length : forall A n (x : A) l, length (set_nth n x l) = length l.
Proof.
  intros A n x l. revert n. induction l as [|a t IH]; intros n; [destruct n; reflexivity|].
  destruct n as [|n]; cbn [set_nth length]; [reflexivity|]. rewrite IH. reflexivity.
Qed.

Lemma set_nth_split : forall A n (l : list A) y, nth_error l n = Some y ->
  exists l1 l2, l = l1 ++ y :: l2 /\ length l1 = n /\ forall x, set_nth n x l = l1 ++ x :: l2.
Proof.
  intros A n l. revert n. induction l as [|a t IH]; intros n y H.
  - destruct n; discriminate.
  - destruct n as [|n].
    + cbn [nth_error] in H. injection H as ->. exists [], t. repeat split.
    + cbn [nth_error] in H. destruct (IH n y H) as [l1 [l2 [E1 [E2 E3]]]].
      exists (a :: l1), l2. split; [cbn [app]; rewrite <- E1; reflexivity|].
      split; [cbn [length]; rewrite E2; reflexivity|].
      intros x. cbn [set_nth app]. rewrite E3. reflexivity.
Qed.

Lemma nth_error_set_nth_eq : forall A n (x : A) l, (n < length l)%nat -> nth_error (set_nth n x l) n = Some x.
Proof.
  intros A n x l. revert n. induction l as [|a t IH]; intros n H; [cbn [length] in H; lia|].
  destruct n as [|n]; cbn [set_nth nth_error]; [reflexivity|]. apply IH. cbn [length] in H. lia.
Qed.

Lemma nth_error_set_nth_neq : forall A n m (x : A) l, m <> n -> nth_error (set_nth n x l) m = nth_error l m.
Proof.
  intros A n m x l. revert n m. induction l as [|a t IH]; intros n m H; [destruct n; reflexivity|].
  destruct n as [|n], m as [|m]; cbn [set_nth nth_error]; try reflexivity; [congruence|].
  apply IH. congruence.
Qed.

Lemma set_nth_oob : forall A n (x : A) l, (length l <= n)%nat -> set_nth n x l = l.
Proof.
  intros A n x l. revert n. induction l as [|a t IH]; intros n H; [destruct n; reflexivity|].
  destruct n as [|n]; cbn [length] in H; [lia|]. cbn [set_nth]. rewrite IH; [reflexivity|lia].
Qed.

(* the value written is the default of the read: no bound on n or m is needed *)
Lemma nth_set_nth_default : forall A (d : A) l n m,
  nth m (set_nth n d l) d = if Nat.eqb m n then d else nth m l d.
Proof.
  intros A d. induction l as [|a t IH]; intros n m.
  - destruct n, m; cbn; try reflexivity; destruct (Nat.eqb m n); reflexivity.
  - destruct n as [|n], m as [|m]; cbn [set_nth nth Nat.eqb]; try reflexivity. apply IH.
Qed.
