(* Properties_C17b.v -- C17b: CURRENT always names a complete MANIFEST, in every
   crash image of every accepted trace.  Record-level
   model FsModel.v, proofs FsProofs.v (rule R4 + the invariant Inv_dur of FsDur.v). *)
From LCDB Require Import FsModel FsProofs.
Local Open Scope N_scope.

Theorem C17_current_complete : forall tr, wf_protocol tr = true ->
  forall p img, crash_image (firstn p tr) img ->
  iget img FCurrent = None \/
  exists m, iget img FCurrent = Some [PCurrent m] /\ complete_manifest img m.
Proof. exact FsProofs.C17_current_complete. Qed.
Print Assumptions C17_current_complete.

Theorem C17_bad_trace_rename_before_manifest_sync_refuted :
  wf_protocol bad_rename_before_manifest_sync = false /\
  first_violation bad_rename_before_manifest_sync = Some (4, 38) /\
  In (1, true, 3, (1, ex_w1)) (acks bad_rename_before_manifest_sync) /\
  exists img, crash_image bad_rename_before_manifest_sync img /\ lost_in img 3 (1, ex_w1) = true.
Proof. exact bad_trace_rename_before_manifest_sync_refuted. Qed.
Print Assumptions C17_bad_trace_rename_before_manifest_sync_refuted.
