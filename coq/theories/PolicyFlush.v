(* PolicyFlush.v -- the level chosen by the replica of
   ldb_version_pick_level_for_memtable_output (Policy.v) always passes the guard
   [flush_level_ok] of the engine model's flush step (Engine.v). *)
From LCDB Require Import Base Engine EngineSpec EngineStepsBase EngineStepsInv EngineStepsFlush Policy PolicyBase PolicyOverlap.
From Coq Require Import Sorting.Sorted.
Require Import Lia.
Local Open Scope N_scope.

Section PF.
Variable ucmp : bytes -> bytes -> comparison.
Context {TO : total_order ucmp}.

Notation ult := (Engine.ult ucmp).
Notation FOK := (EngineStepsInv.FOK ucmp).
Notation FB := (EngineStepsInv.FB ucmp).
Notation ovl := (PolicyBase.ovl ucmp).

Lemma ule_lt_trans a b c : ucmp a b <> Gt -> ucmp b c = Lt -> ucmp a c = Lt.
Proof. apply (cmp_le_lt TO). Qed.

(* some_file_overlaps_range tests what get_overlapping_inputs tests *)
Lemma overlaps_user_ovl lo hi f : FOK f -> overlaps_user ucmp lo hi f = ovl (Some lo) (Some hi) f.
Proof.
  intros Hf. unfold overlaps_user, PolicyBase.ovl. cbn [before_begin after_end].
  rewrite (FOK_sm ucmp f Hf), (FOK_lg ucmp f Hf), (ugt_ult ucmp). reflexivity.
Qed.

Lemma overlap_in_level_0 lvls lo hi :
  overlap_in_level ucmp lvls 0 lo hi = existsb (overlaps_user ucmp lo hi) (level_files lvls 0).
Proof.
  unfold overlap_in_level. change (0 =? 0)%nat with true. cbv iota.
  induction (level_files lvls 0) as [|f r IH]; cbn [existsb]; auto.
  rewrite IH. f_equal. unfold overlaps_user.
  destruct (fsmallest f) as [a|]; auto. destruct (flargest f) as [b|]; auto.
  rewrite (ugt_ult ucmp), negb_orb. reflexivity.
Qed.

Lemma find_file_false (fs : list file) lo hi :
  (forall f, In f fs -> FOK f) ->
  StronglySorted FB fs ->
  match find (fun f => match flargest f with Some b => negb (ult (ek b) lo) | None => false end) fs with
  | None => false
  | Some f => match fsmallest f with Some a => negb (ult hi (ek a)) | None => false end
  end = false ->
  existsb (overlaps_user ucmp lo hi) fs = false.
Proof.
  intros HF HS H. apply Forall_forall in HF.
  destruct (ovl_seg ucmp (Some lo) (Some hi) fs HF HS) as (pre & post & E & Hpre & _).
  rewrite Forall_forall in HF. apply existsb_false_iff. intros g Hg. rewrite (overlaps_user_ovl lo hi g (HF g Hg)).
  destruct (ovl (Some lo) (Some hi) g) eqn:Og; [exfalso|reflexivity].
  (* if some file overlapped, find would pass over pre and return the first one that does *)
  destruct (filter (ovl (Some lo) (Some hi)) fs) as [|f m] eqn:Ef.
  { assert (In g []) as []. rewrite <- Ef. apply filter_In. auto. }
  assert (Hf : In f fs /\ ovl (Some lo) (Some hi) f = true) by (apply filter_In; rewrite Ef; left; reflexivity).
  destruct Hf as [Hf Of]. unfold PolicyBase.ovl in Of. cbn [before_begin after_end] in Of.
  rewrite (ugt_ult ucmp) in Of. apply andb_prop in Of as [O1 O2].
  rewrite E, find_app_none in H.
  - cbn [app find] in H. rewrite (FOK_lg ucmp f (HF f Hf)), O1, (FOK_sm ucmp f (HF f Hf)), O2 in H. discriminate.
  - intros x Hx. rewrite (FOK_lg ucmp x) by (apply HF; rewrite E; auto with datatypes).
    apply negb_false_iff, (Hpre x Hx).
Qed.

Lemma overlap_in_level_false lvls i lo hi :
  (forall f, In f (level_files lvls i) -> FOK f) ->
  ((1 <= i)%nat -> StronglySorted FB (level_files lvls i)) ->
  overlap_in_level ucmp lvls i lo hi = false ->
  existsb (overlaps_user ucmp lo hi) (level_files lvls i) = false.
Proof.
  intros Hok Hs H. destruct i as [|i].
  - rewrite overlap_in_level_0 in H. exact H.
  - unfold overlap_in_level in H. change (S i =? 0)%nat with false in H. cbv iota in H.
    apply find_file_false; auto. apply Hs. lia.
Qed.

Lemma pick_level_loop_inv fuel lvls lo hi gp level :
  (forall i f, In f (level_files lvls i) -> FOK f) ->
  (forall i, (1 <= i)%nat -> StronglySorted FB (level_files lvls i)) ->
  (level <= MAX_MEM_COMPACT_LEVEL)%nat -> no_overlap_upto ucmp lvls lo hi level = true ->
  (pick_level_loop ucmp fuel lvls lo hi gp level <= MAX_MEM_COMPACT_LEVEL)%nat /\
  no_overlap_upto ucmp lvls lo hi (pick_level_loop ucmp fuel lvls lo hi gp level) = true.
Proof.
  intros Hok Hs. revert level. induction fuel as [|n IH]; intros level Hl Hn.
  - cbn [pick_level_loop]. auto.
  - cbn [pick_level_loop].
    destruct (level <? MAX_MEM_COMPACT_LEVEL)%nat eqn:E1; [|auto].
    destruct (overlap_in_level ucmp lvls (level + 1) lo hi) eqn:E2; [auto|].
    destruct ((level + 2 <? NUM_LEVELS)%nat && gp level) eqn:E3; [auto|].
    apply Nat.ltb_lt in E1. rewrite Nat.add_1_r in *.
    apply IH; [exact E1|]. apply no_overlap_iff. intros i Hi.
    destruct (Nat.eq_dec i (S level)) as [->|Hne]; [|apply (proj1 (no_overlap_iff ucmp _ _ _ _) Hn); lia].
    apply overlap_in_level_false; auto. apply Hok.
Qed.

Theorem flush_policy_ok s e0 r gp :
  inv_b ucmp s = true ->
  flush_level_ok ucmp (levels s) (e0 :: r)
    (pick_level_for_memtable_output ucmp (levels s) (ek e0) (ek (last r e0)) gp) = true.
Proof.
  intros HI. apply (inv_b_SInv ucmp) in HI.
  unfold flush_level_ok, pick_level_for_memtable_output. cbv zeta.
  destruct (overlap_in_level ucmp (levels s) 0 (ek e0) (ek (last r e0))) eqn:E0; [reflexivity|].
  destruct (pick_level_loop_inv MAX_MEM_COMPACT_LEVEL (levels s) (ek e0) (ek (last r e0)) gp 0
              (si_fok ucmp s HI) (si_lsort ucmp s HI)) as [H1 H2].
  - apply Nat.le_0_l.
  - apply no_overlap_iff. intros i Hi. apply Nat.le_0_r in Hi. subst i. rewrite <- overlap_in_level_0. exact E0.
  - apply orb_true_iff. right. apply andb_true_iff. split; [apply Nat.leb_le; exact H1|exact H2].
Qed.

End PF.
