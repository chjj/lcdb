(* ManifestReplayProofs.v -- theorems about ManifestReplay.v (the replica of
   ldb_versions_recover): replaying the BYTES of a MANIFEST written from a
   sequence of edits over a base version = folding the edits over the abstract
   state (replay_state_fold_base).  Composes the log round trip (LogFormatClosed.v),
   the edit round trip (EditProofs.v) and the builder theorem (ManifestBuilderProofs.v).
   Then the snapshot record of ldb_versions_write_snapshot: first what that edit
   holds per level and that it is well-formed (no comparator enters), then, in
   Section Replay, that replaying it gives back the version.  The readings with
   the counters finished, and appended (reused) MANIFESTs, are in Properties_C17.v. *)
From LCDB Require Import EngineSpec EngineStepsBase EngineRead.
From LCDB Require Import ManifestReplay ManifestBuilderProofs.
From LCDB Require IKeyProofs.
From LCDB Require Import BaseProofs VarintProofs LogFormatClosed EditProofs.
From Coq Require Import Sorted.
Local Open Scope N_scope.

(* the comparator name recorded in an edit, if any, is the one the database is opened with *)
Definition cmp_matches (cmpname : bytes) (e : edit) : Prop :=
  match e_comparator e with Some c => c = cmpname | None => True end.

(* no file number is added twice to the same level (numbers come from
   vset->next_file_number; a file only ever moves to a deeper level), and none
   collides with a file of the base version *)
Definition fresh_adds (base : list (list filemeta)) (es : list edit) : Prop :=
  forall l, (l < NLEVELS)%nat ->
    NoDup (map f_number (nth l base []) ++ flat_map (nums_at l) es).

Lemma nums_at_canon : forall l es, flat_map (nums_at l) (map edit_canon es) = flat_map (nums_at l) es.
Proof.
  intros l. induction es as [|e es IH]; [reflexivity|].
  cbn [map flat_map]. unfold nums_at at 1. rewrite adds_at_canon, IH. reflexivity.
Qed.

(* every level of a version is sorted by by_smallest_key (what builder_save_to produces) *)
Definition levels_sorted (kcmp : bytes -> bytes -> comparison) (base : list (list filemeta)) : Prop :=
  length base = NLEVELS /\
  forall l, (l < NLEVELS)%nat -> StronglySorted (flt kcmp) (nth l base []).

Lemma filter_level_newfile_of : forall K l fs,
  filter (at_level nf_level l) (map (newfile_of K) fs) =
  if Nat.eqb (N.to_nat K) l then map (newfile_of K) fs else [].
Proof.
  intros K l. induction fs as [|f fs IH]; cbn [map filter].
  - destruct (Nat.eqb (N.to_nat K) l); reflexivity.
  - rewrite IH. unfold at_level at 1. cbn [newfile_of nf_level].
    destruct (Nat.eqb (N.to_nat K) l); reflexivity.
Qed.

Lemma map_meta_of_newfile_of : forall K fs, map meta_of (map (newfile_of K) fs) = fs.
Proof.
  intros K. induction fs as [|f fs IH]; [reflexivity|]. cbn [map]. rewrite IH.
  destruct f; reflexivity.
Qed.

Lemma adds_of_snapshot_files : forall levels k l,
  map meta_of (filter (at_level nf_level l) (snapshot_files (N.of_nat k) levels)) =
  if (k <=? l)%nat then nth (l - k) levels [] else [].
Proof.
  induction levels as [|fs levels IH]; intros k l; cbn [snapshot_files].
  - cbn [filter map]. destruct (k <=? l)%nat; [destruct (l - k)%nat|]; reflexivity.
  - rewrite filter_app, map_app, filter_level_newfile_of.
    replace (N.of_nat k + 1) with (N.of_nat (S k)) by lia. rewrite IH. rewrite Nat2N.id.
    destruct (Nat.eqb k l) eqn:Hkl.
    + apply Nat.eqb_eq in Hkl. subst l. rewrite map_meta_of_newfile_of.
      replace (S k <=? k)%nat with false by (symmetry; apply Nat.leb_gt; lia).
      rewrite Nat.leb_refl, Nat.sub_diag, app_nil_r. reflexivity.
    + apply Nat.eqb_neq in Hkl. cbn [map app].
      destruct (k <=? l)%nat eqn:Hle.
      * apply Nat.leb_le in Hle. replace (S k <=? l)%nat with true by (symmetry; apply Nat.leb_le; lia).
        replace (l - k)%nat with (S (l - S k)) by lia. reflexivity.
      * apply Nat.leb_gt in Hle. replace (S k <=? l)%nat with false by (symmetry; apply Nat.leb_gt; lia).
        reflexivity.
Qed.

Lemma adds_at_snapshot : forall cmpname compact levels l,
  adds_at l (snapshot_edit cmpname compact levels) = nth l levels [].
Proof.
  intros. unfold adds_at, snapshot_edit. cbn [e_new_files].
  pose proof (adds_of_snapshot_files levels 0 l) as H. cbn [Nat.leb] in H.
  rewrite Nat.sub_0_r in H. exact H.
Qed.

(* the pointers of the levels already passed are [pre]; an unset pointer is skipped
   and the slot keeps its initial (empty) value *)
Lemma compact_snapshot_from : forall cs pre,
  fold_left apply_compact (snapshot_compacts (N.of_nat (length pre)) cs) (pre ++ repeat [] (length cs)) =
  pre ++ cs.
Proof.
  induction cs as [|k cs IH]; intros pre; cbn [snapshot_compacts length repeat]; [reflexivity|].
  specialize (IH (pre ++ [k])). rewrite app_length, Nat.add_1_r, Nat2N.inj_succ, <- N.add_1_r in IH.
  rewrite <- !app_assoc in IH. cbn [app] in IH.
  rewrite fold_left_app. destruct (nlen k =? 0) eqn:Hz; cbn [fold_left].
  - destruct k; [exact IH|discriminate Hz].
  - unfold apply_compact at 2. cbn [fst snd]. rewrite Nat2N.id, upd_nth_app. exact IH.
Qed.

Definition wf_meta (f : filemeta) : Prop :=
  wf_u64 (f_number f) = true /\ wf_u64 (f_size f) = true /\
  wf_key (f_smallest f) = true /\ wf_key (f_largest f) = true /\
  wf_bytes (f_smallest f) = true /\ wf_bytes (f_largest f) = true.

Lemma snapshot_files_wf : forall levels lv,
  lv + N.of_nat (length levels) <= EDIT_NUM_LEVELS -> Forall (Forall wf_meta) levels ->
  forallb wf_newfile (snapshot_files lv levels) = true /\
  Forall (fun f => wf_bytes (nf_smallest f) = true /\ wf_bytes (nf_largest f) = true)
         (snapshot_files lv levels).
Proof.
  induction levels as [|fs levels IH]; intros lv Hlv Hm; cbn [snapshot_files].
  - split; [reflexivity|constructor].
  - inversion Hm as [|fs' l' Hfs Hm']; subst. cbn [length] in Hlv.
    assert (Hl : wf_level lv = true) by (apply N.ltb_lt; lia).
    destruct (IH (lv + 1) ltac:(lia) Hm') as [IH1 IH2].
    rewrite forallb_app, IH1, andb_true_r. split.
    + apply forallb_forall. intros nf Hnf. apply in_map_iff in Hnf. destruct Hnf as (f & <- & Hf).
      rewrite Forall_forall in Hfs. destruct (Hfs f Hf) as (H1 & H2 & H3 & H4 & _).
      unfold wf_newfile, newfile_of. cbn [nf_level nf_number nf_size nf_smallest nf_largest].
      rewrite H1, H2, H3, H4, Hl. reflexivity.
    + apply Forall_app. split; [|exact IH2].
      apply Forall_forall. intros nf Hnf. apply in_map_iff in Hnf. destruct Hnf as (f & <- & Hf).
      rewrite Forall_forall in Hfs. destruct (Hfs f Hf) as (_ & _ & _ & _ & H5 & H6).
      cbn [newfile_of nf_smallest nf_largest]. split; assumption.
Qed.

Lemma snapshot_compacts_wf : forall (compact : list bytes) lv,
  lv + N.of_nat (length compact) <= EDIT_NUM_LEVELS ->
  Forall (fun key => key = [] \/ (wf_key key = true /\ wf_bytes key = true)) compact ->
  forallb (fun p : N * bytes => wf_level (fst p) && wf_key (snd p)) (snapshot_compacts lv compact) = true /\
  Forall (fun p : N * bytes => wf_bytes (snd p) = true) (snapshot_compacts lv compact).
Proof.
  induction compact as [|key compact IH]; intros lv Hlv Hc; cbn [snapshot_compacts].
  - split; [reflexivity|constructor].
  - inversion Hc as [|key' l' Hkey Hc']; subst. cbn [length] in Hlv.
    assert (Hl : wf_level lv = true) by (apply N.ltb_lt; lia).
    destruct (IH (lv + 1) ltac:(lia) Hc') as [IH1 IH2].
    destruct (nlen key =? 0) eqn:Hz; cbn [app].
    + split; assumption.
    + destruct Hkey as [Hkey|[Hkey Hb]]; [subst key; discriminate Hz|].
      cbn [forallb fst snd]. rewrite IH1, Hkey, Hl.
      split; [reflexivity|]. constructor; [exact Hb|exact IH2].
Qed.

Section Replay.
Variable kcmp : bytes -> bytes -> comparison.
Hypothesis Hk : total_order kcmp.

(* the loop body on a decoded edit that passes the comparator check *)
Definition rstep (s : rstate) (e : edit) : rstate :=
  mkR RC_OK (builder_apply kcmp (r_builder s) e)
      (opt_or (e_log_number e) (r_log s)) (opt_or (e_prev_log_number e) (r_prev s))
      (opt_or (e_next_file_number e) (r_next s)) (opt_or (e_last_sequence e) (r_seq s)).

Lemma recover_loop_records : forall cmpname es s,
  r_rc s = RC_OK ->
  Forall (fun e => wf_edit e = true) es ->
  Forall (cmp_matches cmpname) es ->
  recover_loop kcmp cmpname (map Rec (map edit_export es)) s =
  fold_left rstep (map edit_canon es) s.
Proof.
  intros cmpname. induction es as [|e es IH]; intros s Hrc Hwf Hcm; cbn [map recover_loop fold_left].
  - reflexivity.
  - inversion Hwf as [|e' es' Hwe Hwf']; subst. inversion Hcm as [|e' es' Hce Hcm']; subst.
    rewrite Hrc. cbn [N.eqb RC_OK negb].
    unfold recover_record. rewrite (edit_import_export e Hwe).
    assert (Hbad : match e_comparator (edit_canon e) with
                   | Some c => negb (bytes_eqb c cmpname) | None => false end = false).
    { unfold cmp_matches in Hce. cbn [edit_canon e_comparator].
      destruct (e_comparator e) as [c|]; [|reflexivity]. subst c. rewrite bytes_eqb_refl. reflexivity. }
    rewrite Hbad. apply IH; [reflexivity|exact Hwf'|exact Hcm'].
Qed.

Lemma recover_from_state : forall cmpname nf0 base compact file,
  recover_from kcmp cmpname nf0 base compact file =
  match recover_state kcmp cmpname base compact file with
  | inl rc => inl rc
  | inr v => finish_vstate nf0 v
  end.
Proof.
  intros. unfold recover_from, recover_state, recover_finish, finish_vstate.
  destruct (negb (r_rc _ =? RC_OK)); [reflexivity|].
  cbn [vs_next vs_log vs_seq vs_prev vs_levels vs_compact]. reflexivity.
Qed.

(* what recover_state makes of the loop's state over the base version B; it commutes with the edits:
   the counters and compaction pointers by computation, the levels by save_apply_levels *)
Definition vstate_of (B : list (list filemeta)) (s : rstate) : vstate :=
  mkV (builder_save_to kcmp B (r_builder s)) (b_compact (r_builder s))
      (r_log s) (r_prev s) (r_next s) (r_seq s).

Lemma vstate_of_fold : forall B compact es,
  levels_sorted kcmp B -> fresh_adds B es ->
  let s := fold_left rstep es (rstate_init compact) in
  r_rc s = RC_OK /\ accumulated kcmp es (b_levels (r_builder s)) /\
  vstate_of B s = fold_left (apply_edit kcmp) es (mkV B compact None None None None).
Proof.
  intros B compact es [Hlen HS]. induction es as [|e es IH] using rev_ind; intros Hfr; cbv zeta.
  - split; [reflexivity|]. split; [apply accumulated_init|].
    unfold vstate_of, builder_save_to, rstate_init, builder_init. cbn [fold_left r_builder b_levels].
    rewrite <- Hlen, save_levels_fresh. reflexivity.
  - rewrite !fold_left_app. cbn [fold_left]. destruct IH as (_ & Hacc & Hv).
    { intros l Hl. specialize (Hfr l Hl). rewrite flat_map_app, app_assoc in Hfr.
      apply NoDup_app_iff in Hfr. apply Hfr. }
    rewrite <- Hv. generalize dependent (fold_left rstep es (rstate_init compact)). intros s Hacc _.
    split; [reflexivity|]. split; [apply (accumulated_step kcmp Hk); exact Hacc|].
    unfold vstate_of, apply_edit, rstep, builder_save_to.
    cbn [r_builder r_log r_prev r_next r_seq b_compact b_levels builder_apply builder_init
         vs_levels vs_compact vs_log vs_prev vs_next vs_seq].
    f_equal. apply (save_apply_levels kcmp Hk B es); assumption.
Qed.

Theorem replay_state_fold_base : forall cmpname base compact es,
  levels_sorted kcmp base ->
  Forall (fun e => wf_edit e = true) es ->
  Forall (fun e => wf_bytes (edit_export e) = true) es ->
  Forall (cmp_matches cmpname) es ->
  fresh_adds base es ->
  recover_state kcmp cmpname base compact (write_log (map edit_export es)) =
  inr (fold_left (apply_edit kcmp) (map edit_canon es) (mkV base compact None None None None)).
Proof.
  intros cmpname base compact es Hsorted Hwf Hwb Hcm Hfresh.
  unfold recover_state.
  rewrite read_write_roundtrip_events by (apply Forall_map; exact Hwb).
  rewrite recover_loop_records by (try reflexivity; assumption).
  destruct (vstate_of_fold base compact (map edit_canon es) Hsorted) as (Hrc & _ & Hv).
  { intros l Hl. rewrite nums_at_canon. exact (Hfresh l Hl). }
  rewrite Hrc. cbn [N.eqb RC_OK negb]. f_equal. exact Hv.
Qed.

Lemma manifest_replay_with_state : forall cmpname file,
  manifest_replay_with kcmp cmpname file =
  match manifest_replay_state_with kcmp cmpname file with
  | inl rc => inl rc
  | inr v => finish_vstate 2 v
  end.
Proof. intros. apply recover_from_state. Qed.

Lemma empty_levels_sorted : levels_sorted kcmp empty_levels.
Proof.
  split; [reflexivity|]. intros l _. unfold empty_levels. rewrite nth_repeat. constructor.
Qed.

(* a version as lcdb holds it in memory: 7 sorted levels of well-formed files,
   7 compaction pointers each empty (unset) or an internal key *)
Record wf_version (levels : list (list filemeta)) (compact : list bytes) : Prop := {
  wv_sorted : levels_sorted kcmp levels;
  wv_meta : Forall (Forall wf_meta) levels;
  wv_compact_len : length compact = NLEVELS;
  wv_compact : Forall (fun k => k = [] \/ (wf_key k = true /\ wf_bytes k = true)) compact
}.

Lemma snapshot_edit_wf : forall cmpname compact levels,
  wf_str cmpname = true -> wf_bytes cmpname = true -> wf_version levels compact ->
  wf_edit (snapshot_edit cmpname compact levels) = true /\
  wf_bytes (edit_export (snapshot_edit cmpname compact levels)) = true.
Proof.
  intros cmpname compact levels Hn Hnb [[Hlen _] Hmeta Hclen Hcomp].
  destruct (snapshot_files_wf levels 0) as [F1 F2]; [rewrite Hlen; discriminate|exact Hmeta|].
  destruct (snapshot_compacts_wf compact 0) as [C1 C2]; [rewrite Hclen; discriminate|exact Hcomp|].
  assert (Hwf : wf_edit (snapshot_edit cmpname compact levels) = true).
  { unfold wf_edit, snapshot_edit.
    cbn [e_comparator e_log_number e_prev_log_number e_next_file_number e_last_sequence
         e_compact_pointers e_deleted_files e_new_files wf_opt_u64 forallb].
    rewrite Hn, C1, F1. reflexivity. }
  split; [exact Hwf|]. apply edit_export_wf_bytes; [exact Hwf|].
  unfold wfb_edit, snapshot_edit. cbn [e_comparator e_compact_pointers e_new_files].
  split; [exact Hnb|]. split; [exact C2|exact F2].
Qed.

Lemma save_level_snapshot : forall X,
  StronglySorted (flt kcmp) X -> NoDup (map f_number X) ->
  save kcmp [] (lvl_apply kcmp [] X ls_empty) = X.
Proof.
  intros X SX Hnd.
  destruct (save_fresh_repr kcmp Hk [] [] X (SSorted_nil _) Hnd) as [S M]; [intros f x _ []|].
  apply (SS_ext (flt kcmp) (flt_irrefl kcmp Hk) (cmp_lt_trans (bs_order kcmp Hk)) _ _ S SX).
  intros x. rewrite M. cbn [In]. tauto.
Qed.

Lemma apply_snapshot_edit : forall cmpname compact levels,
  wf_version levels compact ->
  (forall l, (l < NLEVELS)%nat -> NoDup (map f_number (nth l levels []))) ->
  apply_edit kcmp vstate_init (edit_canon (snapshot_edit cmpname compact levels)) =
  mkV levels compact None None None None.
Proof.
  intros cmpname compact levels [[Hlen Hs] _ Hclen _] Hnd.
  unfold apply_edit, vstate_init.
  cbn [vs_levels vs_compact vs_log vs_prev vs_next vs_seq edit_canon snapshot_edit
       e_log_number e_prev_log_number e_next_file_number e_last_sequence opt_or].
  f_equal.
  - change (step_levels kcmp empty_levels
              (edit_canon (snapshot_edit cmpname compact levels)) = levels).
    apply (nth_ext _ _ [] []).
    + rewrite length_step_levels. symmetry. exact Hlen.
    + intros l Hl. rewrite length_step_levels in Hl. rewrite nth_step_levels by exact Hl.
      rewrite adds_at_canon, adds_at_snapshot.
      change (dels_at l (edit_canon (snapshot_edit cmpname compact levels))) with (@nil N).
      unfold empty_levels. rewrite nth_repeat.
      apply save_level_snapshot; [apply Hs; exact Hl|apply Hnd; exact Hl].
  - cbn [builder_apply builder_init b_compact e_compact_pointers]. unfold empty_compact. rewrite <- Hclen.
    apply (compact_snapshot_from compact []).
Qed.

(* A new MANIFEST = the snapshot record of the state (levels, compact) followed
   by the edits es: replaying it gives es applied to exactly that state.  With
   es = [] (the snapshot followed by nothing): exactly the file set and the
   compaction pointers of the state, and no counters (so ldb_versions_recover
   itself would answer Corruption: the record carrying the counters is the edit
   that ldb_versions_apply appends right after the snapshot). *)
Theorem replay_state_snapshot_with : forall cmpname levels compact es,
  wf_str cmpname = true -> wf_bytes cmpname = true ->
  wf_version levels compact ->
  Forall (fun e => wf_edit e = true) es ->
  Forall (fun e => wf_bytes (edit_export e) = true) es ->
  Forall (cmp_matches cmpname) es ->
  fresh_adds levels es ->
  manifest_replay_state_with kcmp cmpname
    (write_log (map edit_export (snapshot_edit cmpname compact levels :: es))) =
  inr (fold_left (apply_edit kcmp) (map edit_canon es) (mkV levels compact None None None None)).
Proof.
  intros cmpname levels compact es Hn Hnb Hv Hwf Hwb Hcm Hfr.
  destruct (snapshot_edit_wf cmpname compact levels Hn Hnb Hv) as [S1 S2].
  assert (Hnd : forall l, (l < NLEVELS)%nat -> NoDup (map f_number (nth l levels []))).
  { intros l Hl. specialize (Hfr l Hl). apply NoDup_app_iff in Hfr. apply Hfr. }
  unfold manifest_replay_state_with. rewrite replay_state_fold_base.
  - cbn [map fold_left]. fold vstate_init. rewrite apply_snapshot_edit by assumption. reflexivity.
  - apply empty_levels_sorted.
  - constructor; assumption.
  - constructor; assumption.
  - constructor; [reflexivity|exact Hcm].
  - intros l Hl. unfold empty_levels. rewrite nth_repeat. cbn [map app flat_map].
    unfold nums_at at 1. rewrite adds_at_snapshot. apply Hfr. exact Hl.
Qed.

End Replay.

Lemma ikc_total_order : forall ucmp, total_order ucmp -> total_order (ikc_compare ucmp).
Proof.
  intros ucmp Hu. apply order_total_order. exact (IKeyProofs.ikc_order ucmp Hu).
Qed.

Lemma ikey_compare_total_order : total_order ikey_compare.
Proof. exact (ikc_total_order bytes_compare bytes_compare_total). Qed.

Theorem replay_state_fold : forall cmpname es,
  Forall (fun e => wf_edit e = true) es ->
  Forall (fun e => wf_bytes (edit_export e) = true) es ->
  Forall (cmp_matches cmpname) es ->
  fresh_adds empty_levels es ->
  manifest_replay_state cmpname (write_log (map edit_export es)) =
  inr (fold_left (apply_edit ikey_compare) (map edit_canon es) vstate_init).
Proof.
  intros cmpname es Hwf Hwb Hcm Hfr. unfold manifest_replay_state, manifest_replay_state_with, vstate_init.
  apply (replay_state_fold_base _ ikey_compare_total_order); try assumption. apply empty_levels_sorted.
Qed.

Theorem replay_state_snapshot_nothing : forall cmpname levels compact,
  wf_str cmpname = true -> wf_bytes cmpname = true ->
  wf_version ikey_compare levels compact ->
  (forall l, (l < NLEVELS)%nat -> NoDup (map f_number (nth l levels []))) ->
  manifest_replay_state cmpname (write_log [edit_export (snapshot_edit cmpname compact levels)]) =
  inr (mkV levels compact None None None None).
Proof.
  intros cmpname levels compact Hn Hnb Hv Hnd.
  apply (replay_state_snapshot_with _ ikey_compare_total_order cmpname levels compact []);
    try assumption; try constructor.
  intros l Hl. cbn [flat_map]. rewrite app_nil_r. apply Hnd. exact Hl.
Qed.
Print Assumptions replay_state_snapshot_nothing.

(* What the snapshot theorem says about an omitted level: the record written for
   (levels with level k emptied) replays to exactly that state -- level k is empty in it, so it
   differs from levels when level k was not: nothing is reconstructed from elsewhere. *)
Corollary replay_snapshot_omitted_level : forall cmpname levels compact k,
  wf_str cmpname = true -> wf_bytes cmpname = true ->
  wf_version ikey_compare (upd_nth k (fun _ => []) levels) compact ->
  (forall l, (l < NLEVELS)%nat ->
     NoDup (map f_number (nth l (upd_nth k (fun _ => []) levels) []))) ->
  (k < NLEVELS)%nat -> nth k levels [] <> [] ->
  exists v, manifest_replay_state cmpname
              (write_log [edit_export (snapshot_edit cmpname compact (upd_nth k (fun _ => []) levels))]) = inr v /\
            nth k (vs_levels v) [] = [] /\ vs_levels v <> levels.
Proof.
  intros cmpname levels compact k Hn Hnb Hv Hnd Hk Hne.
  exists (mkV (upd_nth k (fun _ => []) levels) compact None None None None).
  split; [apply replay_state_snapshot_nothing; assumption|].
  destruct Hv as [[Hlen _] _ _ _]. rewrite length_upd_nth in Hlen.
  cbn [vs_levels]. split.
  - rewrite nth_upd_nth by (rewrite Hlen; exact Hk). rewrite Nat.eqb_refl. reflexivity.
  - intros Heq. apply Hne. rewrite <- Heq at 1.
    rewrite nth_upd_nth by (rewrite Hlen; exact Hk). rewrite Nat.eqb_refl. reflexivity.
Qed.

(* The freshness hypothesis is needed: the builder of ldb_versions_recover accumulates
   ALL edits before saving, so a file number that is added, deleted and added again at
   the same level (with another smallest key) comes back TWICE on replay, while the
   version that was in memory held it once.  Within one MANIFEST lcdb does not add a
   number twice to one level: every edit records next_file_number (version_set.c:1302)
   and recovery restarts the counter above the recorded value (:1612).  fresh_adds is a
   hypothesis of the replay theorems; nothing derives it from an engine run. *)
Definition cx_key (c : N) : bytes := [c; 1; 1; 0; 0; 0; 0; 0; 0].
Definition cx_edits : list edit :=
  [ mkEdit None (Some 3) None (Some 9) (Some 7) [] [] [mkNewFile 1 5 10 (cx_key 97) (cx_key 97)];
    mkEdit None None None None None [] [(1, 5)] [];
    mkEdit None None None None None [] [] [mkNewFile 1 5 10 (cx_key 98) (cx_key 98)] ].

Definition level_numbers (r : N + recovered) : list (list N) :=
  match r with inl _ => [] | inr v => map (map f_number) (rv_levels v) end.

Example replay_fold_needs_fresh :
  level_numbers (manifest_replay [] (write_log (map edit_export cx_edits))) =
    [[]; [5; 5]; []; []; []; []; []] /\
  level_numbers (finish_vstate 2 (fold_left (apply_edit ikey_compare) (map edit_canon cx_edits) vstate_init)) =
    [[]; [5]; []; []; []; []; []].
Proof. split; vm_compute; reflexivity. Qed.
