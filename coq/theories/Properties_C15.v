(* Properties_C15.v -- C15: write-ahead-log framing is exact, standard and torn-tail tolerant.
   Theorem statements with Print Assumptions; the proofs are in LogFormatProofs.v /
   LogFormatClosed.v / Crc32cProofs.v, and the alteration theorems are read off the
   stored-checksum theorems of CrcBurst.v. *)
From LCDB Require Import Base Crc32c LogFormat BaseProofs Crc32cProofs LogFormatClosed CrcBurst.
Local Open Scope N_scope.

(* The model is pinned to the LevelDB log format constants. *)
Theorem C15_standard_constants :
  BLOCK = 32768 /\ HEADER = 7 /\ T_FULL = 1 /\ T_FIRST = 2 /\ T_MIDDLE = 3 /\ T_LAST = 4 /\
  POLY = 2197175160 /\ MASK_DELTA = 2726488792.
Proof. repeat split; reflexivity. Qed.
Print Assumptions C15_standard_constants.

(* CRC-32C: the reference value, and mask/unmask are inverse on 32-bit values. *)
Theorem C15_crc_check_value : crc_value [49;50;51;52;53;54;55;56;57] = 3808858755.
Proof. exact crc_check_value. Qed.
Print Assumptions C15_crc_check_value.

Theorem C15_crc_unmask_mask : forall c, c < 4294967296 -> crc_unmask (crc_mask c) = c.
Proof. exact crc_unmask_mask. Qed.
Print Assumptions C15_crc_unmask_mask.

(* Any sequence of records of any sizes is read back identically, with no drop report. *)
Theorem C15_roundtrip : forall rs,
  Forall (fun r => wf_bytes r = true) rs -> read_log (write_log rs) = map Rec rs.
Proof. exact read_write_roundtrip. Qed.
Print Assumptions C15_roundtrip.

(* ... also when the log was closed and re-opened for append at any length (log reuse):
   the writer's only state is the file length modulo the block size. *)
Theorem C15_append_any_offset : forall rs1 rs2,
  write_log (rs1 ++ rs2) = write_log rs1 ++ write_log_from (nlen (write_log rs1)) rs2.
Proof. exact write_log_app. Qed.
Print Assumptions C15_append_any_offset.

Theorem C15_roundtrip_reopen : forall rs1 rs2,
  Forall (fun r => wf_bytes r = true) (rs1 ++ rs2) ->
  read_log (write_log rs1 ++ write_log_from (nlen (write_log rs1)) rs2) = map Rec (rs1 ++ rs2).
Proof. exact read_write_roundtrip_reopen. Qed.
Print Assumptions C15_roundtrip_reopen.

(* Cutting the file at ANY byte yields precisely the records wholly before the cut and no
   error report. *)
Theorem C15_cut : forall rs n,
  Forall (fun r => wf_bytes r = true) rs -> (n <= length (write_log rs))%nat ->
  exists k, read_log (firstn n (write_log rs)) = map Rec (firstn k rs) /\
    (length (write_log (firstn k rs)) <= n)%nat /\
    (k < length rs -> n < length (write_log (firstn (S k) rs)))%nat.
Proof. exact read_cut. Qed.
Print Assumptions C15_cut.

(* For ANY byte string: every record returned is a concatenation of payloads of physical
   records whose stored CRC verified (so altered bytes cannot invent a record unless a
   CRC-32C collision is produced). *)
Theorem C15_alter_no_invention : forall f r, In (Rec r) (read_log f) ->
  exists frags, r = concat frags /\ Forall (fun p => In p (verified_payloads f)) frags.
Proof. exact read_log_no_invention_structural. Qed.
Print Assumptions C15_alter_no_invention.

Theorem C15_verified_means_crc : forall f ty p,
  In (PRec ty p) (phys_events true f) -> is_verified_substring f ty p.
Proof. exact phys_events_verified. Qed.
Print Assumptions C15_verified_means_crc.

(* "always reports the drop" is FALSE of the faithful model (finding F3): a one-bit
   alteration loses every record without any report. *)
Theorem C15_alter_always_reported_refuted : exists rs f',
  Forall (fun r => wf_bytes r = true) rs /\ length f' = length (write_log rs) /\
  (f' = firstn 6 (write_log rs) ++ [0] ++ skipn 7 (write_log rs) /\ nth 6 (write_log rs) 0 = 1) /\
  records_of (read_log f') <> rs /\ drops_of (read_log f') = [].
Proof. exact zero_header_silent_refuted. Qed.
Print Assumptions C15_alter_always_reported_refuted.

(* Out-of-fuel is unreachable in the writer model. *)
Theorem C15_writer_fuel : forall fuel off data, off <= BLOCK ->
  (add_record_fuel data <= fuel)%nat -> add_record_loop fuel off true data = add_record off data.
Proof. exact add_record_fuel_ok. Qed.
Print Assumptions C15_writer_fuel.

(* Any alteration of a slice of the checksummed bytes whose xor pattern [e] has all its set
   bits within 32 consecutive bit positions (bit j of byte i = position 8*i+j, the order in
   which the CRC consumes them; [burst_le_32]) changes the CRC: in particular every
   single-bit flip and every overwrite of 1..4 consecutive bytes. *)
Theorem C15_crc_detects_burst : forall pre d e post,
  length d = length e -> wf_bytes e = true -> all_zero e = false -> burst_le_32 e ->
  crc_value (pre ++ xor_bytes d e ++ post) <> crc_value (pre ++ d ++ post).
Proof. exact crc_detects_burst. Qed.
Print Assumptions C15_crc_detects_burst.

Theorem C15_crc_detects_overwrite_1_to_4_bytes : forall pre d d' post,
  length d' = length d -> (length d <= 4)%nat ->
  wf_bytes d = true -> wf_bytes d' = true -> d' <> d ->
  crc_value (pre ++ d' ++ post) <> crc_value (pre ++ d ++ post).
Proof. exact crc_detects_overwrite. Qed.
Print Assumptions C15_crc_detects_overwrite_1_to_4_bytes.

Theorem C15_crc_detects_bit_flip : forall pre b j post, j < 8 ->
  crc_value (pre ++ N.lxor b (2 ^ j) :: post) <> crc_value (pre ++ b :: post).
Proof. exact crc_detects_bit_flip. Qed.
Print Assumptions C15_crc_detects_bit_flip.

(* ... and 32 is optimal: a 33-bit pattern (the generator polynomial) is never detected. *)
Theorem C15_crc_burst_33_undetected : forall pre d post, length d = 5%nat ->
  crc_value (pre ++ xor_bytes d [241; 118; 236; 5; 1] ++ post) = crc_value (pre ++ d ++ post).
Proof. exact crc_burst_33_undetected. Qed.
Print Assumptions C15_crc_burst_33_undetected.

(* A written physical record whose type byte / payload is altered by one such burst (lengths
   unchanged) is answered by the reader with a bad-record event, never with a record,
   whatever follows it in the block. *)
Theorem C15_single_alteration_detected :
  forall f eof ty payload ty' payload' c0 c1 c2 c3 a b tail,
  wf_bytes (ty :: payload) = true -> wf_bytes (ty' :: payload') = true ->
  length payload' = length payload ->
  ty' :: payload' <> ty :: payload ->
  burst_le_32 (xor_bytes (ty' :: payload') (ty :: payload)) ->
  nlen payload < 65536 ->
  phys_record ty payload = c0 :: c1 :: c2 :: c3 :: a :: b :: ty :: payload ->
  exists r,
    parse_block (S f) true eof (c0 :: c1 :: c2 :: c3 :: a :: b :: ty' :: payload' ++ tail)
    = PBad r :: (if eof then [PEof] else []).
Proof.
  intros f eof ty payload ty' payload' c0 c1 c2 c3 a b tail Hwf Hwf' Hlen Hne Hb _.
  apply log_reader_rejects_altered_record; assumption.
Qed.
Print Assumptions C15_single_alteration_detected.

(* The reader's comparison itself ([log_crc_ok] = the test made by [parse_block]) fails when
   one byte of [ty :: payload] is overwritten, when one bit is flipped, and when only the
   stored checksum bytes are altered. *)
Theorem C15_byte_overwrite_detected :
  forall ty payload pre b post b' ty' payload' c0 c1 c2 c3,
  wf_bytes (ty :: payload) = true ->
  ty :: payload = pre ++ b :: post -> ty' :: payload' = pre ++ b' :: post ->
  b' < 256 -> b' <> b ->
  le32 (crc_mask (crc_extend (crc_value [ty]) payload)) = [c0; c1; c2; c3] ->
  log_crc_ok c0 c1 c2 c3 ty' payload' = false.
Proof.
  intros ty payload pre b post b' ty' payload' c0 c1 c2 c3 Hwf E E' Hb' Hne Hc.
  change (stored_ok c0 c1 c2 c3 (ty' :: payload') = false). rewrite E'.
  apply (stored_rejects_byte [ty] payload c0 c1 c2 c3 Hwf Hc pre b); assumption.
Qed.
Print Assumptions C15_byte_overwrite_detected.

Theorem C15_bit_flip_detected :
  forall ty payload pre b post j ty' payload' c0 c1 c2 c3,
  wf_bytes (ty :: payload) = true ->
  ty :: payload = pre ++ b :: post ->
  ty' :: payload' = pre ++ N.lxor b (2 ^ j) :: post -> j < 8 ->
  le32 (crc_mask (crc_extend (crc_value [ty]) payload)) = [c0; c1; c2; c3] ->
  log_crc_ok c0 c1 c2 c3 ty' payload' = false.
Proof.
  intros ty payload pre b post j ty' payload' c0 c1 c2 c3 Hwf E E' Hj Hc.
  change (stored_ok c0 c1 c2 c3 (ty' :: payload') = false). rewrite E'.
  apply (stored_rejects_bit [ty] payload c0 c1 c2 c3 Hwf Hc pre b); assumption.
Qed.
Print Assumptions C15_bit_flip_detected.

Theorem C15_crc_field_alteration_detected :
  forall ty payload c0 c1 c2 c3 c0' c1' c2' c3',
  wf_bytes (ty :: payload) = true ->
  le32 (crc_mask (crc_extend (crc_value [ty]) payload)) = [c0; c1; c2; c3] ->
  c0' < 256 -> c1' < 256 -> c2' < 256 -> c3' < 256 ->
  [c0'; c1'; c2'; c3'] <> [c0; c1; c2; c3] ->
  log_crc_ok c0' c1' c2' c3' ty payload = false.
Proof.
  intros ty payload c0 c1 c2 c3 c0' c1' c2' c3' Hwf Hc H0 H1 H2 H3 Hne.
  apply (stored_rejects_field [ty] payload c0 c1 c2 c3 Hc); assumption.
Qed.
Print Assumptions C15_crc_field_alteration_detected.

Theorem C15_crc_mismatch_means_bad_record : forall f eof c0 c1 c2 c3 a b ty payload tail,
  a + 256 * b = nlen payload ->
  log_crc_ok c0 c1 c2 c3 ty payload = false ->
  exists r,
    parse_block (S f) true eof (c0 :: c1 :: c2 :: c3 :: a :: b :: ty :: payload ++ tail)
    = PBad r :: (if eof then [PEof] else []).
Proof. exact parse_block_crc_mismatch. Qed.
Print Assumptions C15_crc_mismatch_means_bad_record.
