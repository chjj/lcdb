(* CacheInv2.v -- the per-shard invariant [sinv] of the LRU cache model (Cache.v) and its
   preservation by every shard operation: ref / unref, finish / erase, the eviction and
   prune loops, insert, lookup; the destroy loop frees everything. *)
From LCDB Require Import BaseProofs CacheSpec CacheLemmas.
From Coq Require Import Permutation.
Local Open Scope N_scope.

Definition same_static (e e' : centry) : Prop :=
  ce_id e = ce_id e' /\ ce_key e = ce_key e' /\ ce_val e = ce_val e' /\ ce_charge e = ce_charge e'.

Lemma same_static_refl : forall e, same_static e e.
Proof. intros e. repeat split. Qed.

Lemma same_static_trans : forall a b c, same_static a b -> same_static b c -> same_static a c.
Proof.
  intros a b c [A1 [A2 [A3 A4]]] [B1 [B2 [B3 B4]]]. repeat split; congruence.
Qed.

(* every entry of h' descends from an entry of h; in_cache only goes from true to false *)
Definition heap_sub (h h' : list centry) : Prop :=
  forall e', In e' h' ->
  exists e, In e h /\ same_static e e' /\ (ce_in_cache e' = true -> ce_in_cache e = true).

Record cstep_ok (h h' f : list centry) : Prop := {
  so_sub : heap_sub h h';
  (* the freed entries f have left h': no entry of h' bears their id *)
  so_freed : forall e x, In e f -> In x h' -> ce_id x <> ce_id e;
  so_perm : Permutation (map kv f ++ map kv h') (map kv h) }.

(* at most one in-cache entry per key *)
Definition amo (h : list centry) : Prop :=
  forall e1 e2, In e1 h -> In e2 h -> ce_in_cache e1 = true -> ce_in_cache e2 = true ->
  ce_key e1 = ce_key e2 -> e1 = e2.

Lemma heap_sub_refl : forall h, heap_sub h h.
Proof.
  intros h e He. exists e. split; [exact He|]. split; [apply same_static_refl|]. intros H; exact H.
Qed.

Lemma heap_sub_trans : forall a b c, heap_sub a b -> heap_sub b c -> heap_sub a c.
Proof.
  intros a b c Hab Hbc e He. destruct (Hbc e He) as [y [Hy [Sy Iy]]].
  destruct (Hab y Hy) as [x [Hx [Sx Ix]]]. exists x. split; [exact Hx|].
  split; [eapply same_static_trans; eassumption|]. intros H. apply Ix, Iy, H.
Qed.

Lemma cstep_ok_refl : forall h, cstep_ok h h [].
Proof.
  intros h. constructor.
  - apply heap_sub_refl.
  - intros e x [].
  - cbn [map app]. reflexivity.
Qed.

Lemma cstep_ok_trans : forall h h1 h2 f1 f2, cstep_ok h h1 f1 -> cstep_ok h1 h2 f2 -> cstep_ok h h2 (f1 ++ f2).
Proof.
  intros h h1 h2 f1 f2 [S1 F1 P1] [S2 F2 P2]. constructor.
  - eapply heap_sub_trans; eassumption.
  - intros e x He Hx. apply in_app_or in He. destruct He as [He|He]; [|exact (F2 e x He Hx)].
    destruct (S2 x Hx) as [y [Hy [[Sid _] _]]]. rewrite <- Sid. exact (F1 e y He Hy).
  - rewrite map_app, <- app_assoc. eapply perm_trans; [apply Permutation_app_head; exact P2|exact P1].
Qed.

Lemma amo_sub : forall h h', NoDup (map ce_id h') -> heap_sub h h' -> amo h -> amo h'.
Proof.
  intros h h' Hnd Hs Ha e1 e2 H1 H2 I1 I2 K.
  destruct (Hs e1 H1) as [x1 [Hx1 [[Sid1 [Sk1 _]] Ic1]]].
  destruct (Hs e2 H2) as [x2 [Hx2 [[Sid2 [Sk2 _]] Ic2]]].
  assert (x1 = x2) as E by (apply Ha; auto; congruence).
  apply (NoDup_map_inj ce_id h'); auto. congruence.
Qed.

(* The shard invariant.  rc id = number of client handles on entry id.  B stands for: every
   charge of the script is a size_t; only si_charge and si_usage depend on it.  It is
   instantiated with [charges_ok ops] (CacheInv3) for the usage and bound theorems and with
   [False], which makes those two fields vacuous, for all the others. *)
Set Implicit Arguments.
Record sinvc (B : Prop) (rc : N -> N) (cap u : N) (lru : list N) (h : list centry) (nxt : N) : Prop := {
  (* entry ids are distinct and below the next id to be given out *)
  si_nodup : NoDup (map ce_id h);
  si_next : forall e, In e h -> ce_id e < nxt;
  (* an entry is on the LRU list iff it is eligible for eviction: in the table and referenced by
     the cache alone *)
  si_lru : forall e, In e h -> (In (ce_id e) lru <-> ce_in_cache e = true /\ ce_refs e = 1);
  (* what the LRU list or a client handle names is a live entry *)
  si_live : forall id, In id lru \/ rc id <> 0 -> exists e, In e h /\ ce_id e = id;
  (* refs = one for the table if in cache + the client handles; a live entry has a reference *)
  si_refs : forall e, In e h -> ce_refs e = (if ce_in_cache e then 1 else 0) + rc (ce_id e) /\ 1 <= ce_refs e;
  (* a shard of capacity 0 caches nothing *)
  si_cap0 : cap = 0 -> forall e, In e h -> ce_in_cache e = false;
  (* usage is the sum of the charges of the in-cache entries, in size_t arithmetic *)
  si_charge : B -> forall e, In e h -> ce_charge e < two64;
  si_usage : B -> u = icsum h mod two64 }.
Unset Implicit Arguments.
(* over the fields: the operations of Cache.v build their results as [mkSh (sh_cap s) ...], so
   the invariant of a result IS [sinvc] of its new fields, by conversion.  The lemmas below take
   [sinvc] of the fields and conclude [sinv] of the literal result: unification finds the fields
   of a shard, not a shard for given fields *)
Definition sinv (B : Prop) (rc : N -> N) (s : lru_shard) : Prop :=
  sinvc B rc (sh_cap s) (sh_usage s) (sh_lru s) (sh_heap s) (sh_next s).

Lemma sinv_ext : forall B rc rc' s, (forall x, rc x = rc' x) -> sinv B rc s -> sinv B rc' s.
Proof.
  intros B rc rc' s E [Hnd Hnext Hlru Hlive Hrefs Hcap0 Hch Hus]. constructor; try assumption.
  - intros id H. apply Hlive. rewrite E. exact H.
  - intros e He. rewrite <- E. apply Hrefs, He.
Qed.

Lemma sinv_new : forall B cap, sinv B (fun _ => 0) (shard_new cap).
Proof.
  intros B cap. constructor.
  - constructor.
  - intros e [].
  - intros e [].
  - intros id [[]|H]. destruct (H eq_refl).
  - intros e [].
  - intros _ e [].
  - intros _ e [].
  - intros _. reflexivity.
Qed.

Lemma sinv_live : forall B rc s id, sinv B rc s -> In id (sh_lru s) \/ rc id <> 0 ->
  exists e, heap_get (sh_heap s) id = Some e /\ In e (sh_heap s) /\ ce_id e = id.
Proof.
  intros B rc s id Hinv H. destruct (si_live Hinv id H) as [e [He <-]]. exists e.
  split; [apply heap_get_in; [apply (si_nodup Hinv)|exact He]|split; [exact He|reflexivity]].
Qed.

(* one entry e becomes e'; the LRU list is adjusted for e alone *)
Lemma sinv_set : forall (B : Prop) rc rc' cap u u' lru lru' h nxt e e',
  sinvc B rc cap u lru h nxt ->
  In e h -> same_static e e' ->
  (ce_in_cache e' = true -> ce_in_cache e = true) ->
  (In (ce_id e) lru' <-> ce_in_cache e' = true /\ ce_refs e' = 1) ->
  (forall id0, id0 <> ce_id e -> (In id0 lru' <-> In id0 lru)) ->
  (forall y, y <> ce_id e -> rc' y = rc y) ->
  ce_refs e' = (if ce_in_cache e' then 1 else 0) + rc' (ce_id e) -> 1 <= ce_refs e' ->
  (B -> forall D, u = (icc e + D) mod two64 -> u' = (icc e' + D) mod two64) ->
  sinv B rc' (mkSh cap u' lru' (heap_set h e') nxt) /\ cstep_ok h (heap_set h e') [].
Proof.
  intros B rc rc' cap u u' lru lru' h nxt e e' Hinv Hin Hss Hic Hself' Hoth' Hrc' Hre' Hre1' Hu'.
  destruct Hinv as [Hnd Hnext Hlru Hlive Hrefs Hcap0 Hch Hus].
  destruct Hss as [Sid [Skey [Sval Sch]]].
  pose proof (fun x => in_heap_set h e e' x Hin Sid) as HinS.
  split.
  constructor; cbn [sh_heap sh_lru sh_next sh_usage sh_cap].
  - rewrite heap_set_ids. exact Hnd.
  - intros x Hx. apply HinS in Hx. destruct Hx as [Hx|[Hx _]].
    + subst x. rewrite <- Sid. apply Hnext, Hin.
    + apply Hnext, Hx.
  - intros x Hx. apply HinS in Hx. destruct Hx as [Hx|[Hx Hne]].
    + subst x. rewrite <- Sid. exact Hself'.
    + rewrite (Hoth' _ Hne). apply Hlru, Hx.
  - intros id0 H0. destruct (N.eq_dec id0 (ce_id e)) as [->|Hne].
    + exists e'. split; [apply HinS; left; reflexivity|symmetry; exact Sid].
    + rewrite (Hoth' _ Hne), (Hrc' _ Hne) in H0. destruct (Hlive id0 H0) as [x [Hx Hxid]].
      exists x. split; [|exact Hxid]. apply HinS. right. split; [exact Hx|congruence].
  - intros x Hx. apply HinS in Hx. destruct Hx as [Hx|[Hx Hne]].
    + subst x. rewrite <- Sid. split; assumption.
    + rewrite (Hrc' _ Hne). apply Hrefs, Hx.
  - intros Hc x Hx. apply HinS in Hx. destruct Hx as [Hx|[Hx _]].
    + subst x. destruct (ce_in_cache e') eqn:E; [|reflexivity].
      rewrite (Hcap0 Hc e Hin) in Hic. discriminate (Hic eq_refl).
    + apply Hcap0; assumption.
  - intros HB x Hx. apply HinS in Hx. destruct Hx as [Hx|[Hx _]].
    + subst x. rewrite <- Sch. apply Hch; assumption.
    + apply Hch; assumption.
  - intros HB. rewrite (icsum_set h e' e Hnd Hin Sid). rewrite <- Sid. apply (Hu' HB).
    rewrite (Hus HB). rewrite (icsum_del h (ce_id e) e Hnd Hin eq_refl). reflexivity.
  - constructor.
    + intros x Hx. apply HinS in Hx. destruct Hx as [Hx|[Hx _]].
      * subst x. exists e. split; [exact Hin|]. split; [repeat split; assumption|exact Hic].
      * exists x. split; [exact Hx|]. split; [apply same_static_refl|]. intros H; exact H.
    + intros x y [].
    + cbn [map app]. apply (kv_set_perm h e' e Hnd Hin Sid). unfold kv. congruence.
Qed.

Lemma sinv_set_refs : forall (B : Prop) rc rc' cap u lru lru' h nxt e r,
  sinvc B rc cap u lru h nxt -> In e h ->
  (In (ce_id e) lru' <-> ce_in_cache e = true /\ r = 1) ->
  (forall id0, id0 <> ce_id e -> (In id0 lru' <-> In id0 lru)) ->
  (forall y, y <> ce_id e -> rc' y = rc y) ->
  r = (if ce_in_cache e then 1 else 0) + rc' (ce_id e) -> 1 <= r ->
  sinv B rc' (mkSh cap u lru' (heap_set h (with_refs e r)) nxt) /\
  cstep_ok h (heap_set h (with_refs e r)) [].
Proof.
  intros B rc rc' cap u lru lru' h nxt e r Hinv Hin Hself' Hoth' Hrc' Hr Hr1.
  apply (sinv_set B rc rc' cap u u lru lru' h nxt e (with_refs e r) Hinv Hin); try assumption.
  - repeat split.
  - intros H. exact H.
  - intros _ D HD. exact HD.
Qed.

Lemma sinv_del : forall (B : Prop) rc rc' cap u lru h nxt e,
  sinvc B rc cap u lru h nxt ->
  In e h -> ce_in_cache e = false ->
  (forall y, y <> ce_id e -> rc' y = rc y) -> rc' (ce_id e) = 0 ->
  sinv B rc' (mkSh cap u lru (heap_del h (ce_id e)) nxt) /\ cstep_ok h (heap_del h (ce_id e)) [e].
Proof.
  intros B rc rc' cap u lru h nxt e Hinv Hin Hic Hrc' Hrc'0.
  destruct Hinv as [Hnd Hnext Hlru Hlive Hrefs Hcap0 Hch Hus].
  split.
  constructor; cbn [sh_heap sh_lru sh_next sh_usage sh_cap].
  - apply heap_del_nodup. exact Hnd.
  - intros x Hx. apply in_heap_del in Hx. apply Hnext, Hx.
  - intros x Hx. apply in_heap_del in Hx. apply Hlru, Hx.
  - (* e was not on the list, and has no handle now *)
    intros id0 H0.
    assert (Hne : id0 <> ce_id e).
    { intros ->. destruct H0 as [H0|H0]; [|exact (H0 Hrc'0)].
      apply (Hlru e Hin) in H0. destruct H0 as [H0 _]. congruence. }
    rewrite (Hrc' _ Hne) in H0. destruct (Hlive id0 H0) as [x [Hx Hxid]]. exists x. split; [|exact Hxid].
    apply in_heap_del. split; [exact Hx|congruence].
  - intros x Hx. apply in_heap_del in Hx. destruct Hx as [Hx Hne].
    rewrite (Hrc' _ Hne). apply Hrefs, Hx.
  - intros Hc x Hx. apply in_heap_del in Hx. apply Hcap0; [exact Hc|apply Hx].
  - intros HB x Hx. apply in_heap_del in Hx. apply Hch; [exact HB|apply Hx].
  - intros HB. rewrite (Hus HB). rewrite (icsum_del h (ce_id e) e Hnd Hin eq_refl).
    unfold icc. rewrite Hic. reflexivity.
  - constructor.
    + intros x Hx. apply in_heap_del in Hx. exists x. split; [apply Hx|].
      split; [apply same_static_refl|]. intros H; exact H.
    + intros x y [<-|[]] Hy. apply in_heap_del in Hy. apply Hy.
    + cbn [map app]. symmetry. apply kv_del_perm; [exact Hnd|exact Hin|reflexivity].
Qed.

Lemma shard_ref_ok : forall B rc s e, sinv B rc s -> In e (sh_heap s) -> ce_in_cache e = true ->
  sinv B (fun y => rc y + if y =? ce_id e then 1 else 0) (shard_ref s e) /\
  cstep_ok (sh_heap s) (sh_heap (shard_ref s e)) [].
Proof.
  intros B rc s e Hinv Hin Hic.
  pose proof (si_lru Hinv e Hin) as Hself.
  destruct (si_refs Hinv e Hin) as [Hre Hre1]. rewrite Hic in Hre.
  unfold shard_ref. apply (sinv_set_refs B rc _ _ _ _ _ _ _ e (ce_refs e + 1) Hinv Hin).
  - (* with a client reference the entry is off the list *)
    split; [|intros [_ H]; lia].
    destruct ((ce_refs e =? 1) && ce_in_cache e) eqn:Ec.
    + intros H. apply in_list_remove in H. destruct H as [_ H]. contradiction.
    + intros H. apply Hself in H. destruct H as [_ H]. rewrite H, Hic in Ec. discriminate Ec.
  - intros id0 Hne. destruct ((ce_refs e =? 1) && ce_in_cache e); [|reflexivity].
    rewrite in_list_remove. tauto.
  - intros y Hy. rewrite (proj2 (N.eqb_neq _ _) Hy). apply N.add_0_r.
  - rewrite Hic, N.eqb_refl. lia.
  - lia.
Qed.

Lemma shard_unref_ok : forall B rc s x s' f, sinv B rc s -> 1 <= rc x -> shard_unref s x = (s', f) ->
  sinv B (fun y => if y =? x then rc x - 1 else rc y) s' /\ cstep_ok (sh_heap s) (sh_heap s') f.
Proof.
  intros B rc s x s' f Hinv Hrc H.
  pose proof (si_nodup Hinv) as Hnd.
  unfold shard_unref in H.
  destruct (sinv_live B rc _ x Hinv ltac:(right; lia)) as [e [Hg [Hin Hid]]].
  rewrite Hg in H. subst x.
  destruct (si_refs Hinv e Hin) as [Hre Hre1].
  pose proof (si_lru Hinv e Hin) as Hself.
  assert (Hrc' : forall y, y <> ce_id e -> (if y =? ce_id e then rc (ce_id e) - 1 else rc y) = rc y).
  { intros y Hy. rewrite (proj2 (N.eqb_neq _ _) Hy). reflexivity. }
  destruct (N.eqb_spec (ce_refs e - 1) 0) as [Er|Er].
  - (* last reference: freed *)
    injection H as <- <-.
    assert (Hic : ce_in_cache e = false) by (destruct (ce_in_cache e); [lia|reflexivity]).
    rewrite Hic in Hre.
    apply (sinv_del B rc _ _ _ _ _ _ e Hinv Hin Hic Hrc').
    rewrite N.eqb_refl. lia.
  - (* one reference less, in both remaining cases *)
    assert (Hdec : ce_refs e - 1 = (if ce_in_cache e then 1 else 0)
                   + (if ce_id e =? ce_id e then rc (ce_id e) - 1 else rc (ce_id e)))
      by (rewrite N.eqb_refl; lia).
    assert (Hpos : 1 <= ce_refs e - 1) by lia.
    destruct (ce_in_cache e && (ce_refs e - 1 =? 1)) eqn:Ec; injection H as <- <-.
    + (* back on the LRU list *)
      apply andb_true_iff in Ec. destruct Ec as [Hic Er1]. apply N.eqb_eq in Er1.
      apply (sinv_set_refs B rc _ _ _ _ _ _ _ e (ce_refs e - 1) Hinv Hin).
      * split; [intros _; split; assumption|]. intros _. apply in_or_app. right. left. reflexivity.
      * intros id0 Hne. rewrite in_app_iff. cbn [In]. split; [|intros H; left; exact H].
        intros [H|[H|[]]]; [exact H|congruence].
      * exact Hrc'.
      * exact Hdec.
      * exact Hpos.
    + apply (sinv_set_refs B rc _ _ _ _ _ _ _ e (ce_refs e - 1) Hinv Hin).
      * (* neither on the list before nor eligible now *)
        split.
        -- intros H. apply Hself in H. lia.
        -- intros [Hic Hr]. rewrite Hic, Hr in Ec. discriminate Ec.
      * intros id0 _. reflexivity.
      * exact Hrc'.
      * exact Hdec.
      * exact Hpos.
Qed.

Lemma list_remove_length : forall id l, (length (list_remove id l) <= length l)%nat.
Proof. intros id l. apply filter_length_le. Qed.

Lemma table_find_some : forall s key e, table_find s key = Some e ->
  In e (sh_heap s) /\ ce_in_cache e = true /\ ce_key e = key.
Proof.
  unfold table_find. intros s key e H. apply find_some in H. destruct H as [H1 H2].
  apply andb_true_iff in H2. destruct H2 as [H2 H3]. apply bytes_eqb_eq in H3.
  repeat split; assumption.
Qed.

Lemma table_find_none : forall s key, table_find s key = None ->
  forall e, In e (sh_heap s) -> ce_in_cache e = true -> ce_key e <> key.
Proof.
  unfold table_find. intros s key H e He Hic Hk. pose proof (find_none _ _ H e He) as H1.
  cbv beta in H1. rewrite Hic, (proj2 (bytes_eqb_eq _ _) Hk) in H1. discriminate H1.
Qed.

Lemma table_find_amo : forall s e, amo (sh_heap s) -> In e (sh_heap s) -> ce_in_cache e = true ->
  table_find s (ce_key e) = Some e.
Proof.
  intros s e Ha He Hic. destruct (table_find s (ce_key e)) as [x|] eqn:E.
  - apply table_find_some in E. destruct E as [E1 [E2 E3]]. f_equal. apply Ha; assumption.
  - exfalso. exact (table_find_none _ _ E e He Hic eq_refl).
Qed.

(* the first half of lru_shard_finish: the in_cache flag is cleared *)
Lemma shard_flag_ok : forall B rc cap u lru h nxt e,
  sinvc B rc cap u lru h nxt -> In e h -> ce_in_cache e = true ->
  sinv B (fun y => rc y + if y =? ce_id e then 1 else 0)
    (mkSh cap ((u + two64 - ce_charge e) mod two64) (list_remove (ce_id e) lru)
          (heap_set h (with_in_cache e false)) nxt) /\
  cstep_ok h (heap_set h (with_in_cache e false)) [].
Proof.
  intros B rc cap u lru h nxt e Hinv Hin Hic.
  destruct (si_refs Hinv e Hin) as [Hre Hre1]. rewrite Hic in Hre.
  apply (sinv_set B rc _ cap u _ lru _ h nxt e (with_in_cache e false) Hinv Hin).
  - repeat split.
  - intros H. discriminate H.
  - rewrite in_list_remove. split; [intros [_ H]; contradiction | intros [H _]; discriminate H].
  - intros id0 Hne. rewrite in_list_remove. tauto.
  - intros y Hy. rewrite (proj2 (N.eqb_neq _ _) Hy). apply N.add_0_r.
  - cbn [with_in_cache ce_refs ce_in_cache]. rewrite N.eqb_refl. lia.
  - exact Hre1.
  - intros HB D HD. unfold icc in *. cbn [with_in_cache ce_in_cache]. rewrite Hic in HD.
    rewrite N.add_0_l. apply usage_sub; [apply (si_charge Hinv HB e Hin)|exact HD].
Qed.

(* lru_shard_finish takes the entry off the LRU list (a fact of the model alone: the flag is
   cleared before lru_shard_unref looks at it, so unref does not put the entry back) *)
Lemma shard_finish_lru : forall s e s' f, heap_get (sh_heap s) (ce_id e) = Some e ->
  shard_finish s (Some (ce_id e)) = (s', f) -> sh_lru s' = list_remove (ce_id e) (sh_lru s).
Proof.
  intros [cap u lru h nxt] e s' f Hg H. unfold shard_finish, shard_unref in H.
  cbn [sh_heap sh_lru sh_next sh_usage sh_cap] in *.
  rewrite Hg, (heap_get_set h (ce_id e) e (with_in_cache e false) eq_refl Hg) in H.
  cbn [with_in_cache ce_in_cache andb] in H.
  destruct (ce_refs (with_in_cache e false) - 1 =? 0); injection H as <- _; reflexivity.
Qed.

Lemma shard_finish_ok : forall B rc s e s' f, sinv B rc s -> In e (sh_heap s) -> ce_in_cache e = true ->
  shard_finish s (Some (ce_id e)) = (s', f) ->
  sinv B rc s' /\ cstep_ok (sh_heap s) (sh_heap s') f /\
  (forall x, In x (sh_heap s') -> ce_id x = ce_id e -> ce_in_cache x = false).
Proof.
  intros B rc s e s' f Hinv Hin Hic H.
  unfold shard_finish in H. rewrite (heap_get_in _ e (si_nodup Hinv) Hin) in H.
  destruct (shard_flag_ok B rc _ _ _ _ _ e Hinv Hin Hic) as [Hinv1 Hstep1].
  assert (Hrc1 : 1 <= (fun y => rc y + (if y =? ce_id e then 1 else 0)) (ce_id e))
    by (cbv beta; rewrite N.eqb_refl; lia).
  destruct (shard_unref_ok B _ _ (ce_id e) s' f Hinv1 Hrc1 H) as [Hinv2 Hstep2].
  split; [|split].
  - apply (sinv_ext B _ rc s' ) in Hinv2; [exact Hinv2|].
    intros x. cbv beta. rewrite N.eqb_refl. destruct (N.eqb_spec x (ce_id e)) as [E|E]; [subst x|]; lia.
  - exact (cstep_ok_trans _ _ _ _ _ Hstep1 Hstep2).
  - intros x Hx Hid. destruct (so_sub _ _ _ Hstep2 x Hx) as [y [Hy [[Sid _] Icy]]].
    apply (in_heap_set _ e (with_in_cache e false) _ Hin eq_refl) in Hy. destruct Hy as [Hy|[_ Hne]].
    + subst y. destruct (ce_in_cache x); [discriminate (Icy eq_refl)|reflexivity].
    + exfalso. apply Hne. cbn [with_in_cache ce_id]. congruence.
Qed.

(* lru_shard_erase, which is also one iteration of the evict / prune loops *)
Lemma shard_erase_ok : forall B rc s key s' f, sinv B rc s ->
  shard_finish s (oid (table_find s key)) = (s', f) ->
  sinv B rc s' /\ cstep_ok (sh_heap s) (sh_heap s') f /\
  (amo (sh_heap s) -> forall x, In x (sh_heap s') -> ce_in_cache x = true -> ce_key x <> key).
Proof.
  intros B rc s key s' f Hinv H. destruct (table_find s key) as [e|] eqn:Etf.
  - cbn [oid option_map] in H. destruct (table_find_some _ _ _ Etf) as [Hin [Hic Hk]].
    destruct (shard_finish_ok B rc s e s' f Hinv Hin Hic H) as [Hinv' [Hst Hko]].
    split; [exact Hinv'|]. split; [exact Hst|].
    intros Ha x Hx Hicx Hkx.
    destruct (so_sub _ _ _ Hst x Hx) as [y [Hy [[Sid [Sk _]] Icy]]].
    assert (y = e) by (apply Ha; auto; congruence). subst y.
    rewrite (Hko x Hx (eq_sym Sid)) in Hicx. discriminate Hicx.
  - cbn [oid option_map shard_finish] in H. injection H as <- <-.
    split; [exact Hinv|]. split; [apply cstep_ok_refl|].
    intros _ x Hx Hicx. exact (table_find_none _ _ Etf x Hx Hicx).
Qed.

Lemma evict_loop_ok : forall fuel B rc s s' f, sinv B rc s -> amo (sh_heap s) ->
  evict_loop fuel s = (s', f) ->
  sinv B rc s' /\ cstep_ok (sh_heap s) (sh_heap s') f /\
  ((length (sh_lru s) <= fuel)%nat -> sh_usage s' <= sh_cap s' \/ sh_lru s' = []).
Proof.
  induction fuel as [|fuel IH]; intros B rc s s' f Hinv Hamo H.
  - cbn [evict_loop] in H. injection H as <- <-.
    split; [exact Hinv|]. split; [apply cstep_ok_refl|].
    intros Hl. right. destruct (sh_lru s); [reflexivity|cbn [length] in Hl; lia].
  - cbn [evict_loop] in H.
    destruct (sh_cap s <? sh_usage s) eqn:Ecmp.
    2:{ injection H as <- <-.
        split; [exact Hinv|]. split; [apply cstep_ok_refl|].
        intros _. left. apply N.ltb_ge. exact Ecmp. }
    destruct (sh_lru s) as [|oldid t] eqn:El.
    { injection H as <- <-.
      split; [exact Hinv|]. split; [apply cstep_ok_refl|].
      intros _. right. exact El. }
    destruct (sinv_live _ _ _ oldid Hinv ltac:(rewrite El; left; left; reflexivity)) as [old [Eg [Hold Hoid]]].
    rewrite Eg in H.
    destruct (shard_finish s (oid (table_find s (ce_key old)))) as [s1 f1] eqn:Ef.
    destruct (evict_loop fuel s1) as [s2 f2] eqn:El2.
    injection H as <- <-.
    destruct (shard_erase_ok B rc s _ s1 f1 Hinv Ef) as [Hinv1 [Hst1 _]].
    assert (Hamo1 : amo (sh_heap s1)).
    { eapply amo_sub; [apply (si_nodup Hinv1)|apply (so_sub _ _ _ Hst1)|exact Hamo]. }
    destruct (IH B rc s1 s2 f2 Hinv1 Hamo1 El2) as [Hinv2 [Hst2 Hb2]].
    split; [exact Hinv2|]. split; [eapply cstep_ok_trans; eassumption|].
    intros Hlen. apply Hb2.
    assert (Hic : ce_in_cache old = true).
    { apply (si_lru Hinv old Hold). rewrite Hoid, El. left. reflexivity. }
    (* the entry finished is the head, which leaves the list: the list gets shorter *)
    rewrite (table_find_amo s old Hamo Hold Hic) in Ef. rewrite <- Hoid in Eg.
    rewrite (shard_finish_lru s old s1 f1 Eg Ef), Hoid, El.
    pose proof (list_remove_length oldid t) as L. unfold list_remove in *.
    cbn [filter]. rewrite N.eqb_refl. cbn [negb length] in *. lia.
Qed.

Lemma prune_loop_ok : forall fuel B rc s s' f, sinv B rc s ->
  prune_loop fuel s = (s', f) ->
  sinv B rc s' /\ cstep_ok (sh_heap s) (sh_heap s') f.
Proof.
  induction fuel as [|fuel IH]; intros B rc s s' f Hinv H.
  - cbn [prune_loop] in H. injection H as <- <-.
    split; [exact Hinv|apply cstep_ok_refl].
  - cbn [prune_loop] in H.
    destruct (sh_lru s) as [|oldid t] eqn:El.
    { injection H as <- <-.
      split; [exact Hinv|apply cstep_ok_refl]. }
    destruct (heap_get (sh_heap s) oldid) as [old|] eqn:Eg.
    2:{ injection H as <- <-.
        split; [exact Hinv|apply cstep_ok_refl]. }
    destruct (shard_finish s (oid (table_find s (ce_key old)))) as [s1 f1] eqn:Ef.
    destruct (prune_loop fuel s1) as [s2 f2] eqn:El2.
    injection H as <- <-.
    destruct (shard_erase_ok B rc s _ s1 f1 Hinv Ef) as [Hinv1 [Hst1 _]].
    destruct (IH B rc s1 s2 f2 Hinv1 El2) as [Hinv2 Hst2].
    split; [exact Hinv2|eapply cstep_ok_trans; eassumption].
Qed.

Lemma sinv_snoc : forall (B : Prop) rc cap u lru h nxt key val charge (b : bool),
  sinvc B rc cap u lru h nxt -> (B -> charge < two64) -> (b = true -> cap <> 0) ->
  sinv B (fun y => rc y + if y =? nxt then 1 else 0)
    (mkSh cap (if b then (u + charge) mod two64 else u) lru
          (h ++ [mkCE nxt key val charge (if b then 2 else 1) b]) (nxt + 1)).
Proof.
  intros B rc cap u lru h nxt key val charge b Hinv HBc Hb.
  destruct Hinv as [Hnd Hnext Hlru Hlive Hrefs Hcap0 Hch Hus].
  set (e := mkCE nxt key val charge (if b then 2 else 1) b).
  assert (Hfresh : forall x, In x h -> ce_id x <> nxt).
  { intros x Hx. apply N.lt_neq. exact (Hnext x Hx). }
  assert (Hnone : ~ (In nxt lru \/ rc nxt <> 0)).
  { intros H0. destruct (Hlive nxt H0) as [y [Hy Hyid]]. exact (Hfresh y Hy Hyid). }
  assert (Hrcn : rc nxt = 0) by (destruct (N.eq_dec (rc nxt) 0) as [E|E]; [exact E|destruct (Hnone (or_intror E))]).
  constructor; cbn [sh_heap sh_lru sh_next sh_usage sh_cap].
  - apply nodup_ids_snoc; [exact Hnd|exact Hfresh].
  - intros x Hx. apply in_app_or in Hx. destruct Hx as [Hx|[Hx|[]]].
    + apply N.lt_lt_add_r. exact (Hnext x Hx).
    + subst x. cbn [e ce_id]. apply N.lt_add_pos_r. reflexivity.
  - intros x Hx. apply in_app_or in Hx. destruct Hx as [Hx|[Hx|[]]]; [apply Hlru, Hx|].
    subst x. cbn [e ce_id ce_in_cache ce_refs]. split; [|destruct b; intros [H1 H2]; discriminate].
    intros H0. destruct (Hnone (or_introl H0)).
  - intros id0 H0. cbv beta in H0. destruct (N.eqb_spec id0 nxt) as [E|Hne].
    + exists e. rewrite E. split; [apply in_or_app; right; left; reflexivity|reflexivity].
    + rewrite N.add_0_r in H0. destruct (Hlive id0 H0) as [x [Hx Hxid]]. exists x.
      split; [apply in_or_app; left; exact Hx|exact Hxid].
  - intros x Hx. apply in_app_or in Hx. destruct Hx as [Hx|[Hx|[]]].
    + rewrite (proj2 (N.eqb_neq _ _) (Hfresh x Hx)). rewrite N.add_0_r. apply Hrefs, Hx.
    + subst x. cbn [e ce_id ce_refs ce_in_cache]. rewrite N.eqb_refl, Hrcn.
      destruct b; split; [reflexivity|discriminate|reflexivity|discriminate].
  - intros Hc x Hx. apply in_app_or in Hx. destruct Hx as [Hx|[Hx|[]]].
    + apply Hcap0; assumption.
    + subst x. cbn [e ce_in_cache]. destruct b; [exfalso; exact (Hb eq_refl Hc)|reflexivity].
  - intros HB x Hx. apply in_app_or in Hx. destruct Hx as [Hx|[Hx|[]]].
    + apply Hch; assumption.
    + subst x. cbn [e ce_charge]. apply HBc, HB.
  - intros HB. rewrite icsum_app, icsum_cons, icsum_nil. unfold icc. cbn [e ce_in_cache ce_charge].
    destruct b.
    + rewrite N.add_0_r. apply usage_add. apply Hus, HB.
    + rewrite !N.add_0_r. apply Hus, HB.
Qed.

(* the only in-cache entry under [key], if any, is the one with this id *)
Definition only_new (h : list centry) (key : bytes) (id : N) : Prop :=
  forall x, In x h -> ce_in_cache x = true -> ce_key x = key -> ce_id x = id.

Lemma amo_insert : forall h h2 e nxt, NoDup (map ce_id h2) -> heap_sub (h ++ [e]) h2 -> amo h ->
  only_new h2 (ce_key e) nxt -> amo h2.
Proof.
  intros h h2 e nxt Hnd Hs Ha Hnew x1 x2 H1 H2 I1 I2 K.
  destruct (bytes_eqb (ce_key x1) (ce_key e)) eqn:Ek.
  - apply bytes_eqb_eq in Ek. apply (NoDup_map_inj ce_id h2); auto.
    rewrite (Hnew x1 H1 I1 Ek). symmetry. apply (Hnew x2 H2 I2). congruence.
  - apply bytes_eqb_neq in Ek.
    destruct (Hs x1 H1) as [y1 [Hy1 [[Sid1 [Sk1 _]] Ic1]]].
    destruct (Hs x2 H2) as [y2 [Hy2 [[Sid2 [Sk2 _]] Ic2]]].
    apply in_app_or in Hy1. apply in_app_or in Hy2.
    destruct Hy1 as [Hy1|[Hy1|[]]]; [|subst y1; exfalso; apply Ek; congruence].
    destruct Hy2 as [Hy2|[Hy2|[]]]; [|subst y2; exfalso; apply Ek; congruence].
    assert (y1 = y2) by (apply Ha; auto; congruence). subst y2.
    apply (NoDup_map_inj ce_id h2); auto. congruence.
Qed.

(* lru_shard_insert with the two capacity cases as one: b = the entry is cached *)
Lemma shard_insert_eq : forall s key val charge,
  shard_insert s key val charge =
  let b := 0 <? sh_cap s in
  let e := mkCE (sh_next s) key val charge (if b then 2 else 1) b in
  let s1 := mkSh (sh_cap s) (if b then (sh_usage s + charge) mod two64 else sh_usage s) (sh_lru s)
                 (sh_heap s ++ [e]) (sh_next s + 1) in
  let '(s2, f1) := shard_finish s1 (if b then oid (table_find s key) else None) in
  let '(s3, f2) := evict_loop (length (sh_lru s2)) s2 in
  (s3, sh_next s, f1 ++ f2).
Proof.
  intros s key val charge. unfold shard_insert. destruct (0 <? sh_cap s); [reflexivity|].
  cbn [shard_finish sh_lru]. destruct (evict_loop _ _) as [s3 f2]. reflexivity.
Qed.

Lemma shard_insert_ok : forall B rc s key val charge s' id f,
  sinv B rc s -> amo (sh_heap s) -> (B -> charge < two64) ->
  shard_insert s key val charge = (s', id, f) ->
  id = sh_next s /\
  sinv B (fun y => rc y + if y =? id then 1 else 0) s' /\ amo (sh_heap s') /\
  (exists r b, cstep_ok (sh_heap s ++ [mkCE id key val charge r b]) (sh_heap s') f) /\
  only_new (sh_heap s') key id /\
  (sh_usage s' <= sh_cap s' \/ sh_lru s' = []).
Proof.
  intros B rc s0 key val charge s' id f Hinv Hamo HBc H.
  rewrite shard_insert_eq in H. cbv zeta in H.
  set (nxt := sh_next s0) in *. set (h := sh_heap s0) in *.
  set (b := 0 <? sh_cap s0) in *. set (e := mkCE nxt key val charge (if b then 2 else 1) b) in *.
  set (s1 := mkSh _ _ _ (h ++ [e]) (nxt + 1)) in *.
  assert (Hinv1 : sinv B (fun y => rc y + if y =? nxt then 1 else 0) s1).
  { apply (sinv_snoc B rc _ _ _ _ _ key val charge b Hinv HBc).
    intros Eb Ec. unfold b in Eb. rewrite Ec in Eb. discriminate Eb. }
  destruct (shard_finish s1 _) as [s2 f1] eqn:Ef.
  destruct (evict_loop (length (sh_lru s2)) s2) as [s3 f2] eqn:Eev.
  injection H as <- <- <-.
  (* finishing the old entry under the key leaves the new one alone in cache under it *)
  assert (Hmid : sinv B (fun y => rc y + if y =? nxt then 1 else 0) s2 /\
                 cstep_ok (h ++ [e]) (sh_heap s2) f1 /\ only_new (sh_heap s2) key nxt).
  { destruct b eqn:Eb; [destruct (table_find s0 key) as [eo|] eqn:Etf|].
    - cbn [oid option_map] in Ef. destruct (table_find_some _ _ _ Etf) as [Hin [Hic Hk]].
      assert (Hin1 : In eo (sh_heap s1)) by (apply in_or_app; left; exact Hin).
      destruct (shard_finish_ok B _ s1 eo s2 f1 Hinv1 Hin1 Hic Ef) as [Hinv2 [Hst Hko]].
      split; [exact Hinv2|]. split; [exact Hst|].
      intros x Hx Hicx Hkx. destruct (so_sub _ _ _ Hst x Hx) as [y [Hy [[Sid [Sk _]] Icy]]].
      apply in_app_or in Hy. destruct Hy as [Hy|[Hy|[]]].
      + exfalso. assert (y = eo) by (apply Hamo; auto; congruence). subst y.
        rewrite (Hko x Hx (eq_sym Sid)) in Hicx. discriminate Hicx.
      + subst y. rewrite <- Sid. reflexivity.
    - cbn [oid option_map shard_finish] in Ef. injection Ef as <- <-.
      split; [exact Hinv1|]. split; [apply cstep_ok_refl|].
      intros x Hx Hicx Hkx. apply in_app_or in Hx. destruct Hx as [Hx|[Hx|[]]].
      + exfalso. exact (table_find_none _ _ Etf x Hx Hicx Hkx).
      + subst x. reflexivity.
    - (* capacity 0: the entry is handed out but not cached *)
      cbn [shard_finish] in Ef. injection Ef as <- <-.
      split; [exact Hinv1|]. split; [apply cstep_ok_refl|].
      apply N.ltb_ge in Eb. assert (Hcap : sh_cap s0 = 0) by lia.
      intros x Hx Hicx _. rewrite (si_cap0 Hinv1 Hcap x Hx) in Hicx. discriminate Hicx. }
  destruct Hmid as [Hinv2 [Hst2 Hnew2]].
  pose proof (amo_insert h (sh_heap s2) e nxt (si_nodup Hinv2) (so_sub _ _ _ Hst2) Hamo Hnew2)
    as Hamo2.
  destruct (evict_loop_ok _ B _ s2 s3 f2 Hinv2 Hamo2 Eev) as [Hinv3 [Hst Hb]].
  split; [reflexivity|]. split; [exact Hinv3|]. split.
  { eapply amo_sub; [apply (si_nodup Hinv3)|apply (so_sub _ _ _ Hst)|exact Hamo2]. }
  split; [exists (if b then 2 else 1), b; exact (cstep_ok_trans _ _ _ _ _ Hst2 Hst)|]. split.
  - intros x Hx Hic Hk. destruct (so_sub _ _ _ Hst x Hx) as [y [Hy [[Sid [Sk _]] Icy]]].
    rewrite <- Sid. apply (Hnew2 y Hy (Icy Hic)). congruence.
  - apply Hb. apply le_n.
Qed.

Lemma shard_lookup_ok : forall B rc s key s' r, sinv B rc s -> shard_lookup s key = (s', r) ->
  match r with
  | None => s' = s
  | Some (id, v) =>
      sinv B (fun y => rc y + if y =? id then 1 else 0) s' /\ cstep_ok (sh_heap s) (sh_heap s') []
  end.
Proof.
  intros B rc s key s' r Hinv H. unfold shard_lookup in H.
  destruct (table_find s key) as [e|] eqn:Etf.
  - injection H as <- <-. destruct (table_find_some _ _ _ Etf) as [Hin [Hic _]].
    exact (shard_ref_ok B rc s e Hinv Hin Hic).
  - injection H as <- <-. reflexivity.
Qed.

(* lru_shard_clear when no handle is outstanding *)
Lemma clear_loop_ok : forall ids s s' f, NoDup (map ce_id (sh_heap s)) ->
  (forall e, In e (sh_heap s) -> ce_refs e = 1) ->
  clear_loop ids s = (s', f) ->
  Permutation (map kv f ++ map kv (sh_heap s')) (map kv (sh_heap s)) /\
  (forall x, In x (sh_heap s') -> In x (sh_heap s) /\ ~ In (ce_id x) ids).
Proof.
  induction ids as [|id r IH]; intros [cap u lru h nxt] s' f Hnd Hrefs H;
    cbn [sh_heap sh_lru sh_next sh_usage sh_cap] in *.
  - cbn [clear_loop] in H. injection H as <- <-. cbn [sh_heap map app]. split; [reflexivity|].
    intros x Hx. split; [exact Hx|intros []].
  - cbn [clear_loop] in H. cbn [sh_heap sh_lru sh_next sh_usage sh_cap] in H.
    destruct (heap_get h id) as [e|] eqn:Eg.
    + destruct (heap_get_some _ _ _ Eg) as [Hin Hid].
      set (e' := with_in_cache e false) in *.
      pose proof (heap_get_set h id e e' Hid Eg) as Hg'.
      unfold shard_unref in H. cbn [sh_heap sh_lru sh_next sh_usage sh_cap] in H.
      rewrite Hg' in H. cbn [e' with_in_cache ce_refs] in H. rewrite (Hrefs e Hin) in H.
      change (1 - 1 =? 0) with true in H. cbv iota in H.
      fold e' in H.
      rewrite (heap_del_set h e' id Hid) in H.
      destruct (clear_loop r (mkSh cap u lru (heap_del h id) nxt)) as [s2 f2] eqn:Ecl.
      injection H as <- <-.
      destruct (IH (mkSh cap u lru (heap_del h id) nxt) s2 f2 (heap_del_nodup h id Hnd)
                  ltac:(cbn [sh_heap]; intros x Hx; apply in_heap_del in Hx; apply Hrefs, Hx) Ecl)
        as [Hp Hsub]. cbn [sh_heap] in Hp, Hsub.
      split.
      * cbn [map app]. eapply perm_trans; [apply perm_skip; exact Hp|].
        change (kv e') with (kv e). symmetry. apply kv_del_perm; assumption.
      * intros x Hx. destruct (Hsub x Hx) as [H1 H2]. apply in_heap_del in H1. destruct H1 as [H1 H3].
        split; [exact H1|]. intros [E|E]; [exact (H3 (eq_sym E))|exact (H2 E)].
    + destruct (IH (mkSh cap u lru h nxt) s' f Hnd Hrefs H) as [Hp Hsub]. cbn [sh_heap] in Hp, Hsub.
      split; [exact Hp|]. intros x Hx. destruct (Hsub x Hx) as [H1 H2]. split; [exact H1|].
      intros [E|E]; [exact (heap_get_none _ _ Eg x H1 (eq_sym E))|exact (H2 E)].
Qed.
