(* IteratorProofs.v -- the DB iterator of an engine state (db_iter.c over merger.c
   over the runs of the state) refines a cursor over the live view of the state.

   db_iter.c shows the live view over any internal iterator that behaves as a cursor
   on a sorted run (DbIterProofs), and the merger is one (MergerProofs): the runs of a
   state satisfying inv_b are sorted and pairwise disjoint in internal keys (user key,
   sequence), and their concatenation is all_entries.  That is C07_iterator_thm.
   The view is strictly sorted by user key (live_view_strictly_sorted), so its scripts
   have the sorted-map reading of CursorProofs: C07_iterator_sorted_map_thm.  Last, the
   view and point lookups agree (iterator_agrees_with_get). *)
From LCDB Require Import Base Cursor CursorProofs Engine EngineSpec EngineRead EngineStepsBase
                         EngineStepsInv Merger MergerProofs DbIter LiveViewProofs DbIterProofs.
From Coq Require Import Sorting.Sorted Permutation.
Require Import Lia.
Local Open Scope N_scope.

Section Runs.
Variable ucmp : bytes -> bytes -> comparison.
Context {TO : total_order ucmp}.

Notation icmp := (Engine.icmp ucmp).

Lemma NO_Dj p p' : NO ucmp p p' -> Dj ucmp p p'.
Proof.
  intros H a b Ha Hb E. apply icmp_eq_iff in E. destruct E as [E1 E2].
  pose proof (H a b Ha Hb (proj2 (ueq_iff ucmp _ _) E1)) as L. rewrite E2 in L.
  exact (N.lt_irrefl _ L).
Qed.

Lemma concat_filter_nonempty (lv : list (list file)) :
  concat (map level_entries (filter nonempty_level lv)) = concat (map level_entries lv).
Proof.
  induction lv as [|fs r IH]; [reflexivity|].
  cbn [filter]. destruct fs as [|f fs']; cbn [nonempty_level map concat].
  - exact IH.
  - rewrite IH. reflexivity.
Qed.

Lemma concat_runs_of s : levels s <> [] -> concat (runs_of s) = all_entries s.
Proof.
  intros Hl. unfold runs_of, all_entries. destruct (levels s) as [|l0 rest] eqn:E; [congruence|].
  unfold level_files. cbn [nth skipn map concat]. rewrite !concat_app, concat_filter_nonempty.
  unfold imm_run. destruct (imm s); cbn [concat app]; rewrite ?app_nil_r; reflexivity.
Qed.

Lemma runs_of_ok s : SInv ucmp s -> runs_ok ucmp (runs_of s).
Proof.
  intros HI. apply (runs_ok_FOP ucmp).
  destruct (places_part s nonempty_level) as (rest & HP). fold (runs_of s) in HP.
  split.
  - intros r Hr. apply (sorted_run_Srt ucmp).
    pose proof (places_Srt ucmp s HI) as HS. rewrite Forall_forall in HS. apply HS.
    apply (Permutation_in _ HP), in_or_app. left. exact Hr.
  - pose proof (SInv_recency ucmp s HI) as HD.
    apply (FOP_impl _ (Dj ucmp)) in HD; [|intros x y _ _; apply NO_Dj].
    apply (FOP_perm_sym (Dj ucmp) _ _ (Dj_sym ucmp) (Permutation_sym HP)), FOP_app in HD. apply HD.
Qed.

Lemma levels_ne s : SInv ucmp s -> levels s <> [].
Proof. intros HI E. pose proof (si_len ucmp s HI) as H. rewrite E in H. discriminate. Qed.

Lemma merged_Srt s : SInv ucmp s -> Srt ucmp (sort_entries ucmp (all_entries s)).
Proof.
  intros HI. apply (sorted_run_Srt ucmp). rewrite <- (concat_runs_of s (levels_ne s HI)).
  apply (@merged_sorted ucmp TO). exact (runs_of_ok s HI).
Qed.

End Runs.

Theorem C07_iterator_thm :
  forall ucmp, total_order ucmp -> forall s q script,
  inv_b ucmp s = true ->
  run_script (db_iter_ops ucmp s q) (db_iter_init s) script =
  run_script (view_cursor ucmp (live_view ucmp s q)) None script.
Proof.
  intros ucmp TO s q script Hinv. revert script.
  change (simulates (db_iter_ops ucmp s q) (db_iter_init s)
                    (view_cursor ucmp (live_view ucmp s q)) None).
  apply (inv_b_SInv ucmp) in Hinv. rename Hinv into HI.
  pose proof (@runs_of_ok ucmp TO s HI) as Hok.
  unfold live_view. rewrite <- (concat_runs_of s (levels_ne ucmp s HI)).
  destruct (@merger_is_cursor_bisim ucmp TO _ Hok) as (Rm & Hinit & HB).
  (* db_iter.c over the merger, which behaves as a cursor on the merge *)
  apply (dbiter_shows_view ucmp TO _ (internal_ops ucmp) Rm _ _ q _ (@merged_sorted ucmp TO _ Hok)); [|exact HB|exact Hinit].
  unfold iter_fuel, total_len. rewrite (sort_entries_length ucmp). lia.
Qed.

Print Assumptions C07_iterator_thm.

Section SortedMap.
Variable ucmp : bytes -> bytes -> comparison.
Context {TO : total_order ucmp}.

Lemma kvge_is_ge t y : kvge ucmp t y = is_ge (kvcmp ucmp) t y.
Proof. reflexivity. Qed.

Lemma kvcmp_cut t a b :
  klt ucmp a b = true -> kvcmp ucmp a t = Lt \/ kvcmp ucmp b t = Gt.
Proof.
  unfold klt, kvcmp. intros L. apply (ult_iff ucmp) in L.
  pose proof (cmp_trans3 TO t (fst a) (fst b)) as H3. rewrite L in H3.
  rewrite (cmp_opp TO (fst a) t), (cmp_opp TO (fst b) t).
  revert H3. destruct (ucmp t (fst a)); intros H3; [right|right|left; reflexivity]; rewrite H3; reflexivity.
Qed.

Variable V : list (bytes * bytes).
Hypothesis HsV : SrtBy (klt ucmp) V.

Theorem view_scripts_are_map_scripts script : forall c,
  run_script (view_cursor ucmp V) c script = map_script (kvcmp ucmp) V c script.
Proof.
  exact (cursor_scripts_are_map_scripts (klt ucmp) (kvcmp ucmp) kvcmp_cut V HsV script).
Qed.

End SortedMap.

(* the live view lists every key once, in strictly increasing comparator order *)
Theorem live_view_strictly_sorted :
  forall ucmp, total_order ucmp -> forall s q,
  inv_b ucmp s = true -> SrtBy (klt ucmp) (live_view ucmp s q).
Proof.
  intros ucmp TO s q H. apply (@live_view_sorted ucmp TO), (@merged_Srt ucmp TO), (inv_b_SInv ucmp), H.
Qed.

Theorem C07_iterator_sorted_map_thm :
  forall ucmp, total_order ucmp -> forall s q script,
  inv_b ucmp s = true ->
  run_script (db_iter_ops ucmp s q) (db_iter_init s) script =
  map_script (kvcmp ucmp) (live_view ucmp s q) None script.
Proof.
  intros ucmp TO s q script H. rewrite (C07_iterator_thm ucmp TO s q script H).
  apply (@view_scripts_are_map_scripts ucmp TO), (live_view_strictly_sorted ucmp TO s q H).
Qed.

Print Assumptions C07_iterator_sorted_map_thm.

Theorem iterator_agrees_with_get :
  forall ucmp, total_order ucmp -> forall s k q v,
  inv_b ucmp s = true ->
  ((exists k', ucmp k' k = Eq /\ In (k', v) (live_view ucmp s q)) <->
   visible (get ucmp s k q) = Some v).
Proof.
  (* both sides name the newest entry of the key with sequence <= q: live_newest, best *)
  intros ucmp TO s k q v Hinv.
  rewrite (get_correct ucmp TO s k q Hinv).
  pose proof (proj1 (inv_b_SInv ucmp s) Hinv) as HI.
  pose proof (@merged_Srt ucmp TO s HI) as HsL.
  pose proof (sort_entries_In ucmp (all_entries s)) as HL.
  unfold live_view. split.
  - intros (k' & Ek & Hin). apply (live_newest ucmp q _ HsL) in Hin.
    destruct Hin as (e & Hb & Te & Hx). injection Hx as -> ->.
    rewrite (best_is ucmp (all_entries s) k q (Some e) (SInv_KD ucmp s HI)).
    + cbn [result_of]. unfold result_of_entry. rewrite Te. reflexivity.
    + exact (is_best_ext ucmp _ _ _ _ q _ HL Ek Hb).
  - intros Hvis. pose proof (best_weak ucmp (all_entries s) k q) as Hw.
    destruct (best ucmp (all_entries s) k q) as [e|]; [|discriminate].
    cbn [result_of] in Hvis. unfold result_of_entry in Hvis.
    destruct (et e) eqn:Te; [|discriminate]. injection Hvis as <-.
    pose proof (proj1 (ueq_iff ucmp _ _) (proj1 (proj1 (matches_iff ucmp _ _ _) (proj1 (proj2 Hw))))) as Hk.
    exists (ek e). split; [exact Hk|]. apply (live_newest ucmp q _ HsL). exists e. split; [|auto].
    exact (is_best_ext ucmp _ _ _ _ q _ (fun x => iff_sym (HL x)) (cmp_eq_sym TO _ _ Hk) Hw).
Qed.

Print Assumptions iterator_agrees_with_get.
