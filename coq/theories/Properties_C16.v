(* Properties_C16.v -- the theorems that stand for property C16; their proofs are in
   BlockProofs / BlockSeekProofs / BlockCursorProofs, FilterProofs / FilterBlockProofs,
   SnappyProofs, TableProofs / TableBuildProofs / TableIndexProofs / TableGetProofs. *)
From LCDB Require Import Base Varint Crc32c Block Trie Filter Snappy TableFormat.
From LCDB Require Import BlockProofs BlockSeekProofs FilterProofs FilterBlockProofs SnappyProofs TableProofs TableBuildProofs.
From LCDB Require Import BlockCursorProofs TableIndexProofs TableGetProofs.
Local Open Scope N_scope.

(* (a) filters never reject a present key: for ANY hash function *)
Theorem C16_bloom_no_false_negative :
  forall (hashf : bytes -> N) (bits : N) (keys : list bytes) (key : bytes),
  In key keys ->
  bloom_match_with hashf (bloom_build_with hashf bits keys) key = Ok true.
Proof. exact bloom_no_false_negative. Qed.
Print Assumptions C16_bloom_no_false_negative.

(* (a) ... and for the filter block: a key added under a block offset matches at that
   offset, for any policy without false negatives *)
Theorem C16_filter_block_no_false_negative :
  forall (fbuild : list bytes -> bytes) (fmatch : bytes -> bytes -> res bool),
  (forall keys key, In key keys -> fmatch (fbuild keys) key = Ok true) ->
  forall (groups : list (N * list bytes)) (off : N) (ks : list bytes) (k : bytes),
  groups_sorted 0 groups ->
  nlen (filter_block_build fbuild groups) < 4294967296 ->
  In (off, ks) groups -> In k ks ->
  filter_block_matches fmatch (filter_block_build fbuild groups) off k = Ok true.
Proof. exact filter_block_no_false_negative. Qed.
Print Assumptions C16_filter_block_no_false_negative.

(* the two policies lcdb tables use have no false negatives *)
Theorem C16_lcdb_policies_sound :
  (forall bits keys key, In key keys -> user_fmatch (user_fbuild bits keys) key = Ok true) /\
  (forall bits keys key, In key keys -> internal_fmatch (internal_fbuild bits keys) key = Ok true).
Proof. exact (conj user_policy_sound internal_policy_sound). Qed.
Print Assumptions C16_lcdb_policies_sound.

(* (b) decoding a built block returns exactly the entries (no sortedness needed) *)
Theorem C16_block_entries_build :
  forall (interval : N) (es : list entry),
  1 <= interval -> wf_entries es ->
  block_entries (block_build interval es) = Some es.
Proof. exact block_entries_build. Qed.
Print Assumptions C16_block_entries_build.

(* (d) memory safety / totality of the decoders on ALL byte strings *)
Theorem C16_block_iterator_safe :
  forall (cmp : bytes -> bytes -> comparison) (is_internal : bool) (b : bytes) (ops : list iop),
  block_run cmp is_internal b ops <> OOB.
Proof. exact block_run_safe. Qed.
Print Assumptions C16_block_iterator_safe.

Theorem C16_filter_reader_safe :
  forall (fmatch : bytes -> bytes -> res bool),
  (forall f k, fmatch f k <> OOB) ->
  forall (blockbytes : bytes) (off : N) (key : bytes),
  filter_block_matches fmatch blockbytes off key <> OOB.
Proof. exact filter_block_matches_safe. Qed.
Print Assumptions C16_filter_reader_safe.

Theorem C16_bloom_match_safe :
  forall (hashf : bytes -> N) (filter key : bytes), bloom_match_with hashf filter key <> OOB.
Proof. exact bloom_match_safe. Qed.
Print Assumptions C16_bloom_match_safe.

Theorem C16_snappy_decode_safe : forall x : bytes, snappy_decode x <> OOB.
Proof. exact snappy_decode_safe. Qed.
Print Assumptions C16_snappy_decode_safe.

Theorem C16_footer_decode_safe : forall l : bytes, footer_decode l <> OOB.
Proof. exact footer_decode_safe. Qed.
Print Assumptions C16_footer_decode_safe.

Theorem C16_read_block_safe :
  forall (file : bytes) (verify : bool) (h : handle), read_block file (nlen file) verify h <> OOB.
Proof. exact read_block_safe. Qed.
Print Assumptions C16_read_block_safe.

Theorem C16_table_iterator_safe :
  forall (cmp : bytes -> bytes -> comparison) (is_internal has_filter paranoid verify : bool)
         (file : bytes) (ops : list iop),
  table_run cmp is_internal has_filter paranoid verify file ops <> OOB.
Proof. exact table_iterator_safe. Qed.
Print Assumptions C16_table_iterator_safe.

Theorem C16_table_get_safe :
  forall (cmp : bytes -> bytes -> comparison) (is_internal has_filter : bool)
         (fmatch : bytes -> bytes -> res bool),
  (forall f k, fmatch f k <> OOB) ->
  forall (paranoid verify : bool) (file k : bytes),
  table_lookup cmp is_internal has_filter fmatch paranoid verify file k <> OOB.
Proof. exact table_lookup_safe. Qed.
Print Assumptions C16_table_get_safe.

(* (e) a built table yields exactly its entries, in order, through the linear reader:
   any block size, restart interval, filter policy, checksum options; any compression
   function that the Snappy decoder inverts; both lcdb comparators.
   [wf_bytes file = true], here and below, is a premise about the builder's OUTPUT, derived nowhere
   from es, compress and the policy: a trailer's CRC is bounded, so that unmasking returns it, only
   over cells below 256 (TableBuildProofs.block_trailer_read) *)
Theorem C16_table_entries_build_bytewise :
  forall bits compress block_size interval compression paranoid verify es,
  (compression = 1 -> forall raw, nlen (compress raw) < nlen raw - nlen raw / 8 ->
     snappy_decode_size (compress raw) <> None /\ snappy_decode (compress raw) = Ok (Some raw)) ->
  Forall (fun e => nlen (fst e) < 4294967296 /\ nlen (snd e) < 4294967296) es ->
  nlen es + 1 < 4294967296 ->
  let file := table_build_i 0 bits compress block_size interval compression es in
  wf_bytes file = true -> nlen file < 18446744073709551616 ->
  table_entries_i 0 bits paranoid verify file = Ok (inr es).
Proof.
  intros bits compress block_size interval compression paranoid verify es Hc Hes Hn file Hwf Hlen.
  pose proof bytewise_key_hooks as K.
  exact (table_entries_build false tbl_sep tbl_succ (inst_has_filter bits) (inst_fbuild 0 bits)
           compress block_size interval compression Hc dkey_bytewise (kh_dkey K) (kh_sepok K) (kh_succok K)
           paranoid verify es (eok_bytewise es Hes) Hn Hwf Hlen).
Qed.
Print Assumptions C16_table_entries_build_bytewise.

Theorem C16_table_entries_build_internal :
  forall bits compress block_size interval compression paranoid verify es,
  (compression = 1 -> forall raw, nlen (compress raw) < nlen raw - nlen raw / 8 ->
     snappy_decode_size (compress raw) <> None /\ snappy_decode (compress raw) = Ok (Some raw)) ->
  Forall (fun e => nlen (fst e) < 4294967296 /\ 8 <= nlen (fst e) /\ nlen (snd e) < 4294967296) es ->
  nlen es + 1 < 4294967296 ->
  let file := table_build_i 1 bits compress block_size interval compression es in
  wf_bytes file = true -> nlen file < 18446744073709551616 ->
  table_entries_i 1 bits paranoid verify file = Ok (inr es).
Proof.
  intros bits compress block_size interval compression paranoid verify es Hc Hes Hn file Hwf Hlen.
  pose proof internal_key_hooks as K.
  exact (table_entries_build true tbl_isep tbl_isucc (inst_has_filter bits) (inst_fbuild 1 bits)
           compress block_size interval compression Hc dkey_internal (kh_dkey K) (kh_sepok K) (kh_succok K)
           paranoid verify es (eok_internal es Hes) Hn Hwf Hlen).
Qed.
Print Assumptions C16_table_entries_build_internal.

(* (f) Snappy: decoding the serialisation of any valid element list (literals with
   every length encoding, copies with 1-, 2- and 4-byte offsets, overlapping or not)
   yields its expansion; the memcpy path of the C decoder equals its byte loop *)
Theorem C16_snappy_decode_ops :
  forall ops : list sop,
  sops_ok 0 ops -> sops_len ops < 2147483648 ->
  snappy_decode (varint32_write (sops_len ops) ++ sops_bytes ops)
  = Ok (Some (rev (sops_apply ops []))).
Proof. exact snappy_decode_ops. Qed.
Print Assumptions C16_snappy_decode_ops.

(* (c, forward half) on a built block the iterator state machine enumerates exactly
   the entries: First, then Next repeatedly; the Next after the last entry
   invalidates the iterator with status OK *)
Theorem C16_block_iter_forward :
  forall (cmp : bytes -> bytes -> comparison) (isint : bool) (interval : N) (es : list entry),
  wf_entries es -> keys_ge8 isint es ->
  block_run cmp isint (block_build interval es) (IFirst :: repeat INext (length es))
  = Ok (map Some es ++ [None], SOk).
Proof. exact block_iter_forward. Qed.
Print Assumptions C16_block_iter_forward.

(* (c) on a built block whose keys are strictly sorted under cmp, the block iterator
   simulates a cursor over the entry list for ARBITRARY scripts: the observations are
   those of the reference cursor ref_run (First / Last / Next / Prev move as in the
   list; Seek t lands on the first entry whose key is not below t, see ref_seek), and
   the final status is OK *)
Theorem C16_block_cursor_sim :
  forall (cmp : bytes -> bytes -> comparison) (isint : bool) (I : N) (es : list entry) (ops : list iop),
  wf_entries es -> keys_ge8 isint es ->
  nlen (block_build I es) < 4294967296 ->
  (forall pre k v mid k' v' post, es = pre ++ (k, v) :: mid ++ (k', v') :: post -> cmp k k' = Lt) ->
  (forall x y z, cmp x y = Lt -> cmp y z = Lt -> cmp x z = Lt) ->
  (forall x y z, cmp x y = Lt -> cmp y z = Eq -> cmp x z = Lt) ->
  Forall (op_ok isint) ops ->
  block_run cmp isint (block_build I es) ops = Ok (ref_run cmp es ops None, SOk).
Proof. exact block_cursor_sim. Qed.
Print Assumptions C16_block_cursor_sim.

(* the specification of Seek used above: the split of the list at the first key that
   is not below the target *)
Theorem C16_seek_spec :
  forall (cmp : bytes -> bytes -> comparison) (t : bytes) (l : list entry),
  l = fst (split_lt cmp t l) ++ snd (split_lt cmp t l) /\
  Forall (fun e => cmp (fst e) t = Lt) (fst (split_lt cmp t l)) /\
  match snd (split_lt cmp t l) with [] => True | e :: _ => cmp (fst e) t <> Lt end.
Proof. exact split_lt_spec. Qed.
Print Assumptions C16_seek_spec.

Theorem C16_block_cursor_sim_bytewise :
  forall (I : N) (es : list entry) (ops : list iop),
  wf_entries es ->
  nlen (block_build I es) < 4294967296 ->
  (forall pre k v mid k' v' post, es = pre ++ (k, v) :: mid ++ (k', v') :: post -> bytes_compare k k' = Lt) ->
  block_run bytes_compare false (block_build I es) ops = Ok (ref_run bytes_compare es ops None, SOk).
Proof. exact block_cursor_sim_bytewise. Qed.
Print Assumptions C16_block_cursor_sim_bytewise.

Theorem C16_block_cursor_sim_internal :
  forall (I : N) (es : list entry) (ops : list iop),
  wf_entries es -> keys_ge8 true es ->
  nlen (block_build I es) < 4294967296 ->
  (forall pre k v mid k' v' post, es = pre ++ (k, v) :: mid ++ (k', v') :: post -> tbl_ikey_compare k k' = Lt) ->
  Forall (op_ok true) ops ->
  block_run tbl_ikey_compare true (block_build I es) ops = Ok (ref_run tbl_ikey_compare es ops None, SOk).
Proof. exact block_cursor_sim_internal. Qed.
Print Assumptions C16_block_cursor_sim_internal.

(* (g) ldb_table_internal_get and the two-level iterator on built tables (proofs:
   BlockCursorProofs / TableIndexProofs / TableGetProofs). Any block size, restart
   interval, filter bits (0 = no filter) and checksum options; both lcdb comparators; any
   compression function that the Snappy decoder inverts (and that only shrinks blocks below
   4 GiB); table files below 4 GiB. *)

(* the crux: in the index block of a built table the key stored for data block i is
   >= every key of block i and < every key of all later blocks (index_rel), for any
   comparator whose shortest_separator / short_successor satisfy their contracts ... *)
Theorem C16_index_separators :
  forall (cmp : bytes -> bytes -> comparison), cmp_order cmp ->
  forall (sep : bytes -> bytes -> bytes) (succ : bytes -> bytes),
  sep_contract cmp sep -> succ_contract cmp succ ->
  forall (blocks : list (handle * list entry)),
  Forall (fun fb => snd fb <> []) blocks ->
  (forall pre k v mid k' v' post,
     concat (map snd blocks) = pre ++ (k, v) :: mid ++ (k', v') :: post -> cmp k k' = Lt) ->
  index_rel cmp (index_of sep succ blocks None) blocks.
Proof.
  intros cmp Hord sep succ Hsep Hsucc blocks Hne Hs.
  apply (index_of_rel cmp Hord sep succ Hsep Hsucc blocks None Hne Hs). intros k H; discriminate.
Qed.
Print Assumptions C16_index_separators.

(* ... which the two lcdb comparators do (TableFormat's own copies of the hooks) *)
Theorem C16_table_comparators :
  (cmp_order bytes_compare /\ sep_contract bytes_compare tbl_sep /\ succ_contract bytes_compare tbl_succ) /\
  (cmp_order tbl_ikey_compare /\ sep_contract tbl_ikey_compare tbl_isep /\ succ_contract tbl_ikey_compare tbl_isucc).
Proof.
  exact (conj (conj bytes_order (conj bytes_sep_contract bytes_succ_contract))
              (conj ikey_order (conj ikey_sep_contract ikey_succ_contract))).
Qed.
Print Assumptions C16_table_comparators.

(* table_open of a built table succeeds; its data blocks are the entry list cut into
   non-empty pieces at increasing offsets, its index block is index_of, its filter never
   rejects a key of a block at the offset of that block *)
Theorem C16_table_build_open :
  forall sep succ has_filter fbuild fmatch compress block_size interval compression,
  (compression = 1 -> forall raw, nlen (compress raw) < nlen raw - nlen raw / 8 ->
     snappy_decode_size (compress raw) <> None /\ snappy_decode (compress raw) = Ok (Some raw) /\
     nlen raw < 4294967296) ->
  (forall keys key, In key keys -> fmatch (fbuild keys) key = Ok true) ->
  forall paranoid es,
  let file := table_build sep succ has_filter fbuild compress block_size interval compression es in
  wf_bytes file = true -> nlen file < 4294967296 ->
  exists t blocks, table_open has_filter paranoid file = Ok (inr t) /\
                   built_table sep succ has_filter fmatch interval file es t blocks.
Proof. exact table_build_open. Qed.
Print Assumptions C16_table_build_open.

(* any key: the call succeeds with status OK and hands over either nothing or THE
   successor of the key in the entry list (the first entry whose key is not below the
   target, see C16_seek_spec) -- never another entry, never an error; nothing at all
   when every key of the table is below the target.  ("Nothing" although a successor
   exists happens when the filter rejects the key, or when the key lies between the
   last key of a data block and the shortened separator stored for that block.) *)
Theorem C16_table_get_absent_bytewise :
  forall bits compress block_size interval compression paranoid verify es,
  (compression = 1 -> forall raw, nlen (compress raw) < nlen raw - nlen raw / 8 ->
     snappy_decode_size (compress raw) <> None /\ snappy_decode (compress raw) = Ok (Some raw) /\
     nlen raw < 4294967296) ->
  Forall (fun e => nlen (fst e) < 4294967296 /\ nlen (snd e) < 4294967296) es ->
  nlen es + 1 < 4294967296 ->
  (forall pre k v mid k' v' post, es = pre ++ (k, v) :: mid ++ (k', v') :: post -> bytes_compare k k' = Lt) ->
  let file := table_build_i 0 bits compress block_size interval compression es in
  wf_bytes file = true -> nlen file < 4294967296 ->
  forall k,
  exists r, table_lookup (inst_cmp 0) (inst_internal 0) (inst_has_filter bits) (inst_fmatch 0)
                         paranoid verify file k = Ok (inr (r, SOk)) /\
    (r = None \/ r = zip_obs (ref_seek bytes_compare es k)) /\
    (forall v, In (k, v) es -> r = Some (k, v)) /\
    (Forall (fun e => bytes_compare (fst e) k = Lt) es -> r = None).
Proof.
  intros bits compress block_size interval compression paranoid verify es Hc Hes Hn Hs file Hwf Hlen k.
  apply (table_lookup_build bytes_compare false tbl_sep tbl_succ (inst_has_filter bits) (user_fbuild bits)
           user_fmatch compress block_size interval compression Hc (user_policy_sound bits) dkey_bytewise bytewise_key_hooks user_fmatch_safe
           paranoid verify es); auto.
  - apply eok_bytewise. exact Hes.
  - intros H; discriminate.
Qed.
Print Assumptions C16_table_get_absent_bytewise.

Theorem C16_table_get_absent_internal :
  forall bits compress block_size interval compression paranoid verify es,
  (compression = 1 -> forall raw, nlen (compress raw) < nlen raw - nlen raw / 8 ->
     snappy_decode_size (compress raw) <> None /\ snappy_decode (compress raw) = Ok (Some raw) /\
     nlen raw < 4294967296) ->
  Forall (fun e => nlen (fst e) < 4294967296 /\ 8 <= nlen (fst e) /\ nlen (snd e) < 4294967296) es ->
  nlen es + 1 < 4294967296 ->
  (forall pre k v mid k' v' post, es = pre ++ (k, v) :: mid ++ (k', v') :: post -> tbl_ikey_compare k k' = Lt) ->
  let file := table_build_i 1 bits compress block_size interval compression es in
  wf_bytes file = true -> nlen file < 4294967296 ->
  forall k, 8 <= nlen k ->
  exists r, table_lookup (inst_cmp 1) (inst_internal 1) (inst_has_filter bits) (inst_fmatch 1)
                         paranoid verify file k = Ok (inr (r, SOk)) /\
    (r = None \/ r = zip_obs (ref_seek tbl_ikey_compare es k)) /\
    (forall v, In (k, v) es -> r = Some (k, v)) /\
    (Forall (fun e => tbl_ikey_compare (fst e) k = Lt) es -> r = None).
Proof.
  intros bits compress block_size interval compression paranoid verify es Hc Hes Hn Hs file Hwf Hlen k Hk.
  apply (table_lookup_build tbl_ikey_compare true tbl_isep tbl_isucc (inst_has_filter bits) (internal_fbuild bits)
           internal_fmatch compress block_size interval compression Hc (internal_policy_sound bits) dkey_internal internal_key_hooks internal_fmatch_safe
           paranoid verify es); auto.
  apply eok_internal. exact Hes.
Qed.
Print Assumptions C16_table_get_absent_internal.

(* a present key is found, with its value (whatever the filter says about other keys) *)
Theorem C16_table_get_present_bytewise :
  forall bits compress block_size interval compression paranoid verify es k v,
  (compression = 1 -> forall raw, nlen (compress raw) < nlen raw - nlen raw / 8 ->
     snappy_decode_size (compress raw) <> None /\ snappy_decode (compress raw) = Ok (Some raw) /\
     nlen raw < 4294967296) ->
  Forall (fun e => nlen (fst e) < 4294967296 /\ nlen (snd e) < 4294967296) es ->
  nlen es + 1 < 4294967296 ->
  (forall pre k v mid k' v' post, es = pre ++ (k, v) :: mid ++ (k', v') :: post -> bytes_compare k k' = Lt) ->
  let file := table_build_i 0 bits compress block_size interval compression es in
  wf_bytes file = true -> nlen file < 4294967296 ->
  In (k, v) es ->
  table_lookup (inst_cmp 0) (inst_internal 0) (inst_has_filter bits) (inst_fmatch 0) paranoid verify file k
  = Ok (inr (Some (k, v), SOk)).
Proof.
  intros bits compress block_size interval compression paranoid verify es k v Hc Hes Hn Hs file Hwf Hlen Hin.
  destruct (C16_table_get_absent_bytewise bits compress block_size interval compression paranoid verify es
              Hc Hes Hn Hs Hwf Hlen k) as (r & Hget & _ & Hp & _).
  fold file in Hget. rewrite Hget, (Hp v Hin). reflexivity.
Qed.
Print Assumptions C16_table_get_present_bytewise.

Theorem C16_table_get_present_internal :
  forall bits compress block_size interval compression paranoid verify es k v,
  (compression = 1 -> forall raw, nlen (compress raw) < nlen raw - nlen raw / 8 ->
     snappy_decode_size (compress raw) <> None /\ snappy_decode (compress raw) = Ok (Some raw) /\
     nlen raw < 4294967296) ->
  Forall (fun e => nlen (fst e) < 4294967296 /\ 8 <= nlen (fst e) /\ nlen (snd e) < 4294967296) es ->
  nlen es + 1 < 4294967296 ->
  (forall pre k v mid k' v' post, es = pre ++ (k, v) :: mid ++ (k', v') :: post -> tbl_ikey_compare k k' = Lt) ->
  let file := table_build_i 1 bits compress block_size interval compression es in
  wf_bytes file = true -> nlen file < 4294967296 ->
  In (k, v) es ->
  table_lookup (inst_cmp 1) (inst_internal 1) (inst_has_filter bits) (inst_fmatch 1) paranoid verify file k
  = Ok (inr (Some (k, v), SOk)).
Proof.
  intros bits compress block_size interval compression paranoid verify es k v Hc Hes Hn Hs file Hwf Hlen Hin.
  assert (Hk : 8 <= nlen k).
  { rewrite Forall_forall in Hes. destruct (Hes (k, v) Hin) as (_ & A & _). exact A. }
  destruct (C16_table_get_absent_internal bits compress block_size interval compression paranoid verify es
              Hc Hes Hn Hs Hwf Hlen k Hk) as (r & Hget & _ & Hp & _).
  fold file in Hget. rewrite Hget, (Hp v Hin). reflexivity.
Qed.
Print Assumptions C16_table_get_present_internal.

(* the way lcdb uses it: a lookup key (user key, snapshot sequence, SEEK tag) is never
   itself in the table; if its successor in the table carries the same user key, that
   successor is what the call hands over -- neither the filter (keyed by user keys) nor
   the shortened index separators hide it *)
Theorem C16_table_get_user_key_internal :
  forall bits compress block_size interval compression paranoid verify es,
  (compression = 1 -> forall raw, nlen (compress raw) < nlen raw - nlen raw / 8 ->
     snappy_decode_size (compress raw) <> None /\ snappy_decode (compress raw) = Ok (Some raw) /\
     nlen raw < 4294967296) ->
  Forall (fun e => nlen (fst e) < 4294967296 /\ 8 <= nlen (fst e) /\ nlen (snd e) < 4294967296) es ->
  nlen es + 1 < 4294967296 ->
  (forall pre k v mid k' v' post, es = pre ++ (k, v) :: mid ++ (k', v') :: post -> tbl_ikey_compare k k' = Lt) ->
  let file := table_build_i 1 bits compress block_size interval compression es in
  wf_bytes file = true -> nlen file < 4294967296 ->
  forall k p e q, 8 <= nlen k ->
  ref_seek tbl_ikey_compare es k = Some (p, e, q) ->
  tbl_user_key (fst e) = tbl_user_key k ->
  table_lookup (inst_cmp 1) (inst_internal 1) (inst_has_filter bits) (inst_fmatch 1)
               paranoid verify file k = Ok (inr (Some e, SOk)).
Proof.
  intros bits compress block_size interval compression paranoid verify es Hc Hes Hn Hs file Hwf Hlen k p e q Hk Eg Hu.
  apply (table_lookup_user_build tbl_ikey_compare true tbl_isep tbl_isucc (inst_has_filter bits) (internal_fbuild bits)
           internal_fmatch compress block_size interval compression Hc (internal_policy_sound bits) dkey_internal internal_key_hooks internal_fmatch_safe
           tbl_user_key internal_fmatch_user ikey_sep_user
           paranoid verify es) with (p := p) (q := q); auto.
  apply eok_internal. exact Hes.
Qed.
Print Assumptions C16_table_get_user_key_internal.

(* the two-level iterator of a built table simulates a cursor over the entry list for
   ARBITRARY scripts (Next / Prev issued when valid, skipped otherwise, as the driver
   does): observations = those of the reference cursor over the whole list (Seek lands on
   the first entry at or after the target, block boundaries are crossed in both
   directions, nothing is skipped), final status OK *)
Theorem C16_table_iterator_is_cursor_bytewise :
  forall bits compress block_size interval compression paranoid verify es ops,
  (compression = 1 -> forall raw, nlen (compress raw) < nlen raw - nlen raw / 8 ->
     snappy_decode_size (compress raw) <> None /\ snappy_decode (compress raw) = Ok (Some raw) /\
     nlen raw < 4294967296) ->
  Forall (fun e => nlen (fst e) < 4294967296 /\ nlen (snd e) < 4294967296) es ->
  nlen es + 1 < 4294967296 ->
  (forall pre k v mid k' v' post, es = pre ++ (k, v) :: mid ++ (k', v') :: post -> bytes_compare k k' = Lt) ->
  let file := table_build_i 0 bits compress block_size interval compression es in
  wf_bytes file = true -> nlen file < 4294967296 ->
  table_run_i 0 bits paranoid verify file ops = Ok (inr (ref_run bytes_compare es ops None, SOk)).
Proof.
  intros bits compress block_size interval compression paranoid verify es ops Hc Hes Hn Hs file Hwf Hlen.
  apply (table_run_build bytes_compare false tbl_sep tbl_succ (inst_has_filter bits) (user_fbuild bits)
           user_fmatch compress block_size interval compression Hc (user_policy_sound bits) dkey_bytewise bytewise_key_hooks
           paranoid verify es ops); auto.
  - apply eok_bytewise. exact Hes.
  - apply op_ok_bytewise.
Qed.
Print Assumptions C16_table_iterator_is_cursor_bytewise.

Theorem C16_table_iterator_is_cursor_internal :
  forall bits compress block_size interval compression paranoid verify es ops,
  (compression = 1 -> forall raw, nlen (compress raw) < nlen raw - nlen raw / 8 ->
     snappy_decode_size (compress raw) <> None /\ snappy_decode (compress raw) = Ok (Some raw) /\
     nlen raw < 4294967296) ->
  Forall (fun e => nlen (fst e) < 4294967296 /\ 8 <= nlen (fst e) /\ nlen (snd e) < 4294967296) es ->
  nlen es + 1 < 4294967296 ->
  (forall pre k v mid k' v' post, es = pre ++ (k, v) :: mid ++ (k', v') :: post -> tbl_ikey_compare k k' = Lt) ->
  let file := table_build_i 1 bits compress block_size interval compression es in
  wf_bytes file = true -> nlen file < 4294967296 ->
  Forall (op_ok true) ops ->
  table_run_i 1 bits paranoid verify file ops = Ok (inr (ref_run tbl_ikey_compare es ops None, SOk)).
Proof.
  intros bits compress block_size interval compression paranoid verify es ops Hc Hes Hn Hs file Hwf Hlen Hops.
  apply (table_run_build tbl_ikey_compare true tbl_isep tbl_isucc (inst_has_filter bits) (internal_fbuild bits)
           internal_fmatch compress block_size interval compression Hc (internal_policy_sound bits) dkey_internal internal_key_hooks
           paranoid verify es ops); auto.
  apply eok_internal. exact Hes.
Qed.
Print Assumptions C16_table_iterator_is_cursor_internal.

(* ... for any comparator / separator / filter policy satisfying the contracts *)
Theorem C16_table_iterator_is_cursor :
  forall cmp isint sep succ has_filter fbuild fmatch compress block_size interval compression,
  (compression = 1 -> forall raw, nlen (compress raw) < nlen raw - nlen raw / 8 ->
     snappy_decode_size (compress raw) <> None /\ snappy_decode (compress raw) = Ok (Some raw) /\
     nlen raw < 4294967296) ->
  (forall keys key, In key keys -> fmatch (fbuild keys) key = Ok true) ->
  cmp_order cmp -> sep_contract cmp sep -> succ_contract cmp succ ->
  forall dkey : bytes -> Prop,
  (forall k, dkey k -> ikeyok isint k) ->
  (forall a b, dkey a -> ikeyok isint (sep a b)) ->
  (forall a, dkey a -> ikeyok isint (succ a)) ->
  forall paranoid verify es ops,
  Forall (fun e => wf_entry e /\ dkey (fst e)) es -> nlen es + 1 < 4294967296 ->
  (forall pre k v mid k' v' post, es = pre ++ (k, v) :: mid ++ (k', v') :: post -> cmp k k' = Lt) ->
  let file := table_build sep succ has_filter fbuild compress block_size interval compression es in
  wf_bytes file = true -> nlen file < 4294967296 ->
  Forall (op_ok isint) ops ->
  table_run cmp isint has_filter paranoid verify file ops = Ok (inr (ref_run cmp es ops None, SOk)).
Proof.
  intros cmp isint sep succ has_filter fbuild fmatch compress block_size interval compression
         Hcompress Hpolicy Hord Hsep Hsucc dkey Hdkey Hsepok Hsuccok.
  exact (table_run_build cmp isint sep succ has_filter fbuild fmatch compress block_size interval compression
           Hcompress Hpolicy dkey (Build_key_hooks dkey Hord Hsep Hsucc Hdkey Hsepok Hsuccok)).
Qed.
Print Assumptions C16_table_iterator_is_cursor.
