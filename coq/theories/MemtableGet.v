(* MemtableGet.v -- the memtable abstraction of the engine model is justified:
   a memtable (Memtable.v: the skiplist of Skiplist.v over encoded entries) REPRESENTS a run
   of entries ([mt_repr]) when it is a well-formed skiplist whose keys, in order, are the
   encodings of the run.  The empty memtable represents []; ldb_memtable_add with ANY node
   height takes a representation of [run] to one of [Engine.insert_sorted e run]; [mem_run adds]
   folds insert_sorted over the adds from [], as Engine.do_write folds it over [batch_entries]
   into [mem s] (read off the two definitions: no lemma here mentions do_write); on a memtable that
   represents [run], the replica of ldb_memtable_get equals Engine.get_in_run on [run] and the
   level-0 contents are the encodings of [run].  The skiplist side is SkiplistInv.insert_wf,
   SkiplistProofs.wf_seek and wf_contents; the encoding side is MemtableProofs. *)
From LCDB Require Import Base Engine EngineSpec EngineStepsBase Skiplist SkiplistSpec SkiplistInv SkiplistProofs
     Memtable MemtableProofs.
Local Open Scope N_scope.

Section Repr.
Variable ucmp : bytes -> bytes -> comparison.
Hypothesis TO : total_order ucmp.

Inductive mt_repr (mt : memtable) (run : list entry) : Prop :=
  MtRepr order : wf bytes (mt_compare ucmp) mt order -> keys_of mt order = map enc_entry run ->
                 Forall entry_ok run -> mt_repr mt run.

Lemma repr_empty : mt_repr sl_empty [].
Proof. exact (MtRepr sl_empty [] [] (wf_empty bytes (mt_compare ucmp)) eq_refl (Forall_nil _)). Qed.

(* one ldb_memtable_add; the REQUIRES of ldb_skiplist_insert (nothing equal in the list) is
   what [idistinct] gives: no entry of the run has this user key and sequence number *)
Lemma repr_add mt run h a : mt_repr mt run -> add_ok a -> (1 <= h <= MAX_HEIGHT)%nat ->
  Forall (idistinct ucmp (entry_of_add a)) run ->
  mt_repr (sl_insert (mt_compare ucmp) mt (enc_add a) h) (insert_sorted ucmp (entry_of_add a) run).
Proof.
  intros [order Hwf Hkeys Hok] Ha Hh Hd. destruct (enc_add_entry a Ha) as [-> He].
  rewrite Forall_forall in Hok, Hd.
  destruct (insert_wf bytes (mt_compare ucmp) (mt_compare_order ucmp TO) mt order (enc_entry (entry_of_add a)) h Hwf Hh)
    as (order' & Hwf' & Hkeys').
  { rewrite Hkeys. intros y Hy. apply in_map_iff in Hy. destruct Hy as (x & <- & Hx).
    pose proof (idistinct_sym ucmp TO _ _ (Hd x Hx)) as Hxe.
    rewrite (mt_compare_icmp ucmp x _ (Hok x Hx) He Hxe). exact (icmp_distinct ucmp _ _ Hxe). }
  apply (MtRepr _ _ order' Hwf'); rewrite <- Forall_forall in Hok, Hd.
  - rewrite Hkeys', Hkeys. symmetry. exact (map_insert_sorted ucmp _ run He Hok Hd).
  - apply Forall_forall. intros x Hx. apply insert_sorted_In in Hx.
    destruct Hx as [->|Hx]; [exact He|]. exact (proj1 (Forall_forall _ _) Hok x Hx).
Qed.

Lemma repr_add_all adds : forall hs mt run, mt_repr mt run ->
  Forall add_ok adds -> heights_ok (map enc_add adds) hs -> adds_distinct ucmp adds ->
  (forall a, In a adds -> Forall (idistinct ucmp (entry_of_add a)) run) ->
  mt_repr (memtable_add_all ucmp mt adds hs)
          (fold_left (fun m e => insert_sorted ucmp e m) (map entry_of_add adds) run).
Proof.
  induction adds as [|a r IH]; intros hs mt run Hr Hok [Hlen Hhs] Hd Hx; [exact Hr|].
  destruct hs as [|h hs]; [discriminate Hlen|]. injection Hlen as Hlen.
  destruct Hd as [Hda Hdr]. rewrite Forall_forall in Hda.
  pose proof (repr_add mt run h a Hr (Forall_inv Hok) (Forall_inv Hhs) (Hx a (or_introl eq_refl))) as Hr1.
  destruct a as [[[seq ty] k] v].
  apply (IH hs _ _ Hr1 (Forall_inv_tail Hok) (conj Hlen (Forall_inv_tail Hhs)) Hdr).
  (* the later adds are distinct from this one and from the run so far *)
  intros a' Ha'. apply Forall_forall. intros x Hin. apply insert_sorted_In in Hin.
  destruct Hin as [->|Hin].
  - apply (idistinct_sym ucmp TO), Hda, in_map, Ha'.
  - exact (proj1 (Forall_forall _ _) (Hx a' (or_intror Ha')) x Hin).
Qed.

Lemma repr_contents mt run : mt_repr mt run -> Skiplist.skiplist_contents mt = map enc_entry run.
Proof. intros [order Hwf <- _]. exact (wf_contents bytes (mt_compare ucmp) mt order Hwf). Qed.

(* ldb_memtable_get: the seek lands on the first entry >= (k, q) of the run ([wf_seek],
   [ge_key_target]); what is done with it is the user-key test of get_in_run ([get_body_entry]) *)
Lemma repr_get mt run k q : mt_repr mt run -> q < MAXSEQ1 -> nlen k + 8 < 4294967296 ->
  memtable_get ucmp mt k q = get_in_run ucmp run k q.
Proof.
  intros [order Hwf Hkeys Hok] Hq Hk. rewrite Forall_forall in Hok.
  pose proof (wf_seek bytes (mt_compare ucmp) (mt_compare_order ucmp TO) mt order Hwf (lkey_memtable_key k q)) as Hs.
  rewrite Hkeys, find_map in Hs.
  rewrite (find_ext_in _ (ge_target ucmp k q)) in Hs
    by (intros e He; apply ge_key_target; [apply Hok, He|exact Hq|exact Hk]).
  unfold memtable_get, it_seek, get_in_run, seek_ge. unfold key_at in Hs.
  destruct (fst (find_ge (mt_compare ucmp) mt (lkey_memtable_key k q))) as [n|]; [rewrite Hs|];
    destruct (find (ge_target ucmp k q) run) as [e|] eqn:Ef; cbn [option_map] in *;
    try reflexivity; try discriminate Hs.
  apply get_body_entry. apply find_some in Ef. apply Hok, Ef.
Qed.

(* the memtable the adds build represents the run Engine.do_write builds *)
Lemma repr_adds adds hs : Forall add_ok adds -> adds_distinct ucmp adds -> heights_ok (map enc_add adds) hs ->
  mt_repr (memtable_add_all ucmp sl_empty adds hs) (mem_run ucmp adds).
Proof.
  intros Hok Hd Hh. apply (repr_add_all adds hs sl_empty [] repr_empty Hok Hh Hd). intros a _. constructor.
Qed.

End Repr.

Theorem memtable_get_is_seek : forall ucmp, total_order ucmp ->
  forall adds hs k q,
  Forall add_ok adds -> adds_distinct ucmp adds -> heights_ok (map enc_add adds) hs ->
  q < MAXSEQ1 -> nlen k + 8 < 4294967296 ->
  memtable_get ucmp (memtable_add_all ucmp sl_empty adds hs) k q
  = get_in_run ucmp (mem_run ucmp adds) k q.
Proof.
  intros ucmp TO adds hs k q Hok Hd Hh Hq Hk.
  exact (repr_get ucmp TO _ _ k q (repr_adds ucmp TO adds hs Hok Hd Hh) Hq Hk).
Qed.
Print Assumptions memtable_get_is_seek.

(* the body of [mem_run]: the statement does not mention Engine.do_write, whose fold over
   [batch_entries] has this shape *)
Lemma mem_run_is_do_write : forall ucmp adds,
  mem_run ucmp adds = fold_left (fun m e => insert_sorted ucmp e m) (map entry_of_add adds) [].
Proof. reflexivity. Qed.

(* what the memtable iterator walks (level 0 of the skiplist) is the engine model's sorted
   run, entry by entry: this is what a flush hands to the table builder *)
Theorem memtable_contents_is_run : forall ucmp, total_order ucmp ->
  forall adds hs,
  Forall add_ok adds -> adds_distinct ucmp adds -> heights_ok (map enc_add adds) hs ->
  Skiplist.skiplist_contents (memtable_add_all ucmp sl_empty adds hs)
  = map enc_entry (mem_run ucmp adds).
Proof.
  intros ucmp TO adds hs Hok Hd Hh. exact (repr_contents ucmp _ _ (repr_adds ucmp TO adds hs Hok Hd Hh)).
Qed.
Print Assumptions memtable_contents_is_run.
