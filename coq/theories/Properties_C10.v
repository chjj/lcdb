(* Properties_C10.v -- one handle can be shared by threads without data races.

   What is proved (HbProofs.v), for all executions of the axiomatic model Hb.v:
     lockset_drf, publish_drf, atomic_drf : the three disciplines exclude races;
     C10_drf_generic : a fact table accepted by [check_facts] has only
       race-free executions.
   What is checked on every run: [C10_this_tree] is re-evaluated (vm_compute)
   against the fact table REGENERATED from the current sources by
   bin/facts_c10.py (the check compiles this file against the regenerated
   Facts_C10.v in a scratch directory; the copy in this directory is the table
   of the tree the framework was committed against).
   Trusted: the translator, and [execution_of]: the executions of the C code
   are executions whose accesses respect the guards the translator read off
   the source text (lock regions, memory orders, the two hand-listed protocol
   tokens).  The theorem is about this access skeleton, not the object code;
   the ThreadSanitizer runs of checks/c10.py are the tie to the binary. *)
Require Import List String.
Import ListNotations.
Require Import LCDB.Hb LCDB.HbProofs LCDB.Facts_C10.

Theorem C10_this_tree : check_facts Facts_C10.facts = true.
Proof. unfold check_facts. rewrite (sorted_pairs_ok_pairs_ok Facts_C10.facts); vm_compute; reflexivity. Qed.

Theorem C10_this_tree_race_free : forall ex, execution_of Facts_C10.facts ex -> race_free ex.
Proof. exact (C10_drf_generic Facts_C10.facts C10_this_tree). Qed.

Theorem C10_lockset_drf : forall ex init x m,
  wf_mutex ex -> guarded_by ex init x m ->
  forall i j ei, ev ex i = Some ei -> e_loc ei = x ->
    init i = false -> init j = false -> ~ race ex i j.
Proof. exact lockset_drf. Qed.

Theorem C10_publish_drf : forall ex fld t0 w,
  wf_rf ex -> published_object ex fld t0 w ->
  forall i j ei, ev ex i = Some ei -> fld (e_loc ei) = true -> ~ race ex i j.
Proof. exact publish_drf. Qed.

Theorem C10_atomic_drf : forall ex x, only_atomic ex x ->
  forall i j ei, ev ex i = Some ei -> e_loc ei = x -> ~ race ex i j.
Proof. exact atomic_drf. Qed.

Theorem C10_drf_generic' : forall F, check_facts F = true ->
  forall ex, execution_of F ex -> race_free ex.
Proof. exact C10_drf_generic. Qed.

(* The model can express races, and the table check is not vacuous. *)
Theorem C10_model_has_races : ~ race_free racy_ex.
Proof. exact racy_ex_races. Qed.

Theorem C10_relaxed_publication_rejected :
  check_facts
    [ mkClass "next store" 0 Write Relaxed GAtomic RPublish;
      mkClass "next load" 0 Read Acquire GAtomic RTraverse;
      mkClass "field write" 1 Write NonAtomic (GPublishedBy 0) RPlain;
      mkClass "field read" 1 Read NonAtomic (GPublishedBy 0) RPlain ] = false.
Proof. vm_compute. reflexivity. Qed.

Theorem C10_unlocked_access_rejected :
  check_facts
    [ mkClass "x write under m" 0 Write NonAtomic (GLock [1]) RPlain;
      mkClass "x read without lock" 0 Read NonAtomic (GLock []) RPlain ] = false.
Proof. vm_compute. reflexivity. Qed.

Print Assumptions C10_this_tree.
Print Assumptions C10_this_tree_race_free.
Print Assumptions C10_lockset_drf.
Print Assumptions C10_publish_drf.
Print Assumptions C10_atomic_drf.
Print Assumptions C10_drf_generic'.
Print Assumptions C10_model_has_races.
