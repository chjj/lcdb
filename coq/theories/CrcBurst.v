(* CrcBurst.v -- the deterministic core of CRC-32C error detection.

   Crc32c.v models the checksum bit-serially: [crc_bit] is one step of the
   reflected LFSR with polynomial 0x82F63B78.  This file proves, for messages
   of ANY length:

     - [crc_bit] is GF(2)-linear on all of N ([crc_bit_lxor]) and injective
       on [0, 2^32) ([crc_bit_inj]);
     - the raw register after a byte string is [crc_bits (8n) (r xor V)] where
       V is the string read as one little-endian number ([fold_crc_bits]),
       hence affine in (register, data) ([fold_crc_byte_affine]);
     - whether an alteration is noticed depends on its xor pattern alone:
       it goes unnoticed exactly when the pattern, run through the register
       from 0, leaves 0 ([crc_alteration]);
     - any alteration whose xor pattern has all its set bits inside 32
       consecutive bit positions (numbered in the order the CRC consumes them:
       bit j of byte i is position 8*i+j) changes [crc_value]
       ([crc_detects_burst]), in particular every single-bit flip, every
       single-byte overwrite and every overwrite of 1..4 consecutive bytes;
     - an alteration confined to the stored (masked) checksum is detected too;
     - the corresponding statements on the check performed by the log reader
       ([parse_block], through LogFormatProofs.parse_block_record); Properties_C11.v has them for
       the table block reader (through TableProofs.read_block_at). *)
From LCDB Require Import BaseProofs Crc32cProofs LogFormat LogFormatProofs.
Local Open Scope N_scope.

(* Equalities in the boolean ring (N, lxor): compare bit by bit. *)
Ltac xor_solve :=
  apply N.bits_inj; intro;
  rewrite ?N.lxor_spec, ?N.bits_0;
  repeat match goal with
         | |- context [N.testbit ?x ?i] => destruct (N.testbit x i)
         end;
  reflexivity.

Theorem crc_bit_lxor : forall a b,
  crc_bit (N.lxor a b) = N.lxor (crc_bit a) (crc_bit b).
Proof.
  intros a b. unfold crc_bit. rewrite Ndigits.Nxor_bit0, Ndigits.Nxor_div2.
  destruct (N.odd a), (N.odd b); cbn [xorb]; xor_solve.
Qed.

Lemma crc_bit_0 : crc_bit 0 = 0.
Proof. reflexivity. Qed.

(* [crc_bits n] = n LFSR steps. *)
Fixpoint crc_bits (n : nat) (c : N) : N :=
  match n with
  | O => c
  | S n' => crc_bits n' (crc_bit c)
  end.

Lemma crc_bits_add : forall a b c,
  crc_bits (a + b) c = crc_bits b (crc_bits a c).
Proof.
  induction a as [|a IH]; intros b c; cbn [Nat.add crc_bits].
  - reflexivity.
  - apply IH.
Qed.

Lemma crc_bits_lxor : forall n a b,
  crc_bits n (N.lxor a b) = N.lxor (crc_bits n a) (crc_bits n b).
Proof.
  induction n as [|n IH]; intros a b; cbn [crc_bits].
  - reflexivity.
  - rewrite crc_bit_lxor. apply IH.
Qed.

Lemma crc_bits_0 : forall n, crc_bits n 0 = 0.
Proof.
  induction n as [|n IH]; cbn [crc_bits]; [reflexivity|].
  rewrite crc_bit_0. exact IH.
Qed.

Lemma crc_byte_bits : forall r b, crc_byte r b = crc_bits 8 (N.lxor r b).
Proof. intros r b. cbn [crc_bits]. reflexivity. Qed.

Theorem crc_byte_lxor : forall r s b c,
  crc_byte (N.lxor r s) (N.lxor b c) = N.lxor (crc_byte r b) (crc_byte s c).
Proof.
  intros r s b c. rewrite !crc_byte_bits, <- crc_bits_lxor. f_equal. xor_solve.
Qed.

Lemma crc_bit_double : forall z, crc_bit (2 * z) = z.
Proof.
  intros z. unfold crc_bit.
  rewrite N.odd_mul. change (N.odd 2) with false. cbn [andb].
  apply N.div2_double.
Qed.

Lemma crc_bits_mul_pow2 : forall n z, crc_bits n (z * 2 ^ N.of_nat n) = z.
Proof.
  induction n as [|n IH]; intros z; cbn [crc_bits].
  - change (N.of_nat 0) with 0. rewrite N.pow_0_r. lia.
  - rewrite Nat2N.inj_succ, N.pow_succ_r'.
    replace (z * (2 * 2 ^ N.of_nat n)) with (2 * (z * 2 ^ N.of_nat n)) by lia.
    rewrite crc_bit_double. apply IH.
Qed.

(* POLY has bit 31 set while [N.div2 c] has not: the kernel is trivial. *)
Lemma crc_bit_eq0 : forall c, c < 4294967296 -> crc_bit c = 0 -> c = 0.
Proof.
  intros c Hc H. unfold crc_bit in H.
  pose proof (N.div2_odd c) as Hdo. rewrite N.div2_div in *.
  destruct (N.odd c); cbn [N.b2n] in Hdo.
  - apply N.lxor_eq in H. unfold POLY in H. lia.
  - lia.
Qed.

(* The kernel of [n] steps is trivial on a 32-bit word shifted up by any number of places: the
   low zero bits are shifted out one per step without touching the polynomial; once the word
   itself is in the register each further step has trivial kernel.  (If the steps run out first,
   what is left is the word, still shifted.) *)
Lemma crc_bits_burst_eq0 : forall n o m,
  m < 4294967296 -> crc_bits n (m * 2 ^ o) = 0 -> m = 0.
Proof.
  induction n as [|n IH]; intros o m Hm H; cbn [crc_bits] in H.
  - apply N.eq_mul_0_l in H; [exact H|apply N.pow_nonzero; discriminate].
  - destruct (N.eq_dec o 0) as [->|Ho].
    + rewrite N.pow_0_r, N.mul_1_r in H. apply crc_bit_eq0; [exact Hm|].
      apply (IH 0); [apply crc_bit_bound, Hm|]. rewrite N.pow_0_r, N.mul_1_r. exact H.
    + rewrite <- (N.succ_pred o Ho), N.pow_succ_r', N.mul_assoc, (N.mul_comm m 2), <- N.mul_assoc,
        crc_bit_double in H.
      exact (IH _ m Hm H).
Qed.

Lemma crc_bits_eq0 : forall n c, c < 4294967296 -> crc_bits n c = 0 -> c = 0.
Proof.
  intros n c Hc H. apply (crc_bits_burst_eq0 n 0 c Hc). rewrite N.pow_0_r, N.mul_1_r. exact H.
Qed.

(* Linear with trivial kernel on 32-bit words: injective as soon as the
   difference of the two arguments is a 32-bit word. *)
Lemma crc_bits_inj_lxor : forall n a b,
  N.lxor a b < 4294967296 -> crc_bits n a = crc_bits n b -> a = b.
Proof.
  intros n a b Hx H. apply N.lxor_eq, (crc_bits_eq0 n); [exact Hx|].
  rewrite crc_bits_lxor, H. apply N.lxor_nilpotent.
Qed.

Theorem crc_bits_inj : forall n a b,
  a < 4294967296 -> b < 4294967296 -> crc_bits n a = crc_bits n b -> a = b.
Proof. intros n a b Ha Hb. apply crc_bits_inj_lxor, lxor_lt_32; assumption. Qed.

Theorem crc_bit_inj : forall a b,
  a < 4294967296 -> b < 4294967296 -> crc_bit a = crc_bit b -> a = b.
Proof. exact (crc_bits_inj 1). Qed.

Lemma lxor_cancel_r : forall a b c, N.lxor a c = N.lxor b c -> a = b.
Proof.
  intros a b c H. apply N.lxor_eq.
  replace (N.lxor a b) with (N.lxor (N.lxor a c) (N.lxor b c)) by xor_solve.
  rewrite H. apply N.lxor_nilpotent.
Qed.

(* The byte string as a little-endian number: bit j of byte i is bit 8*i+j,
   which is the order in which the reflected CRC consumes the bits. *)
Fixpoint le_val (d : bytes) : N :=
  match d with
  | [] => 0
  | b :: d' => N.lxor b (N.shiftl (le_val d') 8)
  end.

(* Pointwise xor (truncating to the shorter list). *)
Fixpoint xor_bytes (d e : bytes) : bytes :=
  match d, e with
  | x :: d', y :: e' => N.lxor x y :: xor_bytes d' e'
  | _, _ => []
  end.

Definition all_zero (e : bytes) : bool := forallb (N.eqb 0) e.

Theorem fold_crc_bits : forall d r,
  fold_left crc_byte d r = crc_bits (8 * length d) (N.lxor r (le_val d)).
Proof.
  induction d as [|b d IH]; intros r; cbn [le_val length].
  - change (8 * 0)%nat with 0%nat. cbn [crc_bits]. rewrite N.lxor_0_r. reflexivity.
  - rewrite fold_left_cons, IH.
    replace (8 * S (length d))%nat with (8 + 8 * length d)%nat by lia.
    rewrite crc_bits_add. f_equal.
    rewrite <- N.lxor_assoc, crc_bits_lxor, <- crc_byte_bits. f_equal.
    rewrite N.shiftl_mul_pow2. symmetry. apply (crc_bits_mul_pow2 8).
Qed.

Lemma fold_crc_byte_inj : forall d r s,
  N.lxor r s < 4294967296 -> fold_left crc_byte d r = fold_left crc_byte d s -> r = s.
Proof.
  intros d r s Hx H. rewrite !fold_crc_bits in H.
  apply crc_bits_inj_lxor in H; [exact (lxor_cancel_r _ _ _ H)|].
  replace (N.lxor (N.lxor r (le_val d)) (N.lxor s (le_val d))) with (N.lxor r s) by xor_solve.
  exact Hx.
Qed.

(* No hypothesis on the data byte: only the register difference matters. *)
Theorem crc_byte_inj : forall r r' b,
  r < 4294967296 -> r' < 4294967296 -> crc_byte r b = crc_byte r' b -> r = r'.
Proof.
  intros r r' b Hr Hr' H. apply (fold_crc_byte_inj [b] r r'); [apply lxor_lt_32; assumption|exact H].
Qed.

Lemma xor_bytes_length : forall d e,
  length d = length e -> length (xor_bytes d e) = length d.
Proof.
  induction d as [|x d IH]; intros [|y e] H; cbn [xor_bytes length] in *;
    try reflexivity; try discriminate.
  f_equal. apply IH. lia.
Qed.

Lemma le_val_xor_bytes : forall d e, length d = length e ->
  le_val (xor_bytes d e) = N.lxor (le_val d) (le_val e).
Proof.
  induction d as [|x d IH]; intros [|y e] H; cbn [xor_bytes length le_val] in *;
    try discriminate.
  - reflexivity.
  - rewrite IH by lia. rewrite N.shiftl_lxor. xor_solve.
Qed.

Theorem fold_crc_byte_affine : forall d e r s, length d = length e ->
  fold_left crc_byte (xor_bytes d e) (N.lxor r s) =
  N.lxor (fold_left crc_byte d r) (fold_left crc_byte e s).
Proof.
  intros d e r s H.
  rewrite !fold_crc_bits, xor_bytes_length, <- H, <- crc_bits_lxor by exact H.
  f_equal. rewrite le_val_xor_bytes by exact H. xor_solve.
Qed.

Lemma le_val_repeat0 : forall n, le_val (repeat 0 n) = 0.
Proof.
  induction n as [|n IH]; cbn [repeat le_val]; [reflexivity|].
  rewrite IH, N.shiftl_0_l. reflexivity.
Qed.

Theorem fold_crc_byte_zeros : forall n r,
  fold_left crc_byte (repeat 0 n) r = crc_bits (8 * n) r.
Proof.
  intros n r. rewrite fold_crc_bits, repeat_length, le_val_repeat0, N.lxor_0_r.
  reflexivity.
Qed.

Theorem fold_zeros_eq0 : forall n d, d < 4294967296 ->
  fold_left crc_byte (repeat 0 n) d = 0 -> d = 0.
Proof.
  intros n d Hd H. rewrite fold_crc_byte_zeros in H.
  apply (crc_bits_eq0 _ _ Hd H).
Qed.

(* Whether an alteration by the xor pattern [e] goes unnoticed depends on the
   pattern alone, not on the message nor on where it is applied: it does
   exactly when [e], run through the register from 0, leaves 0.  Linearity
   isolates the pattern; the bytes of [post] act injectively on the 32-bit
   difference. *)
Theorem crc_alteration : forall pre d e post,
  length d = length e -> wf_bytes e = true ->
  crc_value (pre ++ xor_bytes d e ++ post) = crc_value (pre ++ d ++ post) <->
  fold_left crc_byte e 0 = 0.
Proof.
  intros pre d e post Hlen Hwf. unfold crc_value, crc_extend.
  rewrite !fold_left_app.
  set (r := fold_left crc_byte pre (N.lxor 0 M32)).
  rewrite <- (N.lxor_0_r r) at 1. rewrite fold_crc_byte_affine by exact Hlen.
  set (x := fold_left crc_byte d r). set (k := fold_left crc_byte e 0).
  assert (Hk : N.lxor (N.lxor x k) x = k) by xor_solve.
  split.
  - intros H. apply lxor_cancel_r, fold_crc_byte_inj in H.
    + rewrite <- Hk, H. apply N.lxor_nilpotent.
    + rewrite Hk. apply fold_crc_byte_bound; [lia|exact Hwf].
  - intros ->. rewrite N.lxor_0_r. reflexivity.
Qed.

Lemma lxor_byte_eq0 : forall b V, b < 256 -> N.lxor b (N.shiftl V 8) = 0 -> b = 0 /\ V = 0.
Proof.
  intros b V Hb H. apply N.lxor_eq in H. rewrite N.shiftl_mul_pow2 in H.
  change (2 ^ 8) with 256 in H. lia.
Qed.

Lemma le_val_eq0 : forall e, wf_bytes e = true -> le_val e = 0 -> all_zero e = true.
Proof.
  induction e as [|b e IH]; intros Hwf H; [reflexivity|].
  apply wf_bytes_cons in Hwf. destruct Hwf as [Hb Hwf].
  cbn [le_val] in H. apply lxor_byte_eq0 in H; [|exact Hb]. destruct H as [-> HV].
  unfold all_zero. cbn [forallb]. rewrite N.eqb_refl. cbn [andb].
  apply IH; assumption.
Qed.

Lemma le_val_bound : forall e, wf_bytes e = true -> le_val e < 2 ^ (8 * nlen e).
Proof.
  induction e as [|b e IH]; intros Hwf.
  - cbn [le_val]. unfold nlen. cbn [length]. change (N.of_nat 0) with 0.
    change (8 * 0) with 0. rewrite N.pow_0_r. lia.
  - apply wf_bytes_cons in Hwf. destruct Hwf as [Hb Hwf]. specialize (IH Hwf).
    cbn [le_val].
    assert (Hn : 8 * nlen (b :: e) = 8 + 8 * nlen e).
    { unfold nlen. cbn [length]. lia. }
    rewrite Hn. apply lxor_lt_pow2.
    + apply N.lt_le_trans with (m := 2 ^ 8); [exact Hb|].
      apply N.pow_le_mono_r; lia.
    + rewrite N.shiftl_mul_pow2, N.pow_add_r, N.mul_comm.
      apply N.mul_lt_mono_pos_l; [|exact IH].
      change (2 ^ 8) with 256. lia.
Qed.

Lemma le_val_testbit : forall e i j, wf_bytes e = true -> j < 8 ->
  N.testbit (le_val e) (8 * N.of_nat i + j) = N.testbit (nth i e 0) j.
Proof.
  induction e as [|b e IH]; intros i j Hwf Hj.
  - cbn [le_val]. destruct i; cbn [nth]; rewrite !N.bits_0; reflexivity.
  - apply wf_bytes_cons in Hwf. destruct Hwf as [Hb Hwf].
    cbn [le_val]. rewrite N.lxor_spec. destruct i as [|i]; cbn [nth].
    + change (N.of_nat 0) with 0. replace (8 * 0 + j) with j by lia.
      rewrite N.shiftl_spec_low by exact Hj. apply xorb_false_r.
    + rewrite Nat2N.inj_succ.
      rewrite (proj1 (lt_pow2_bits b 8) Hb) by lia.
      rewrite N.shiftl_spec_high' by lia.
      replace (8 * N.succ (N.of_nat i) + j - 8) with (8 * N.of_nat i + j) by lia.
      rewrite xorb_false_l. apply IH; assumption.
Qed.

(* All set bits of the pattern lie in 32 consecutive positions o .. o+31. *)
Definition burst_le_32 (e : bytes) : Prop :=
  exists o, forall i, N.testbit (le_val e) i = true -> o <= i < o + 32.

Lemma burst_decomp : forall V o,
  (forall i, N.testbit V i = true -> o <= i < o + 32) ->
  V = N.shiftr V o * 2 ^ o /\ N.shiftr V o < 4294967296.
Proof.
  intros V o H. split.
  - rewrite <- N.shiftl_mul_pow2. apply N.bits_inj. intro i.
    destruct (N.lt_ge_cases i o) as [Hlt|Hge].
    + rewrite N.shiftl_spec_low by exact Hlt.
      destruct (N.testbit V i) eqn:Hb; [|reflexivity].
      apply H in Hb. lia.
    + rewrite N.shiftl_spec_high' by exact Hge. rewrite N.shiftr_spec'.
      f_equal. lia.
  - apply (lt_pow2_bits _ 32). intros i Hi. rewrite N.shiftr_spec'.
    destruct (N.testbit V (i + o)) eqn:Hb; [apply H in Hb; lia|reflexivity].
Qed.

(* Introduction rule in shift form (e.g. for concrete patterns). *)
Lemma burst_le_32_intro : forall e m o,
  le_val e = m * 2 ^ o -> m < 4294967296 -> burst_le_32 e.
Proof.
  intros e m o HV Hm. exists o. intros i Hi. rewrite HV in Hi.
  destruct (N.lt_ge_cases i o) as [Hlt|Hge].
  - rewrite N.mul_pow2_bits_low in Hi by exact Hlt. discriminate.
  - split; [exact Hge|].
    rewrite N.mul_pow2_bits_high in Hi by exact Hge.
    destruct (N.lt_ge_cases (i - o) 32) as [H32|H32]; [lia|].
    rewrite (proj1 (lt_pow2_bits m 32) Hm _ H32) in Hi. discriminate.
Qed.

(* A 32-bit burst that is not byte aligned: bit 7 of the first byte up to
   bit 6 of the fifth. *)
Example burst_unaligned_example : burst_le_32 [128; 255; 255; 255; 127].
Proof. apply (burst_le_32_intro _ 4294967295 7); [reflexivity|lia]. Qed.

(* Window injectivity: a non-zero burst pattern of any length (so also one
   not byte aligned, spread over five bytes) leaves a non-zero register. *)
Theorem burst_nonzero : forall e,
  wf_bytes e = true -> all_zero e = false -> burst_le_32 e ->
  fold_left crc_byte e 0 <> 0.
Proof.
  intros e Hwf Hnz [o Hb] H.
  destruct (burst_decomp _ _ Hb) as [HV Hm].
  rewrite fold_crc_bits, N.lxor_0_l, HV in H. apply crc_bits_burst_eq0 in H; [|exact Hm].
  rewrite H in HV. apply le_val_eq0 in HV; [congruence|exact Hwf].
Qed.

Lemma xor_bytes_back : forall a b, length a = length b ->
  xor_bytes b (xor_bytes a b) = a.
Proof.
  induction a as [|x a IH]; intros [|y b] H; cbn [xor_bytes length] in *;
    try discriminate; [reflexivity|].
  rewrite IH by lia. f_equal. xor_solve.
Qed.

(* A non-zero xor pattern [e] that is a burst of at most 32
   bits, applied to any slice [d] of a message of any length, changes the
   CRC.  Nothing is assumed about [pre], [d], [post]. *)
Theorem crc_detects_burst : forall pre d e post,
  length d = length e -> wf_bytes e = true -> all_zero e = false ->
  burst_le_32 e ->
  crc_value (pre ++ xor_bytes d e ++ post) <> crc_value (pre ++ d ++ post).
Proof.
  intros pre d e post Hlen Hwf Hnz Hb H.
  apply crc_alteration in H; [|exact Hlen|exact Hwf]. exact (burst_nonzero e Hwf Hnz Hb H).
Qed.

Lemma xor_bytes_wf : forall a b, wf_bytes a = true -> wf_bytes b = true ->
  wf_bytes (xor_bytes a b) = true.
Proof.
  induction a as [|x a IH]; intros [|y b] Ha Hb'; cbn [xor_bytes]; try reflexivity.
  apply wf_bytes_cons in Ha. apply wf_bytes_cons in Hb'.
  apply wf_bytes_cons. split; [|apply IH; tauto].
  change 256 with (2 ^ 8). apply lxor_lt_pow2; tauto.
Qed.

Lemma xor_bytes_all_zero : forall a b, length a = length b ->
  all_zero (xor_bytes a b) = true -> a = b.
Proof.
  induction a as [|x a IH]; intros [|y b] H Hz; cbn [xor_bytes length] in *;
    try discriminate; [reflexivity|].
  unfold all_zero in Hz. cbn [forallb] in Hz. apply andb_true_iff in Hz.
  destruct Hz as [Hx Hz]. apply N.eqb_eq in Hx. symmetry in Hx. apply N.lxor_eq in Hx.
  f_equal; [exact Hx|]. apply IH; [lia|exact Hz].
Qed.

(* Overwriting a slice by different well-formed contents of the same length
   whose difference is a burst of at most 32 bits. *)
Theorem crc_detects_burst_overwrite : forall pre d d' post,
  length d' = length d -> wf_bytes d = true -> wf_bytes d' = true -> d' <> d ->
  burst_le_32 (xor_bytes d' d) ->
  crc_value (pre ++ d' ++ post) <> crc_value (pre ++ d ++ post).
Proof.
  intros pre d d' post Hlen Hw Hw' Hne Hb.
  pose proof (crc_detects_burst pre d (xor_bytes d' d) post) as H.
  rewrite xor_bytes_back in H by exact Hlen.
  apply H.
  - rewrite xor_bytes_length; [symmetry|]; exact Hlen.
  - apply xor_bytes_wf; assumption.
  - destruct (all_zero (xor_bytes d' d)) eqn:E; [|reflexivity].
    exfalso. apply Hne. apply xor_bytes_all_zero; assumption.
  - exact Hb.
Qed.

(* The same, stated on two whole messages. *)
Theorem crc_detects_burst_diff : forall m1 m2,
  length m1 = length m2 -> wf_bytes m1 = true -> wf_bytes m2 = true ->
  m1 <> m2 -> burst_le_32 (xor_bytes m1 m2) ->
  crc_value m1 <> crc_value m2.
Proof.
  intros m1 m2 Hlen Hw1 Hw2 Hne Hb.
  pose proof (crc_detects_burst_overwrite [] m2 m1 [] Hlen Hw2 Hw1 Hne Hb) as H.
  rewrite !app_nil_r in H. exact H.
Qed.

Lemma burst_le_32_short : forall e,
  wf_bytes e = true -> (length e <= 4)%nat -> burst_le_32 e.
Proof.
  intros e Hwf Hlen. exists 0. intros i Hi. split; [lia|].
  destruct (N.lt_ge_cases i 32) as [Hlt|Hge]; [lia|].
  rewrite (proj1 (lt_pow2_bits (le_val e) 32)) in Hi; [discriminate| |exact Hge].
  apply N.lt_le_trans with (m := 2 ^ (8 * nlen e)); [apply le_val_bound; exact Hwf|].
  apply N.pow_le_mono_r; [lia|]. unfold nlen. lia.
Qed.

(* Window injectivity for byte-aligned windows: a non-zero pattern of at most
   four bytes leaves a non-zero register. *)
Theorem window_nonzero : forall e,
  (length e <= 4)%nat -> wf_bytes e = true -> all_zero e = false ->
  fold_left crc_byte e 0 <> 0.
Proof.
  intros e Hlen Hwf Hnz. apply burst_nonzero; [exact Hwf|exact Hnz|].
  apply burst_le_32_short; assumption.
Qed.

Theorem crc_detects_window : forall pre d e post,
  (1 <= length e <= 4)%nat -> length d = length e ->
  wf_bytes e = true -> all_zero e = false ->
  crc_value (pre ++ xor_bytes d e ++ post) <> crc_value (pre ++ d ++ post).
Proof.
  intros pre d e post Hl Hlen Hwf Hnz.
  apply crc_detects_burst; try assumption.
  apply burst_le_32_short; [exact Hwf|lia].
Qed.

Theorem crc_detects_overwrite : forall pre d d' post,
  length d' = length d -> (length d <= 4)%nat ->
  wf_bytes d = true -> wf_bytes d' = true -> d' <> d ->
  crc_value (pre ++ d' ++ post) <> crc_value (pre ++ d ++ post).
Proof.
  intros pre d d' post Hlen Hl Hw Hw' Hne.
  apply crc_detects_burst_overwrite; try assumption.
  apply burst_le_32_short; [apply xor_bytes_wf; assumption|].
  rewrite xor_bytes_length by exact Hlen. lia.
Qed.

Theorem crc_detects_byte_overwrite : forall pre b b' post,
  b < 256 -> b' < 256 -> b' <> b ->
  crc_value (pre ++ b' :: post) <> crc_value (pre ++ b :: post).
Proof.
  intros pre b b' post Hb Hb' Hne.
  apply (crc_detects_overwrite pre [b] [b'] post).
  - reflexivity.
  - cbn [length]. lia.
  - apply wf_bytes_cons. split; [exact Hb|reflexivity].
  - apply wf_bytes_cons. split; [exact Hb'|reflexivity].
  - congruence.
Qed.

(* Bit j (0..7) of one byte flipped; nothing is assumed about the byte. *)
Theorem crc_detects_bit_flip : forall pre b j post,
  j < 8 ->
  crc_value (pre ++ N.lxor b (2 ^ j) :: post) <> crc_value (pre ++ b :: post).
Proof.
  intros pre b j post Hj.
  assert (Hp : 2 ^ j < 256).
  { change 256 with (2 ^ 8). apply N.pow_lt_mono_r; lia. }
  assert (Hp0 : 2 ^ j <> 0) by (apply N.pow_nonzero; lia).
  apply (crc_detects_window pre [b] [2 ^ j] post).
  - cbn [length]. lia.
  - reflexivity.
  - apply wf_bytes_cons. split; [exact Hp|reflexivity].
  - unfold all_zero. cbn [forallb]. rewrite andb_true_r. apply N.eqb_neq. lia.
Qed.

(* The bound 32 is optimal: the generator polynomial itself (33 bits,
   1 + 2 * POLY, as the five bytes below) xored in at any byte position of any
   message leaves the CRC unchanged. *)
Theorem crc_burst_33_undetected : forall pre d post, length d = 5%nat ->
  crc_value (pre ++ xor_bytes d [241; 118; 236; 5; 1] ++ post) =
  crc_value (pre ++ d ++ post).
Proof.
  intros pre d post Hlen. apply crc_alteration; [exact Hlen|reflexivity|].
  vm_compute. reflexivity.
Qed.

(* The comparison a reader makes between the checksum of the message [m'] it
   sees and the four stored bytes. *)
Definition stored_ok (c0 c1 c2 c3 : N) (m' : bytes) : bool :=
  crc_value m' =? crc_unmask (c0 + 256 * c1 + 65536 * c2 + 16777216 * c3).

Section Stored.
  (* [c0 .. c3] hold the masked checksum of the well-formed message [m1 ++ m2], computed the way
     both writers do: the checksum of [m1] extended by [m2] (log record: type byte, then payload;
     table block: contents, then type byte). *)
  Variables (m1 m2 : bytes) (c0 c1 c2 c3 : N).
  Hypothesis Hwf : wf_bytes (m1 ++ m2) = true.
  Hypothesis Hc : le32 (crc_mask (crc_extend (crc_value m1) m2)) = [c0; c1; c2; c3].

  Lemma stored_ok_false : forall m',
    crc_value m' <> crc_value (m1 ++ m2) -> stored_ok c0 c1 c2 c3 m' = false.
  Proof.
    intros m' H. unfold stored_ok. rewrite crc_value_app in Hc.
    rewrite (stored_crc_unmask _ _ _ _ _ (crc_value_bound _ Hwf) Hc). apply N.eqb_neq, H.
  Qed.

  (* the message altered by a burst of at most 32 bits, lengths unchanged *)
  Theorem stored_rejects_burst : forall m',
    wf_bytes m' = true -> length m' = length (m1 ++ m2) -> m' <> m1 ++ m2 ->
    burst_le_32 (xor_bytes m' (m1 ++ m2)) ->
    stored_ok c0 c1 c2 c3 m' = false.
  Proof. intros. apply stored_ok_false, crc_detects_burst_diff; assumption. Qed.

  Theorem stored_rejects_byte : forall pre b post b',
    m1 ++ m2 = pre ++ b :: post -> b' < 256 -> b' <> b ->
    stored_ok c0 c1 c2 c3 (pre ++ b' :: post) = false.
  Proof.
    intros pre b post b' E Hb' Hne. apply stored_ok_false. rewrite E.
    pose proof Hwf as Hb. rewrite E in Hb.
    apply wf_bytes_app in Hb. destruct Hb as [_ Hb]. apply wf_bytes_cons in Hb.
    apply crc_detects_byte_overwrite; [apply Hb|exact Hb'|exact Hne].
  Qed.

  Theorem stored_rejects_bit : forall pre b post j,
    m1 ++ m2 = pre ++ b :: post -> j < 8 ->
    stored_ok c0 c1 c2 c3 (pre ++ N.lxor b (2 ^ j) :: post) = false.
  Proof.
    intros pre b post j E Hj. apply stored_ok_false. rewrite E.
    apply crc_detects_bit_flip, Hj.
  Qed.

  (* Only the four stored bytes altered: any other four well-formed bytes unmask to a different
     value, mask/unmask and le32/de32 being bijections. *)
  Theorem stored_rejects_field : forall c0' c1' c2' c3',
    c0' < 256 -> c1' < 256 -> c2' < 256 -> c3' < 256 ->
    [c0'; c1'; c2'; c3'] <> [c0; c1; c2; c3] ->
    stored_ok c0' c1' c2' c3' (m1 ++ m2) = false.
  Proof.
    intros c0' c1' c2' c3' H0 H1 H2 H3 Hne. unfold stored_ok. rewrite crc_value_app in Hc.
    apply N.eqb_neq. intros Heq. apply Hne. rewrite <- Hc, Heq, crc_mask_unmask by lia.
    symmetry. apply le32_de32; try assumption. reflexivity.
  Qed.
End Stored.

(* The comparison made by read_physical_record / [parse_block] on a header
   c0 c1 c2 c3 _ _ ty followed by [payload]: [stored_ok] on ty :: payload. *)
Definition log_crc_ok (c0 c1 c2 c3 ty : N) (payload : bytes) : bool :=
  crc_value (ty :: payload) =? crc_unmask (c0 + 256 * c1 + 65536 * c2 + 16777216 * c3).

Lemma phys_record_shape : forall ty payload,
  phys_record ty payload =
  le32 (crc_mask (crc_value (ty :: payload))) ++
  [nlen payload mod 256; nlen payload / 256; ty] ++ payload.
Proof. intros. unfold phys_record. rewrite crc_value_cons_gen. reflexivity. Qed.

(* The reader: a buffer starting with a header whose check fails yields a
   bad-record event and no record for it. *)
Theorem parse_block_crc_mismatch : forall f eof c0 c1 c2 c3 a b ty payload tail,
  a + 256 * b = nlen payload ->
  log_crc_ok c0 c1 c2 c3 ty payload = false ->
  exists r,
    parse_block (S f) true eof (c0 :: c1 :: c2 :: c3 :: a :: b :: ty :: payload ++ tail)
    = PBad r :: (if eof then [PEof] else []).
Proof.
  intros f eof c0 c1 c2 c3 a b ty payload tail Hlen Hbad. unfold log_crc_ok in Hbad.
  rewrite parse_block_record, Hbad by exact Hlen.
  destruct (_ && _); eexists; reflexivity.
Qed.

(* Put together: the bytes written by [phys_record ty payload], with the
   checksummed part altered by a burst of at most 32 bits, are rejected by
   the reader whatever follows in the block. *)
Theorem log_reader_rejects_altered_record :
  forall f eof ty payload ty' payload' c0 c1 c2 c3 a b tail,
  wf_bytes (ty :: payload) = true -> wf_bytes (ty' :: payload') = true ->
  length payload' = length payload ->
  ty' :: payload' <> ty :: payload ->
  burst_le_32 (xor_bytes (ty' :: payload') (ty :: payload)) ->
  phys_record ty payload = c0 :: c1 :: c2 :: c3 :: a :: b :: ty :: payload ->
  exists r,
    parse_block (S f) true eof (c0 :: c1 :: c2 :: c3 :: a :: b :: ty' :: payload' ++ tail)
    = PBad r :: (if eof then [PEof] else []).
Proof.
  intros f eof ty payload ty' payload' c0 c1 c2 c3 a b tail
         Hwf Hwf' Hlen Hne Hb Hrec.
  unfold phys_record, le32 in Hrec. cbn [app] in Hrec.
  injection Hrec as E0 E1 E2 E3 Ea Eb.
  apply parse_block_crc_mismatch.
  - subst a b. unfold nlen. rewrite Hlen. apply len16.
  - apply (stored_rejects_burst [ty] payload c0 c1 c2 c3 Hwf); try assumption.
    + unfold le32. subst c0 c1 c2 c3. reflexivity.
    + cbn [length app]. f_equal. exact Hlen.
Qed.

Print Assumptions crc_detects_burst.
Print Assumptions crc_detects_window.
Print Assumptions crc_detects_bit_flip.
Print Assumptions crc_detects_byte_overwrite.
Print Assumptions window_nonzero.
Print Assumptions burst_nonzero.
Print Assumptions crc_burst_33_undetected.
Print Assumptions log_reader_rejects_altered_record.
