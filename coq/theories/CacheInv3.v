(* CacheInv3.v -- the invariant of the 16-shard cache along a client script (Cache.cache_run):
   every shard satisfies CacheInv2.sinv with rc = the number of slots holding a handle on the
   entry, at most one in-cache entry per key, keys live in their own shard, in-cache values are
   the latest inserted ones.  A step of the script changes one shard (put_step), none (frame_step)
   or all of them (map_step): cache_step_inv. *)
From LCDB Require Import BaseProofs CacheSpec CacheLemmas CacheInv2.
From Coq Require Import Permutation.
Local Open Scope N_scope.

Definition ch_dec : forall x y : option chandle, {x = y} + {x <> y}.
Proof. decide equality. decide equality; [apply N.eq_dec|apply Nat.eq_dec]. Defined.

(* the number of slots that hold a handle on entry id of shard i *)
Definition hcnt (slots : list (option chandle)) (i : nat) (id : N) : N :=
  N.of_nat (count_occ ch_dec slots (Some (i, id))).

Lemma hcnt_pos_in : forall slots i id, In (Some (i, id)) slots <-> 1 <= hcnt slots i id.
Proof.
  intros slots i id. unfold hcnt. rewrite (count_occ_In ch_dec). unfold chandle in *. lia.
Qed.

Lemma hcnt_app : forall a b i y, hcnt (a ++ b) i y = hcnt a i y + hcnt b i y.
Proof. intros a b i y. unfold hcnt. rewrite count_occ_app. apply Nat2N.inj_add. Qed.

Lemma hcnt_one_some : forall i id j y,
  hcnt [Some (i, id)] j y = if (j =? i)%nat && (y =? id) then 1 else 0.
Proof.
  intros i id j y. unfold hcnt. cbn [count_occ].
  destruct (ch_dec (Some (i, id)) (Some (j, y))) as [E|E].
  - injection E as -> ->. rewrite Nat.eqb_refl, N.eqb_refl. reflexivity.
  - destruct (Nat.eqb_spec j i) as [->|_]; [|reflexivity].
    destruct (N.eqb_spec y id) as [->|_]; [contradiction|reflexivity].
Qed.

Lemma hcnt_one_none : forall j y, hcnt [None] j y = 0.
Proof. reflexivity. Qed.

Lemma hcnt_all_none : forall slots, (forall x, In x slots -> x = None) -> forall i id, hcnt slots i id = 0.
Proof.
  intros slots H i id. unfold hcnt.
  assert (count_occ ch_dec slots (Some (i, id)) = 0%nat) as ->; [|reflexivity].
  apply count_occ_not_In. intros Hin. discriminate (H _ Hin).
Qed.

(* What a step does to the slots, seen from shard i: rc' = the handles on the entries of shard i
   afterwards; the other shards keep theirs. *)
Definition slots_step (i : nat) (slots slots' : list (option chandle)) (rc' : N -> N) : Prop :=
  (forall y, hcnt slots' i y = rc' y) /\
  (forall j y, j <> i -> hcnt slots' j y = hcnt slots j y).

Lemma slots_same : forall i slots, slots_step i slots slots (hcnt slots i).
Proof. intros i slots. split; reflexivity. Qed.

Lemma slots_push_some : forall i id slots,
  slots_step i slots (slots ++ [Some (i, id)]) (fun y => hcnt slots i y + if y =? id then 1 else 0).
Proof.
  intros i id slots. split.
  - intros y. rewrite hcnt_app, hcnt_one_some, Nat.eqb_refl. reflexivity.
  - intros j y Hj. rewrite hcnt_app, hcnt_one_some, (proj2 (Nat.eqb_neq j i) Hj). apply N.add_0_r.
Qed.

Lemma slots_push_none : forall i slots, slots_step i slots (slots ++ [None]) (hcnt slots i).
Proof.
  intros i slots. split; intros; rewrite hcnt_app; apply N.add_0_r.
Qed.

Lemma slots_release : forall slots n i id, nth n slots None = Some (i, id) ->
  In (Some (i, id)) slots /\
  slots_step i slots (set_nth n None slots) (fun y => if y =? id then hcnt slots i id - 1 else hcnt slots i y).
Proof.
  intros slots n i id H.
  assert (Hlt : (n < length slots)%nat).
  { destruct (Nat.lt_ge_cases n (length slots)) as [L|L]; [exact L|].
    rewrite (nth_overflow _ _ L) in H. discriminate H. }
  pose proof (nth_error_nth' slots None Hlt) as Hne. rewrite H in Hne.
  destruct (set_nth_split _ n slots _ Hne) as [l1 [l2 [E1 [E2 E3]]]].
  rewrite (E3 None), E1. clear H Hlt Hne E1 E2 E3.
  assert (Hc : forall (o : option chandle) j y,
            hcnt (l1 ++ o :: l2) j y = hcnt l1 j y + hcnt [o] j y + hcnt l2 j y).
  { intros o j y. change (o :: l2) with ([o] ++ l2). rewrite !hcnt_app. apply N.add_assoc. }
  split; [apply in_elt|]. split.
  - intros y. rewrite !Hc, hcnt_one_none, !hcnt_one_some, Nat.eqb_refl, N.eqb_refl. cbn [andb].
    destruct (N.eqb_spec y id) as [->|_]; lia.
  - intros j y Hj. rewrite !Hc, hcnt_one_none, hcnt_one_some, (proj2 (Nat.eqb_neq j i) Hj).
    reflexivity.
Qed.

(* an entry freed by a step of shard i is not held afterwards: a held handle names a live entry *)
Lemma freed_not_held : forall B slots i h s' f e, sinv B (hcnt slots i) s' ->
  cstep_ok h (sh_heap s') f -> (forall y, In y h -> shard_index (ce_key y) = i) -> In e f ->
  ~ In (Some (shard_index (ce_key e), ce_id e)) slots.
Proof.
  intros B slots i h s' f e Hinv Hst Hidx He Hin.
  (* by the account of keys and values, e bears the key of an entry of h *)
  assert (Hk : In (kv e) (map kv h)).
  { apply (Permutation_in _ (so_perm _ _ _ Hst)), in_or_app. left. apply in_map, He. }
  apply in_map_iff in Hk. destruct Hk as [y [Ek Hy]].
  rewrite <- (f_equal fst Ek : ce_key y = ce_key e), (Hidx y Hy) in Hin. apply hcnt_pos_in in Hin.
  destruct (si_live Hinv (ce_id e)) as [x [Hx Hxid]]; [right; lia|exact (so_freed _ _ _ Hst e x He Hx Hxid)].
Qed.

Definition charge_ok (op : cop) : Prop :=
  match op with CInsert _ _ ch => ch < two64 | _ => True end.
Definition charges_ok (ops : list cop) : Prop := Forall charge_ok ops.

(* the key whose latest value an operation changes *)
Definition op_key (op : cop) : option bytes :=
  match op with CInsert k _ _ | CErase k => Some k | _ => None end.

Lemma spec_latest_snoc : forall ops op k,
  spec_latest (ops ++ [op]) k =
  match op with
  | CInsert k' v _ => if bytes_eqb k' k then Some v else spec_latest ops k
  | CErase k' => if bytes_eqb k' k then None else spec_latest ops k
  | _ => spec_latest ops k
  end.
Proof.
  intros ops op k. unfold spec_latest. rewrite fold_left_app. cbn [fold_left].
  destruct op; reflexivity.
Qed.

Lemma spec_latest_frame : forall ops op k, op_key op <> Some k ->
  spec_latest (ops ++ [op]) k = spec_latest ops k.
Proof.
  intros ops op k Hk. rewrite spec_latest_snoc.
  destruct op as [k' v c|k'|n|k'| | |]; try reflexivity; cbn [op_key] in Hk.
  - destruct (bytes_eqb k' k) eqn:E; [|reflexivity]. apply bytes_eqb_eq in E. congruence.
  - destruct (bytes_eqb k' k) eqn:E; [|reflexivity]. apply bytes_eqb_eq in E. congruence.
Qed.

Lemma inserted_kv_app : forall a b, inserted_kv (a ++ b) = inserted_kv a ++ inserted_kv b.
Proof.
  induction a as [|op a IH]; intros b; [reflexivity|].
  cbn [app]. destruct op; cbn [inserted_kv app]; rewrite IH; reflexivity.
Qed.

Lemma inserted_kv_releases : forall l, inserted_kv (map CRelease l) = [].
Proof. induction l as [|n l IH]; [reflexivity|]. cbn [map inserted_kv]. exact IH. Qed.

Lemma inserted_kv_nokey : forall op, op_key op = None -> inserted_kv [op] = [].
Proof. intros op Hop. destruct op; [discriminate Hop | reflexivity..]. Qed.

(* The cache invariant after the script [ops].  B is fixed along a run; it stands for: every
   charge of the whole script is a size_t. *)
Record shard_ok (B : Prop) (ops : list cop) (slots : list (option chandle)) (i : nat) (s : lru_shard)
  : Prop := {
  (* the shard invariant, the handles on an entry being the slots that hold (i, id) *)
  sk_inv : sinv B (hcnt slots i) s;
  (* at most one in-cache entry per key; every key hashes to this shard; an in-cache entry
     carries the value last inserted under its key and not erased since *)
  sk_amo : amo (sh_heap s);
  sk_idx : forall e, In e (sh_heap s) -> shard_index (ce_key e) = i;
  sk_latest : forall e, In e (sh_heap s) -> ce_in_cache e = true ->
      spec_latest ops (ce_key e) = Some (ce_val e) }.

(* all the shards are there, each is [shard_ok] for its index, and held handles name a shard.
   The invariant reads the shard array and the slots: the records around them (and the id
   counter lc_last_id) go by conversion, [cinv B ops (mkCS (mkLC sh n) sl)] IS [cinvc B ops sh sl] *)
Set Implicit Arguments.
Record cinvc (B : Prop) (ops : list cop) (sh : list lru_shard) (slots : list (option chandle)) : Prop := {
  ci_len : length sh = NUM_SHARDS;
  ci_shards : forall i s, nth_error sh i = Some s -> shard_ok B ops slots i s;
  ci_slots : forall i id, In (Some (i, id)) slots -> (i < NUM_SHARDS)%nat }.
Unset Implicit Arguments.
Definition cinv (B : Prop) (ops : list cop) (st : cstate) : Prop :=
  cinvc B ops (lc_shards (cs_cache st)) (cs_slots st).

(* [nth i sh (shard_new 0)] is [get_shard c i] for the cache [c] whose shards are [sh] *)
Lemma cinv_get : forall B ops sh slots i, cinvc B ops sh slots -> (i < NUM_SHARDS)%nat ->
  nth_error sh i = Some (nth i sh (shard_new 0)) /\ shard_ok B ops slots i (nth i sh (shard_new 0)).
Proof.
  intros B ops sh slots i Hinv Hi.
  assert (H : nth_error sh i = Some (nth i sh (shard_new 0))).
  { apply nth_error_nth'. rewrite (ci_len Hinv). exact Hi. }
  split; [exact H|]. apply (ci_shards Hinv). exact H.
Qed.

Lemma nth_error_get_shard : forall c i s, nth_error (lc_shards c) i = Some s -> get_shard c i = s.
Proof. intros c i s H. unfold get_shard. apply nth_error_nth. exact H. Qed.

Lemma shard_ok_sub : forall B ops ops' slots slots' i s s',
  shard_ok B ops slots i s ->
  sinv B (hcnt slots' i) s' ->
  heap_sub (sh_heap s) (sh_heap s') ->
  (forall e', In e' (sh_heap s') -> ce_in_cache e' = true ->
     spec_latest ops' (ce_key e') = spec_latest ops (ce_key e')) ->
  shard_ok B ops' slots' i s'.
Proof.
  intros B ops ops' slots slots' i s s' [Hinv Hamo Hidx Hlat] Hinv' Hsub Hl. constructor.
  - exact Hinv'.
  - eapply amo_sub; [apply (si_nodup Hinv')|exact Hsub|exact Hamo].
  - intros e He. destruct (Hsub e He) as [y [Hy [[_ [Sk _]] _]]]. rewrite <- Sk. apply Hidx, Hy.
  - intros e He Hic. destruct (Hsub e He) as [y [Hy [[_ [Sk [Sv _]]] Icy]]].
    rewrite (Hl e He Hic). rewrite <- Sk, <- Sv. apply Hlat; [exact Hy|apply Icy, Hic].
Qed.

Lemma shard_ok_frame : forall B ops ops' slots slots' i s,
  shard_ok B ops slots i s ->
  (forall y, hcnt slots' i y = hcnt slots i y) ->
  (forall k', shard_index k' = i -> spec_latest ops' k' = spec_latest ops k') ->
  shard_ok B ops' slots' i s.
Proof.
  intros B ops ops' slots slots' i s Hsk Hc Hl.
  apply (shard_ok_sub B ops ops' slots slots' i s s Hsk).
  - apply (sinv_ext _ (hcnt slots i)); [intros x; symmetry; apply Hc|apply (sk_inv _ _ _ _ _ Hsk)].
  - apply heap_sub_refl.
  - intros e He _. apply Hl. apply (sk_idx _ _ _ _ _ Hsk). exact He.
Qed.

(* [all_heap] of the cache whose shards are [sh] *)
Definition heaps (sh : list lru_shard) : list centry := concat (map sh_heap sh).

Lemma heaps_set_nth : forall sh i s s' f extra, nth_error sh i = Some s ->
  Permutation (map kv f ++ map kv (sh_heap s')) (map kv (sh_heap s) ++ extra) ->
  Permutation (map kv f ++ map kv (heaps (set_nth i s' sh))) (map kv (heaps sh) ++ extra).
Proof.
  intros sh i s s' f extra Hn Hp. unfold heaps.
  destruct (set_nth_split _ i sh s Hn) as [l1 [l2 [E1 [_ E3]]]].
  rewrite (E3 s'), E1. rewrite !map_app. cbn [map]. rewrite !concat_app. cbn [concat].
  rewrite !map_app.
  set (A := map kv (concat (map sh_heap l1))). set (C := map kv (concat (map sh_heap l2))).
  set (F := map kv f) in *. set (S' := map kv (sh_heap s')) in *. set (S := map kv (sh_heap s)) in *.
  (* F ++ A ++ S' ++ C ~ (A ++ S ++ C) ++ extra *)
  eapply perm_trans; [apply Permutation_app_swap_app|].
  rewrite <- app_assoc. apply Permutation_app_head.
  (* F ++ S' ++ C ~ (S ++ C) ++ extra *)
  rewrite app_assoc. eapply perm_trans; [apply Permutation_app_tail; exact Hp|].
  rewrite <- !app_assoc. apply Permutation_app_head. apply Permutation_app_comm.
Qed.

(* what one step of a script establishes: the invariant, the account of inserted, live and
   freed entries, and that nothing freed is still held *)
Definition step_postc (B : Prop) ops op (sh sh' : list lru_shard) slots' (f : list centry) : Prop :=
  cinvc B (ops ++ [op]) sh' slots' /\
  Permutation (map kv f ++ map kv (heaps sh')) (map kv (heaps sh) ++ inserted_kv [op]) /\
  (forall e, In e f -> ~ In (Some (shard_index (ce_key e), ce_id e)) slots').
Definition step_post (B : Prop) ops op st st' (f : list centry) : Prop :=
  step_postc B ops op (lc_shards (cs_cache st)) (lc_shards (cs_cache st')) (cs_slots st') f.

(* one shard changes: s becomes s' after the entries [new] were added to it *)
Lemma put_step : forall B ops op sh slots i s s' slots' f new,
  cinvc B ops sh slots -> nth_error sh i = Some s ->
  inserted_kv [op] = map kv new ->
  shard_ok B (ops ++ [op]) slots' i s' ->
  cstep_ok (sh_heap s ++ new) (sh_heap s') f ->
  (forall e, In e new -> shard_index (ce_key e) = i) ->
  (forall k, op_key op = Some k -> shard_index k = i) ->
  (forall j y, j <> i -> hcnt slots' j y = hcnt slots j y) ->
  step_postc B ops op sh (set_nth i s' sh) slots' f.
Proof.
  intros B ops op sh slots i s s' slots' f new Hinv Hn Hkv Hsk Hst Hnew Hop Hc.
  unfold step_postc. rewrite Hkv.
  assert (Hi : (i < length sh)%nat).
  { apply nth_error_Some. rewrite Hn. discriminate. }
  split; [|split].
  - constructor.
    + rewrite set_nth_length. apply (ci_len Hinv).
    + intros j sj Hj. destruct (Nat.eq_dec j i) as [E|E].
      * subst j. rewrite (nth_error_set_nth_eq _ _ _ _ Hi) in Hj. injection Hj as <-. exact Hsk.
      * rewrite (nth_error_set_nth_neq _ _ _ _ _ E) in Hj.
        apply (shard_ok_frame B ops _ slots slots' j sj (ci_shards Hinv j Hj)).
        -- intros y. apply Hc. exact E.
        -- intros k' Hk'. apply spec_latest_frame. intros Ek. apply E.
           rewrite <- Hk'. exact (Hop k' Ek).
    + (* a handle on another shard was held before *)
      intros j y Hj. destruct (Nat.eq_dec j i) as [->|E]; [rewrite <- (ci_len Hinv); exact Hi|].
      apply hcnt_pos_in in Hj. rewrite (Hc j y E) in Hj. exact (ci_slots Hinv j y (proj2 (hcnt_pos_in _ _ _) Hj)).
  - apply (heaps_set_nth _ _ s); [exact Hn|].
    pose proof (so_perm _ _ _ Hst) as P. rewrite map_app in P. exact P.
  - intros e. apply (freed_not_held _ _ _ _ _ _ e (sk_inv _ _ _ _ _ Hsk) Hst).
    intros y Hy. apply in_app_or in Hy. destruct Hy as [Hy|Hy]; [|exact (Hnew y Hy)].
    exact (sk_idx _ _ _ _ _ (ci_shards Hinv i Hn) y Hy).
Qed.

(* ... when nothing is added: the shard only loses entries or in-cache flags *)
Lemma put_step_sub : forall B ops op sh slots i s s' slots' rc' f,
  cinvc B ops sh slots -> nth_error sh i = Some s ->
  inserted_kv [op] = [] ->
  sinv B rc' s' -> cstep_ok (sh_heap s) (sh_heap s') f ->
  slots_step i slots slots' rc' ->
  (forall e, In e (sh_heap s') -> ce_in_cache e = true -> op_key op <> Some (ce_key e)) ->
  (forall k, op_key op = Some k -> shard_index k = i) ->
  step_postc B ops op sh (set_nth i s' sh) slots' f.
Proof.
  intros B ops op sh slots i s s' slots' rc' f Hinv Hn Hkv Hinv' Hst Hsl Hkey Hop.
  apply (put_step B ops op sh slots i s s' slots' f [] Hinv Hn Hkv).
  - apply (shard_ok_sub B ops _ slots slots' i s s' (ci_shards Hinv i Hn)
             (sinv_ext _ _ _ _ (fun x => eq_sym (proj1 Hsl x)) Hinv') (so_sub _ _ _ Hst)).
    intros e He Hic. apply spec_latest_frame. exact (Hkey e He Hic).
  - rewrite app_nil_r. exact Hst.
  - intros e [].
  - exact Hop.
  - apply Hsl.
Qed.

(* neither the shards nor the slots change *)
Lemma frame_step : forall B ops op sh slots,
  cinvc B ops sh slots -> op_key op = None -> step_postc B ops op sh sh slots [].
Proof.
  intros B ops op sh slots Hinv Hop. split; [|split].
  - constructor.
    + apply (ci_len Hinv).
    + intros j sj Hj.
      apply (shard_ok_frame B ops _ slots _ j sj (ci_shards Hinv j Hj)).
      * reflexivity.
      * intros k' _. apply spec_latest_frame. rewrite Hop. discriminate.
    + apply (ci_slots Hinv).
  - rewrite (inserted_kv_nokey op Hop), app_nil_r. reflexivity.
  - intros e [].
Qed.

Lemma map_shards_nf : forall g l,
  map_shards g l = (map (fun s => fst (g s)) l, flat_map (fun s => snd (g s)) l).
Proof.
  intros g. induction l as [|a t IH]; [reflexivity|].
  cbn [map_shards map flat_map]. rewrite IH. destruct (g a); reflexivity.
Qed.

Lemma map_shards_perm : forall g l,
  (forall s, In s l ->
     Permutation (map kv (snd (g s)) ++ map kv (sh_heap (fst (g s)))) (map kv (sh_heap s))) ->
  Permutation (map kv (flat_map (fun s => snd (g s)) l) ++
               map kv (concat (map sh_heap (map (fun s => fst (g s)) l))))
              (map kv (concat (map sh_heap l))).
Proof.
  intros g. induction l as [|a t IH]; intros Hall; [reflexivity|].
  cbn [map flat_map concat]. rewrite !map_app.
  pose proof (Hall a (or_introl eq_refl)) as P1.
  pose proof (IH (fun s Hs => Hall s (or_intror Hs))) as P2.
  (* (F1 ++ F2) ++ A' ++ T' ~ A ++ T *)
  rewrite <- app_assoc.
  eapply perm_trans; [apply Permutation_app_head; apply Permutation_app_swap_app|].
  rewrite app_assoc. eapply perm_trans; [apply Permutation_app_tail; exact P1|].
  apply Permutation_app_head. exact P2.
Qed.

(* after an insert the id tells the new entry from the descendants of the old ones *)
Lemma insert_descends : forall B rc s e0 h' x, sinv B rc s -> ce_id e0 = sh_next s ->
  heap_sub (sh_heap s ++ [e0]) h' -> In x h' ->
  (ce_id x = sh_next s -> same_static e0 x) /\
  (ce_id x <> sh_next s -> exists y, In y (sh_heap s) /\ same_static y x /\ (ce_in_cache x = true -> ce_in_cache y = true)).
Proof.
  intros B rc s e0 h' x Hinv Hid Hsub Hx.
  destruct (Hsub x Hx) as [y [Hy [Ss Ic]]]. apply in_app_or in Hy. destruct Hy as [Hy|[Hy|[]]].
  - split.
    + intros E. exfalso. pose proof (si_next Hinv y Hy) as L. destruct Ss as [Sid _]. lia.
    + intros _. exists y. repeat split; try assumption; apply Ss.
  - subst y. split.
    + intros _. exact Ss.
    + intros E. exfalso. apply E. destruct Ss as [Sid _]. congruence.
Qed.

Lemma insert_step : forall B ops st k v charge c' h f, cinv B ops st -> (B -> charge < two64) ->
  lru_insert (cs_cache st) k v charge = (c', h, f) ->
  step_post B ops (CInsert k v charge) st (mkCS c' (cs_slots st ++ [Some h])) f.
Proof.
  intros B ops st k v charge c' h f Hinv HBc H. unfold lru_insert in H.
  destruct (cinv_get B ops _ _ (shard_index k) Hinv (shard_index_lt k)) as [Hnth Hsk].
  set (i := shard_index k) in *. set (s := get_shard (cs_cache st) i) in *.
  destruct (shard_insert s k v charge) as [[s' id] f0] eqn:Ei. injection H as <- <- <-.
  pose proof (sk_inv _ _ _ _ _ Hsk) as Hinv0.
  destruct (shard_insert_ok _ _ s k v charge s' id f0 Hinv0 (sk_amo _ _ _ _ _ Hsk) HBc Ei)
    as [Hid [Hinv' [Hamo' [[r [b Hst]] [Hnew Hb]]]]].
  set (e0 := mkCE id k v charge r b) in *.
  assert (Hid0 : ce_id e0 = sh_next s) by exact Hid.
  pose proof (slots_push_some i id (cs_slots st)) as Hsl.
  apply (put_step B ops _ _ _ i s s' _ f0 [e0] Hinv Hnth).
  - reflexivity.
  - constructor.
    + apply (sinv_ext _ _ _ _ (fun x => eq_sym (proj1 Hsl x)) Hinv').
    + exact Hamo'.
    + intros e He. destruct (so_sub _ _ _ Hst e He) as [y [Hy [[_ [Sk _]] _]]].
      rewrite <- Sk. apply in_app_or in Hy. destruct Hy as [Hy|[Hy|[]]].
      * apply (sk_idx _ _ _ _ _ Hsk). exact Hy.
      * subst y. reflexivity.
    + (* the entry under k is the new one; the others keep their key and value *)
      intros e He Hic. rewrite spec_latest_snoc.
      destruct (insert_descends _ _ s e0 _ e Hinv0 Hid0 (so_sub _ _ _ Hst) He) as [D1 D2].
      destruct (bytes_eqb k (ce_key e)) eqn:Ek.
      * apply bytes_eqb_eq in Ek. pose proof (Hnew e He Hic (eq_sym Ek)) as Hide.
        destruct (D1 ltac:(congruence)) as [_ [_ [Sv _]]]. rewrite <- Sv. reflexivity.
      * apply bytes_eqb_neq in Ek.
        assert (Hne : ce_id e <> sh_next s).
        { intros E. destruct (D1 E) as [_ [Sk _]]. exact (Ek Sk). }
        destruct (D2 Hne) as [y [Hy [[_ [Sk [Sv _]]] Icy]]].
        rewrite <- Sk, <- Sv. apply (sk_latest _ _ _ _ _ Hsk); [exact Hy|apply Icy, Hic].
  - exact Hst.
  - intros e [<-|[]]. reflexivity.
  - intros k' Ek. injection Ek as <-. reflexivity.
  - apply Hsl.
Qed.

(* every shard changes, by g, and the slots stay (lru_prune) *)
Lemma map_step : forall B ops op (g : lru_shard -> lru_shard * list centry) l slots,
  cinvc B ops l slots -> op_key op = None ->
  (forall rc s, sinv B rc s -> amo (sh_heap s) ->
     sinv B rc (fst (g s)) /\ cstep_ok (sh_heap s) (sh_heap (fst (g s))) (snd (g s))) ->
  step_postc B ops op l (map (fun s => fst (g s)) l) slots (flat_map (fun s => snd (g s)) l).
Proof.
  intros B ops op g l slots Hinv Hop Hg.
  assert (Hone : forall i s, nth_error l i = Some s ->
            shard_ok B (ops ++ [op]) slots i (fst (g s)) /\
            cstep_ok (sh_heap s) (sh_heap (fst (g s))) (snd (g s))).
  { intros i s Hn. pose proof (ci_shards Hinv i Hn) as Hsk.
    destruct (Hg _ s (sk_inv _ _ _ _ _ Hsk) (sk_amo _ _ _ _ _ Hsk)) as [Hinv' Hst].
    split; [|exact Hst].
    apply (shard_ok_sub B ops _ slots _ i s _ Hsk Hinv' (so_sub _ _ _ Hst)).
    intros e' _ _. apply spec_latest_frame. rewrite Hop. discriminate. }
  split; [|split].
  - constructor.
    + rewrite map_length. apply (ci_len Hinv).
    + intros i s' Hi. rewrite nth_error_map in Hi.
      destruct (nth_error l i) as [s|] eqn:A; [|discriminate Hi].
      injection Hi as <-. apply (Hone i s A).
    + apply (ci_slots Hinv).
  - rewrite (inserted_kv_nokey op Hop), app_nil_r. apply map_shards_perm.
    intros s Hs. apply In_nth_error in Hs. destruct Hs as [i Hs].
    apply (so_perm _ _ _ (proj2 (Hone i s Hs))).
  - intros e He. apply in_flat_map in He. destruct He as (s & Hs & He).
    apply In_nth_error in Hs. destruct Hs as [i Hs].
    destruct (Hone i s Hs) as [Hsk' Hst].
    exact (freed_not_held _ _ _ _ _ _ e (sk_inv _ _ _ _ _ Hsk') Hst
             (sk_idx _ _ _ _ _ (ci_shards Hinv i Hs)) He).
Qed.

Lemma cache_step_inv : forall B ops st op st' obs f, cinv B ops st -> (B -> charge_ok op) ->
  cache_step st op = (st', obs, f) -> step_post B ops op st st' f.
Proof.
  intros B ops st op st' obs f Hinv HBc H.
  destruct op as [k v charge|k|n|k| | |]; cbn [cache_step] in H.
  - destruct (lru_insert (cs_cache st) k v charge) as [[c' h] f0] eqn:E. injection H as <- <- <-.
    exact (insert_step B ops st k v charge c' h f0 Hinv HBc E).
  - unfold lru_lookup in H.
    destruct (cinv_get B ops _ _ (shard_index k) Hinv (shard_index_lt k)) as [Hnth Hsk].
    set (i := shard_index k) in *. set (s := get_shard (cs_cache st) i) in *.
    destruct (shard_lookup s k) as [s' r] eqn:El.
    pose proof (shard_lookup_ok _ _ s k s' r (sk_inv _ _ _ _ _ Hsk) El) as Hlk.
    destruct r as [[id v]|]; injection H as <- <- <-.
    + destruct Hlk as [Hinv' Hst].
      apply (put_step_sub B ops (CLookup k) _ _ i s s' _ _ [] Hinv Hnth eq_refl Hinv' Hst
               (slots_push_some i id _)); discriminate.
    + subst s'.
      apply (put_step_sub B ops (CLookup k) _ _ i s s _ _ [] Hinv Hnth eq_refl (sk_inv _ _ _ _ _ Hsk)
               (cstep_ok_refl _) (slots_push_none i _)); discriminate.
  - destruct (nth n (cs_slots st) None) as [[i id]|] eqn:En.
    + unfold lru_release in H. cbn [fst snd] in H.
      destruct (slots_release _ _ _ _ En) as [Hin Hsl].
      destruct (cinv_get B ops _ _ i Hinv (ci_slots Hinv i id Hin)) as [Hnth Hsk].
      set (s := get_shard (cs_cache st) i) in *.
      destruct (shard_release s id) as [s' f0] eqn:Er. injection H as <- <- <-.
      unfold shard_release in Er.
      destruct (shard_unref_ok _ _ s id s' f0 (sk_inv _ _ _ _ _ Hsk) (proj1 (hcnt_pos_in _ _ _) Hin) Er)
        as [Hinv' Hst].
      apply (put_step_sub B ops (CRelease n) _ _ i s s' _ _ f0 Hinv Hnth eq_refl Hinv' Hst Hsl); discriminate.
    + injection H as <- <- <-. exact (frame_step B ops (CRelease n) _ _ Hinv eq_refl).
  - unfold lru_erase in H.
    destruct (cinv_get B ops _ _ (shard_index k) Hinv (shard_index_lt k)) as [Hnth Hsk].
    set (i := shard_index k) in *. set (s := get_shard (cs_cache st) i) in *.
    destruct (shard_erase s k) as [s' f0] eqn:Ee. injection H as <- <- <-.
    unfold shard_erase in Ee.
    destruct (shard_erase_ok _ _ s k s' f0 (sk_inv _ _ _ _ _ Hsk) Ee) as [Hinv' [Hst Hgone]].
    apply (put_step_sub B ops (CErase k) _ _ i s s' _ _ f0 Hinv Hnth eq_refl Hinv' Hst (slots_same i _)).
    + intros e' He' Hic' Ek. injection Ek as Ek.
      exact (Hgone (sk_amo _ _ _ _ _ Hsk) e' He' Hic' (eq_sym Ek)).
    + intros k' Ek. injection Ek as <-. reflexivity.
  - unfold lru_prune in H. rewrite map_shards_nf in H. injection H as <- <- <-.
    apply (map_step B ops CPrune shard_prune _ _ Hinv eq_refl). intros rc s Hs _.
    destruct (shard_prune s) as [s' fi] eqn:Hp. unfold shard_prune in Hp. exact (prune_loop_ok _ _ _ s s' fi Hs Hp).
  - injection H as <- <- <-. exact (frame_step B ops CUsage _ _ Hinv eq_refl).
  - unfold lru_new_id in H. cbv beta iota zeta in H. injection H as <- <- <-.
    exact (frame_step B ops CNewId _ _ Hinv eq_refl).
Qed.

Lemma cache_run_inv : forall B l ops st st' obs fr, cinv B ops st -> (B -> charges_ok l) ->
  cache_run st l = (st', obs, fr) ->
  cinv B (ops ++ l) st' /\
  Permutation (map kv fr ++ map kv (all_heap (cs_cache st')))
              (map kv (all_heap (cs_cache st)) ++ inserted_kv l).
Proof.
  intros B. induction l as [|op l IH]; intros ops st st' obs fr Hinv HB H.
  - cbn [cache_run] in H. injection H as <- <- <-. rewrite !app_nil_r. split; [exact Hinv|].
    cbn [map app]. reflexivity.
  - cbn [cache_run] in H. destruct (cache_step st op) as [[st1 o1] f1] eqn:Es.
    destruct (cache_run st1 l) as [[st2 o2] f2] eqn:Er. injection H as <- <- <-.
    destruct (cache_step_inv B ops st op st1 o1 f1 Hinv (fun b => Forall_inv (HB b)) Es) as [Hinv1 [P1 _]].
    destruct (IH (ops ++ [op]) st1 st2 o2 f2 Hinv1 (fun b => Forall_inv_tail (HB b)) Er) as [Hinv2 P2].
    rewrite <- app_assoc in Hinv2. cbn [app] in Hinv2. split; [exact Hinv2|].
    change (op :: l) with ([op] ++ l). rewrite inserted_kv_app. rewrite map_app, <- app_assoc.
    eapply perm_trans; [apply Permutation_app_head; exact P2|].
    rewrite !app_assoc. apply Permutation_app_tail. exact P1.
Qed.

Lemma cinv_init : forall B capacity, cinv B [] (cache_init capacity).
Proof.
  intros B capacity. constructor.
  - apply repeat_length.
  - intros i s Hs. apply nth_error_In in Hs. apply repeat_spec in Hs. subst s. constructor.
    + exact (sinv_new B _).
    + intros e1 e2 [].
    + intros e [].
    + intros e [].
  - intros i id [].
Qed.

Lemma reached_inv : forall (B : Prop) capacity ops st fr, (B -> charges_ok ops) -> reached capacity ops st fr ->
  cinv B ops st /\ Permutation (map kv fr ++ map kv (all_heap (cs_cache st))) (inserted_kv ops).
Proof.
  intros B capacity ops st fr HB [obs H].
  destruct (cache_run_inv B ops [] _ st obs fr (cinv_init B capacity) HB H) as [H1 H2].
  cbn [app] in H1. split; [exact H1|].
  assert (E : all_heap (cs_cache (cache_init capacity)) = []).
  { unfold cache_init, lru_create, all_heap. cbn [cs_cache lc_shards]. reflexivity. }
  rewrite E in H2. cbn [map app] in H2. exact H2.
Qed.
