(* BaseProofs.v -- proofs about Base.v: the nlen / take_n / drop_n / wf_bytes
   toolkit every other file uses, positional numerals ([Section Digits]) and the
   fixed32/fixed64 round trips, the theory of lcdb's comparators ([order], with
   [order_on], [order_flip], [lex_order]), of which byte-string comparison is one. *)
From LCDB Require Export ListFacts.
From LCDB Require Import Base.
Local Open Scope N_scope.

#[local] Arguments N.mul : simpl never.

Lemma is_byte_lt : forall b, is_byte b = true <-> b < 256.
Proof. intros b. unfold is_byte. apply N.ltb_lt. Qed.

Lemma wf_bytes_nil : wf_bytes [] = true.
Proof. reflexivity. Qed.

Lemma wf_bytes_cons : forall b l,
  wf_bytes (b :: l) = true <-> b < 256 /\ wf_bytes l = true.
Proof.
  intros b l. unfold wf_bytes. cbn [forallb].
  rewrite andb_true_iff, is_byte_lt. reflexivity.
Qed.

Lemma wf_bytes_app_eq : forall a b, wf_bytes (a ++ b) = wf_bytes a && wf_bytes b.
Proof. intros a b. apply forallb_app. Qed.

Lemma wf_bytes_app : forall a b,
  wf_bytes (a ++ b) = true <-> wf_bytes a = true /\ wf_bytes b = true.
Proof. intros a b. rewrite wf_bytes_app_eq. apply andb_true_iff. Qed.

Lemma wf_bytes_flat_map : forall {X} (f : X -> bytes) l,
  (forall x, In x l -> wf_bytes (f x) = true) -> wf_bytes (flat_map f l) = true.
Proof.
  intros X f. induction l as [|x l IH]; intros H; cbn [flat_map]; [reflexivity|].
  rewrite wf_bytes_app_eq, H, IH; [reflexivity|intros y Hy; apply H; right; exact Hy|left; reflexivity].
Qed.

Lemma wf_bytes_forall : forall l,
  wf_bytes l = true <-> (forall b, In b l -> b < 256).
Proof.
  intros l. unfold wf_bytes. rewrite forallb_forall.
  split; intros H b Hb; apply is_byte_lt; apply H; exact Hb.
Qed.

Lemma nlen_nil : forall (A : Type), nlen (@nil A) = 0.
Proof. reflexivity. Qed.

Lemma nlen_cons : forall (A : Type) (a : A) l, nlen (a :: l) = 1 + nlen l.
Proof. intros A a l. unfold nlen. cbn [length]. lia. Qed.

Lemma nlen_app : forall (A : Type) (a b : list A), nlen (a ++ b) = nlen a + nlen b.
Proof. intros A a b. unfold nlen. rewrite app_length. lia. Qed.

Lemma nlen_rev_append : forall (A : Type) (a b : list A), nlen (rev_append a b) = nlen a + nlen b.
Proof. intros. unfold nlen. rewrite rev_append_rev, app_length, rev_length. lia. Qed.

Lemma nlen_0_nil : forall A (l : list A), nlen l = 0 -> l = [].
Proof.
  intros A l H. destruct l as [|x l]; [reflexivity | discriminate H].
Qed.

Lemma nlen_take : forall A n (l : list A), nlen (take_n n l) = N.min n (nlen l).
Proof. intros. unfold nlen, take_n. rewrite firstn_length. lia. Qed.

Lemma nlen_firstn : forall A n (l : list A), nlen (firstn n l) = N.of_nat (Nat.min n (length l)).
Proof. intros. unfold nlen. rewrite firstn_length. reflexivity. Qed.

Lemma nlen_drop : forall A n (l : list A), nlen (drop_n n l) = nlen l - n.
Proof. intros. unfold nlen, drop_n. rewrite skipn_length. lia. Qed.

Lemma nlen_repeat : forall A (x : A) n, nlen (repeat x n) = N.of_nat n.
Proof. intros. unfold nlen. rewrite repeat_length. reflexivity. Qed.

Lemma take_drop : forall A n (l : list A), take_n n l ++ drop_n n l = l.
Proof. intros. apply firstn_skipn. Qed.

Lemma take_all : forall A n (l : list A), nlen l <= n -> take_n n l = l.
Proof. intros A n l H. apply firstn_all2. unfold nlen in H. lia. Qed.

Lemma drop_all : forall A n (l : list A), nlen l <= n -> drop_n n l = [].
Proof. intros A n l H. apply skipn_all2. unfold nlen in H. lia. Qed.

Lemma take_0 : forall A (l : list A), take_n 0 l = [].
Proof. reflexivity. Qed.

Lemma drop_0 : forall A (l : list A), drop_n 0 l = l.
Proof. reflexivity. Qed.

Lemma take_app_lt : forall A k (a b : list A), k < nlen a -> take_n k (a ++ b) = take_n k a.
Proof. intros A k a b H. apply firstn_app_le. unfold nlen in H. lia. Qed.

Lemma take_app_ge : forall A k (a b : list A),
  nlen a <= k -> take_n k (a ++ b) = a ++ take_n (k - nlen a) b.
Proof.
  intros A k a b H. unfold take_n, nlen in *. rewrite firstn_app.
  rewrite firstn_all2 by lia. do 2 f_equal. lia.
Qed.

Lemma drop_app_ge : forall A k (a b : list A),
  nlen a <= k -> drop_n k (a ++ b) = drop_n (k - nlen a) b.
Proof.
  intros A k a b H. unfold drop_n, nlen in *. rewrite skipn_app.
  rewrite skipn_all2 by lia. cbn [app]. f_equal. lia.
Qed.

Lemma take_n_nlen_app : forall (s rest : bytes), take_n (nlen s) (s ++ rest) = s.
Proof.
  intros s rest. rewrite take_app_ge, N.sub_diag, take_0 by reflexivity. apply app_nil_r.
Qed.

Lemma drop_n_nlen_app : forall (s rest : bytes), drop_n (nlen s) (s ++ rest) = rest.
Proof.
  intros s rest. rewrite drop_app_ge, N.sub_diag by reflexivity. apply drop_0.
Qed.

Lemma take_n_app_exact : forall (a b : bytes) n, n = nlen a -> take_n n (a ++ b) = a.
Proof. intros. subst. apply take_n_nlen_app. Qed.

Lemma drop_n_app_exact : forall (a b : bytes) n, n = nlen a -> drop_n n (a ++ b) = b.
Proof. intros. subst. apply drop_n_nlen_app. Qed.

Lemma nlen_take_n_le : forall n (l : bytes), n <= nlen l -> nlen (take_n n l) = n.
Proof. intros. rewrite nlen_take. apply N.min_l. assumption. Qed.

Lemma drop_n_drop_n : forall a b (l : bytes), drop_n a (drop_n b l) = drop_n (b + a) l.
Proof.
  intros. unfold drop_n. rewrite skipn_skipn'. f_equal. lia.
Qed.

(* if [a ++ r] is what lies at offset [off], then [r] lies at [off + nlen a] *)
Lemma drop_n_suffix : forall off (data a r : bytes),
  drop_n off data = a ++ r -> drop_n (off + nlen a) data = r.
Proof. intros off data a r H. rewrite <- drop_n_drop_n, H. apply drop_n_nlen_app. Qed.

Lemma wf_bytes_take : forall n l, wf_bytes l = true -> wf_bytes (take_n n l) = true.
Proof.
  intros n l H. rewrite <- (take_drop _ n l) in H. apply wf_bytes_app in H. apply H.
Qed.

Lemma wf_bytes_drop : forall n l, wf_bytes l = true -> wf_bytes (drop_n n l) = true.
Proof.
  intros n l H. rewrite <- (take_drop _ n l) in H. apply wf_bytes_app in H. apply H.
Qed.

Lemma mod256_is_byte : forall x, is_byte (x mod 256) = true.
Proof. intros x. apply is_byte_lt. apply N.mod_lt. discriminate. Qed.

(* Positional numerals, least significant digit first, over a base [b].  [le32] is
   [digits 256 4] and [de32] is [val 256]; Snappy's [le_num] is [val 256]. *)
Section Digits.
Variable b : N.

Fixpoint val (ds : list N) : N :=
  match ds with [] => 0 | d :: r => d + b * val r end.

Fixpoint digits (k : nat) (n : N) : list N :=
  match k with O => [] | S k' => n mod b :: digits k' (n / b) end.

Lemma digit_step : forall a q,
  a < b -> (a + b * q) mod b = a /\ (a + b * q) / b = q.
Proof.
  intros a q Ha. assert (Hb : b <> 0) by (intros ->; lia).
  rewrite (N.mul_comm b q), N.mod_add, N.div_add, N.mod_small, N.div_small by assumption.
  split; reflexivity.
Qed.

Lemma tag_fields : forall q a,
  a < b -> (q * b + a) mod b = a /\ (q * b + a) / b = q.
Proof. intros q a. rewrite N.add_comm, N.mul_comm. apply digit_step. Qed.

Lemma digit_lt : forall a q p, a < b -> q < p -> a + b * q < b * p.
Proof.
  intros a q p Ha Hq.
  assert (H : b * (q + 1) <= b * p) by (apply N.mul_le_mono_l; lia). lia.
Qed.

(* two-digit numbers compare digit by digit, the high one first *)
Lemma digits_compare : forall q a q' a', a < b -> a' < b ->
  (q * b + a ?= q' * b + a') = match q ?= q' with Eq => a ?= a' | c => c end.
Proof.
  intros q a q' a' Ha Ha'. destruct (N.compare_spec q q') as [->|L|G].
  - destruct (N.compare_spec a a') as [->|L|G];
      [apply N.compare_refl|apply N.compare_lt_iff; lia|apply N.compare_gt_iff; lia].
  - apply N.compare_lt_iff. pose proof (digit_lt a q q' Ha L). lia.
  - apply N.compare_gt_iff. pose proof (digit_lt a' q' q Ha' G). lia.
Qed.

Lemma val_digits : forall k n, n < b ^ N.of_nat k -> val (digits k n) = n.
Proof.
  induction k as [|k IH]; intros n Hn; cbn [digits val].
  - cbn in Hn. lia.
  - rewrite Nat2N.inj_succ, N.pow_succ_r' in Hn.
    assert (Hb : b <> 0) by (intros ->; lia).
    rewrite IH by (apply N.div_lt_upper_bound; assumption).
    rewrite N.add_comm. symmetry. apply N.div_mod'.
Qed.

Lemma digits_val : forall ds,
  Forall (fun d => d < b) ds -> digits (length ds) (val ds) = ds.
Proof.
  induction 1 as [|d ds Hd _ IH]; cbn [length val digits]; [reflexivity|].
  destruct (digit_step d (val ds) Hd) as [-> ->]. rewrite IH. reflexivity.
Qed.

End Digits.

Lemma le32_digits : forall x, le32 x = digits 256 4 x.
Proof.
  intros x. unfold le32. cbn [digits]. rewrite !N.div_div by discriminate. reflexivity.
Qed.

Lemma de32_val : forall a b c d rest,
  de32 (a :: b :: c :: d :: rest) = Some (val 256 [a; b; c; d]).
Proof. intros. cbn [de32 val]. f_equal. ring. Qed.

Lemma le32_length : forall x, length (le32 x) = 4%nat.
Proof. intros x. reflexivity. Qed.

Lemma le64_length : forall x, length (le64 x) = 8%nat.
Proof. intros x. unfold le64. rewrite app_length, !le32_length. reflexivity. Qed.

Lemma nlen_le32 : forall x, nlen (le32 x) = 4.
Proof. reflexivity. Qed.

Lemma nlen_le64 : forall x, nlen (le64 x) = 8.
Proof. intros x. unfold nlen. rewrite le64_length. reflexivity. Qed.

Lemma le32_wf : forall x, wf_bytes (le32 x) = true.
Proof.
  intros x. unfold le32, wf_bytes. cbn [forallb].
  rewrite !mod256_is_byte. reflexivity.
Qed.

Lemma le64_wf : forall x, wf_bytes (le64 x) = true.
Proof.
  intros x. unfold le64. apply wf_bytes_app. split; apply le32_wf.
Qed.

Lemma de32_le32 : forall x rest,
  x < 4294967296 -> de32 (le32 x ++ rest) = Some x.
Proof.
  intros x rest Hx. unfold le32. cbn [app]. rewrite de32_val. fold (le32 x).
  rewrite le32_digits, val_digits by exact Hx. reflexivity.
Qed.

Lemma le32_sum : forall x c0 c1 c2 c3, x < 4294967296 ->
  le32 x = [c0; c1; c2; c3] ->
  c0 + 256 * c1 + 65536 * c2 + 16777216 * c3 = x.
Proof.
  intros x c0 c1 c2 c3 Hx H. pose proof (de32_le32 x [] Hx) as Hd.
  rewrite app_nil_r, H in Hd. cbn [de32] in Hd. injection Hd as Hd. exact Hd.
Qed.

Lemma skipn4_le32 : forall x rest, skipn 4 (le32 x ++ rest) = rest.
Proof. intros x rest. reflexivity. Qed.

Lemma skipn8_le64 : forall x rest, skipn 8 (le64 x ++ rest) = rest.
Proof. intros x rest. reflexivity. Qed.

Lemma de64_le64 : forall x rest,
  x < 18446744073709551616 -> de64 (le64 x ++ rest) = Some x.
Proof.
  intros x rest Hx. unfold de64, le64. rewrite <- app_assoc.
  rewrite skipn4_le32.
  rewrite !de32_le32 by (apply N.mod_lt; discriminate).
  rewrite (N.mod_small (x / 4294967296)) by (apply N.div_lt_upper_bound; [discriminate|exact Hx]).
  f_equal. rewrite N.add_comm. symmetry. apply N.div_mod'.
Qed.

Lemma fixed32_read_le32 : forall x rest,
  x < 4294967296 -> fixed32_read (le32 x ++ rest) = Some (x, rest).
Proof.
  intros x rest Hx. unfold fixed32_read.
  rewrite de32_le32 by exact Hx. rewrite skipn4_le32. reflexivity.
Qed.

Lemma fixed64_read_le64 : forall x rest,
  x < 18446744073709551616 -> fixed64_read (le64 x ++ rest) = Some (x, rest).
Proof.
  intros x rest Hx. unfold fixed64_read.
  rewrite de64_le64 by exact Hx. rewrite skipn8_le64. reflexivity.
Qed.

(* Versions stated with 2^32 / 2^64, which are the numerals by computation. *)
Lemma de32_le32_pow : forall x rest,
  x < 2 ^ 32 -> de32 (le32 x ++ rest) = Some x.
Proof. exact de32_le32. Qed.

Lemma de64_le64_pow : forall x rest,
  x < 2 ^ 64 -> de64 (le64 x ++ rest) = Some x.
Proof. exact de64_le64. Qed.

Lemma fixed32_read_le32_pow : forall x rest,
  x < 2 ^ 32 -> fixed32_read (le32 x ++ rest) = Some (x, rest).
Proof. exact fixed32_read_le32. Qed.

Lemma fixed64_read_le64_pow : forall x rest,
  x < 2 ^ 64 -> fixed64_read (le64 x ++ rest) = Some (x, rest).
Proof. exact fixed64_read_le64. Qed.

Lemma de32_bound : forall a b c d rest v,
  a < 256 -> b < 256 -> c < 256 -> d < 256 ->
  de32 (a :: b :: c :: d :: rest) = Some v -> v < 4294967296.
Proof.
  intros a b c d rest v Ha Hb Hc Hd Hv. cbn [de32] in Hv.
  injection Hv as Hv. lia.
Qed.

Lemma de32_bound_wf : forall l v,
  wf_bytes l = true -> de32 l = Some v -> v < 4294967296.
Proof.
  intros l v Hwf Hv.
  destruct l as [|a [|b [|c [|d rest]]]]; cbn [de32] in Hv; try discriminate Hv.
  apply wf_bytes_cons in Hwf. destruct Hwf as [Ha Hwf].
  apply wf_bytes_cons in Hwf. destruct Hwf as [Hb Hwf].
  apply wf_bytes_cons in Hwf. destruct Hwf as [Hc Hwf].
  apply wf_bytes_cons in Hwf. destruct Hwf as [Hd Hwf].
  exact (de32_bound a b c d rest v Ha Hb Hc Hd Hv).
Qed.

Lemma de64_some : forall l, 8 <= nlen l -> exists v, de64 l = Some v.
Proof.
  intros l H.
  destruct l as [|a [|b [|c [|d [|e [|f [|g [|h r]]]]]]]]; unfold nlen in H; cbn [length] in H; try lia.
  eexists. reflexivity.
Qed.

Lemma le32_de32 : forall a b c d v,
  a < 256 -> b < 256 -> c < 256 -> d < 256 ->
  de32 [a; b; c; d] = Some v -> le32 v = [a; b; c; d].
Proof.
  intros a b c d v Ha Hb Hc Hd Hv. rewrite de32_val in Hv. injection Hv as <-.
  rewrite le32_digits. apply (digits_val 256 [a; b; c; d]). repeat constructor; assumption.
Qed.

Lemma le64_de64 : forall l v,
  length l = 8%nat -> wf_bytes l = true -> de64 l = Some v -> le64 v = l.
Proof.
  intros l v Hl Hwf Hv.
  destruct l as [|a0 [|a1 [|a2 [|a3 [|b0 [|b1 [|b2 [|b3 [|]]]]]]]]]; try discriminate Hl.
  do 8 (apply wf_bytes_cons in Hwf; destruct Hwf as [? Hwf]).
  unfold de64 in Hv. cbn [skipn] in Hv.
  destruct (de32 [a0; a1; a2; a3; b0; b1; b2; b3]) as [lo|] eqn:Elo; [|discriminate Hv].
  destruct (de32 [b0; b1; b2; b3]) as [hi|] eqn:Ehi; [|discriminate Hv].
  injection Hv as <-.
  assert (Blo : lo < 4294967296) by (eapply de32_bound; [| | | |exact Elo]; assumption).
  assert (Bhi : hi < 4294967296) by (eapply de32_bound; [| | | |exact Ehi]; assumption).
  unfold le64. destruct (digit_step 4294967296 lo hi Blo) as [-> ->].
  rewrite (N.mod_small hi) by exact Bhi.
  rewrite (le32_de32 a0 a1 a2 a3 lo), (le32_de32 b0 b1 b2 b3 hi) by assumption.
  reflexivity.
Qed.

Lemma le32_inj : forall x y,
  x < 4294967296 -> y < 4294967296 -> le32 x = le32 y -> x = y.
Proof.
  intros x y Hx Hy Heq.
  rewrite <- (val_digits 256 4 x Hx), <- (val_digits 256 4 y Hy), <- !le32_digits, Heq.
  reflexivity.
Qed.

Lemma de64_bound_wf : forall l v,
  wf_bytes l = true -> de64 l = Some v -> v < 18446744073709551616.
Proof.
  intros l v Hwf Hv. unfold de64 in Hv.
  destruct (de32 l) as [lo|] eqn:Hlo; [|discriminate Hv].
  destruct (de32 (skipn 4 l)) as [hi|] eqn:Hhi; [|discriminate Hv].
  injection Hv as Hv.
  assert (Hlo' : lo < 4294967296) by (eapply de32_bound_wf; eauto).
  assert (Hwf' : wf_bytes (skipn 4 l) = true).
  { rewrite <- (firstn_skipn 4 l) in Hwf. apply wf_bytes_app in Hwf. apply Hwf. }
  assert (Hhi' : hi < 4294967296) by (eapply de32_bound_wf; eauto).
  lia.
Qed.

Lemma list_eqb_eq : forall {A} (eqb : A -> A -> bool), (forall a b, eqb a b = true -> a = b) ->
  forall l1 l2, list_eqb eqb l1 l2 = true -> l1 = l2.
Proof.
  intros A eqb H l1; induction l1 as [|x r IH]; intros [|y s] E; cbn [list_eqb] in E; try discriminate; [reflexivity|].
  apply andb_true_iff in E. destruct E as [E1 E2]. f_equal; [apply H; exact E1|apply IH; exact E2].
Qed.

Lemma list_eqb_refl : forall {A} (eqb : A -> A -> bool), (forall a, eqb a a = true) ->
  forall l, list_eqb eqb l l = true.
Proof. intros A eqb H l; induction l as [|x r IH]; cbn [list_eqb]; [reflexivity|rewrite H, IH; reflexivity]. Qed.

Lemma bytes_eqb_eq : forall a b, bytes_eqb a b = true <-> a = b.
Proof.
  intros a b. split; [apply list_eqb_eq; intros x y; apply N.eqb_eq|].
  intros ->. apply list_eqb_refl, N.eqb_refl.
Qed.

Lemma bytes_eqb_refl : forall a, bytes_eqb a a = true.
Proof. intros a. apply bytes_eqb_eq. reflexivity. Qed.

Lemma bytes_eqb_neq : forall a b, bytes_eqb a b = false <-> a <> b.
Proof.
  intros a b. split.
  - intros Hf Heq. apply bytes_eqb_eq in Heq. congruence.
  - intros Hne. destruct (bytes_eqb a b) eqn:He; [|reflexivity].
    apply bytes_eqb_eq in He. contradiction.
Qed.

Lemma bytes_compare_refl : forall a, bytes_compare a a = Eq.
Proof.
  induction a as [|x a IH]; cbn [bytes_compare].
  - reflexivity.
  - rewrite N.compare_refl. exact IH.
Qed.

Lemma bytes_compare_eq_iff : forall a b, bytes_compare a b = Eq <-> a = b.
Proof.
  induction a as [|x a IH]; intros [|y b]; cbn [bytes_compare].
  - split; reflexivity.
  - split; discriminate.
  - split; discriminate.
  - destruct (N.compare x y) eqn:Hc.
    + apply N.compare_eq_iff in Hc. subst y. rewrite IH. split.
      * intros Hab. subst. reflexivity.
      * intros Heq. injection Heq as Hab. exact Hab.
    + split; [discriminate|]. intros Heq. injection Heq as Hxy Hab. subst y.
      rewrite N.compare_refl in Hc. discriminate Hc.
    + split; [discriminate|]. intros Heq. injection Heq as Hxy Hab. subst y.
      rewrite N.compare_refl in Hc. discriminate Hc.
Qed.

Lemma bytes_compare_antisym : forall a b,
  bytes_compare a b = CompOpp (bytes_compare b a).
Proof.
  induction a as [|x a IH]; intros [|y b]; cbn [bytes_compare]; try reflexivity.
  rewrite (N.compare_antisym y x).
  destruct (N.compare y x); cbn [CompOpp]; try reflexivity.
  apply IH.
Qed.

Lemma bytes_compare_lt_trans : forall a b c,
  bytes_compare a b = Lt -> bytes_compare b c = Lt -> bytes_compare a c = Lt.
Proof.
  induction a as [|x a IH]; intros [|y b] [|z c] Hab Hbc;
    cbn [bytes_compare] in *; try discriminate; try reflexivity.
  destruct (N.compare x y) eqn:Hxy; try discriminate Hab.
  - apply N.compare_eq_iff in Hxy. subst y.
    destruct (N.compare x z) eqn:Hxz; try discriminate Hbc; try reflexivity.
    eapply IH; eauto.
  - destruct (N.compare y z) eqn:Hyz; try discriminate Hbc.
    + apply N.compare_eq_iff in Hyz. subst z. rewrite Hxy. reflexivity.
    + apply N.compare_lt_iff in Hxy. apply N.compare_lt_iff in Hyz.
      assert (Hxz : x < z) by (eapply N.lt_trans; eassumption).
      apply N.compare_lt_iff in Hxz. rewrite Hxz. reflexivity.
Qed.

(* What lcdb asks of a comparator: a total preorder, [Eq] being an equivalence that the
   comparison respects.  EngineSpec.total_order, SkiplistSpec.cmp_order,
   MergerProofs.cmp_order and TableIndexProofs.cmp_order each say this in their own
   words; the theory of such comparisons is developed here, once. *)
Section Order.
Context {A : Type} {cmp : A -> A -> comparison}.

Record order : Prop := {
  cmp_opp : forall a b, cmp a b = CompOpp (cmp b a);
  cmp_lt_trans : forall a b c, cmp a b = Lt -> cmp b c = Lt -> cmp a c = Lt;
  cmp_eq_l : forall a b c, cmp a b = Eq -> cmp a c = cmp b c
}.

Hypothesis O : order.

Lemma cmp_refl a : cmp a a = Eq.
Proof. pose proof (cmp_opp O a a) as H. destruct (cmp a a); [reflexivity|discriminate H|discriminate H]. Qed.

Lemma cmp_eq_sym a b : cmp a b = Eq -> cmp b a = Eq.
Proof. intros H. rewrite (cmp_opp O), H. reflexivity. Qed.

Lemma cmp_gt_lt a b : cmp a b = Gt <-> cmp b a = Lt.
Proof. rewrite (cmp_opp O a b). destruct (cmp b a); cbn [CompOpp]; split; congruence. Qed.

Lemma cmp_eq_r a b c : cmp a b = Eq -> cmp c a = cmp c b.
Proof. intros H. rewrite (cmp_opp O c a), (cmp_opp O c b), (cmp_eq_l O a b c H). reflexivity. Qed.

Lemma cmp_gt_trans a b c : cmp a b = Gt -> cmp b c = Gt -> cmp a c = Gt.
Proof. rewrite !cmp_gt_lt. intros H1 H2. exact (cmp_lt_trans O c b a H2 H1). Qed.

(* composition table of cmp a b and cmp b c *)
Lemma cmp_trans3 a b c :
  match cmp a b, cmp b c with
  | Eq, x => cmp a c = x
  | x, Eq => cmp a c = x
  | Lt, Lt => cmp a c = Lt
  | Gt, Gt => cmp a c = Gt
  | _, _ => True
  end.
Proof.
  destruct (cmp a b) eqn:E1.
  - rewrite (cmp_eq_l O a b c E1). reflexivity.
  - destruct (cmp b c) eqn:E2; [|exact (cmp_lt_trans O a b c E1 E2)|exact I].
    rewrite <- (cmp_eq_r b c a E2). exact E1.
  - destruct (cmp b c) eqn:E2; [|exact I|exact (cmp_gt_trans a b c E1 E2)].
    rewrite <- (cmp_eq_r b c a E2). exact E1.
Qed.

(* [cmp a b <> Gt] reads a <= b *)
Lemma cmp_le_lt a b c : cmp a b <> Gt -> cmp b c = Lt -> cmp a c = Lt.
Proof.
  intros H1 H2. pose proof (cmp_trans3 a b c) as H. rewrite H2 in H.
  destruct (cmp a b); [exact H|exact H|congruence].
Qed.

Lemma cmp_lt_le a b c : cmp a b = Lt -> cmp b c <> Gt -> cmp a c = Lt.
Proof.
  intros H1 H2. pose proof (cmp_trans3 a b c) as H. rewrite H1 in H.
  destruct (cmp b c); [exact H|exact H|congruence].
Qed.

Lemma cmp_le_trans a b c : cmp a b <> Gt -> cmp b c <> Gt -> cmp a c <> Gt.
Proof.
  intros H1 H2. pose proof (cmp_trans3 a b c) as H.
  destruct (cmp a b), (cmp b c); congruence.
Qed.

Lemma cmp_squeeze a b c :
  cmp a b <> Gt -> cmp b c <> Gt -> cmp a c = Eq -> cmp a b = Eq /\ cmp b c = Eq.
Proof.
  intros H1 H2 H3. pose proof (cmp_trans3 a b c) as H.
  destruct (cmp a b), (cmp b c); try congruence; auto.
Qed.

Lemma cmp_not_lt_ge a b : cmp a b <> Lt -> cmp b a <> Gt.
Proof. rewrite cmp_gt_lt. exact (fun H => H). Qed.

Lemma cmp_le_antisym a b : cmp a b <> Gt -> cmp b a <> Gt -> cmp a b = Eq.
Proof.
  intros H1 H2. pose proof (cmp_opp O a b) as H.
  destruct (cmp a b), (cmp b a); cbn [CompOpp] in H; congruence.
Qed.

(* the strict order as a test; [cmp_ltb b a = false] reads a <= b *)
Definition cmp_ltb (a b : A) : bool := match cmp a b with Lt => true | _ => false end.

Lemma cmp_ltb_iff a b : cmp_ltb a b = true <-> cmp a b = Lt.
Proof. unfold cmp_ltb. destruct (cmp a b); split; congruence. Qed.

Lemma cmp_ltb_false_iff a b : cmp_ltb a b = false <-> cmp b a <> Gt.
Proof. unfold cmp_ltb. rewrite cmp_gt_lt. destruct (cmp a b); split; congruence. Qed.

Lemma cmp_ltb_irrefl a : cmp_ltb a a = false.
Proof. unfold cmp_ltb. rewrite cmp_refl. reflexivity. Qed.

Lemma cmp_ltb_trans a b c : cmp_ltb a b = true -> cmp_ltb b c = true -> cmp_ltb a c = true.
Proof. rewrite !cmp_ltb_iff. apply (cmp_lt_trans O). Qed.

Lemma cmp_ltb_asym a b : cmp_ltb a b = true -> cmp_ltb b a = false.
Proof.
  rewrite cmp_ltb_iff, cmp_ltb_false_iff. intros H. rewrite H. discriminate.
Qed.

Lemma cmp_leb_ltb_trans a b c : cmp_ltb b a = false -> cmp_ltb b c = true -> cmp_ltb a c = true.
Proof. rewrite cmp_ltb_false_iff, !cmp_ltb_iff. apply cmp_le_lt. Qed.

Lemma cmp_ltb_leb_trans a b c : cmp_ltb a b = true -> cmp_ltb c b = false -> cmp_ltb a c = true.
Proof. rewrite cmp_ltb_false_iff, !cmp_ltb_iff. apply cmp_lt_le. Qed.

Lemma cmp_leb_trans a b c : cmp_ltb b a = false -> cmp_ltb c b = false -> cmp_ltb c a = false.
Proof. rewrite !cmp_ltb_false_iff. apply cmp_le_trans. Qed.

Lemma cmp_ltb_total a b : cmp a b <> Eq -> cmp_ltb a b = false -> cmp_ltb b a = true.
Proof.
  rewrite cmp_ltb_false_iff, cmp_ltb_iff, cmp_gt_lt. rewrite (cmp_opp O a b).
  destruct (cmp b a); cbn [CompOpp]; congruence.
Qed.

(* the tests in the model's code *)
Lemma cmp_lt_if {B} a b (X Y : B) :
  match cmp a b with Lt => X | _ => Y end = if cmp_ltb a b then X else Y.
Proof. unfold cmp_ltb. destruct (cmp a b); reflexivity. Qed.

Lemma cmp_gt_if {B} a b (X Y : B) :
  match cmp a b with Gt => X | _ => Y end = if cmp_ltb b a then X else Y.
Proof. unfold cmp_ltb. rewrite (cmp_opp O b a). destruct (cmp a b); reflexivity. Qed.

End Order.
Arguments order {A} cmp.

(* An order read through a function, turned round, and the numbers *)
Lemma order_on {A B} (f : B -> A) cmp : order cmp -> order (fun x y => cmp (f x) (f y)).
Proof.
  intros O. constructor; intros a b.
  - exact (cmp_opp O (f a) (f b)).
  - intros c. exact (cmp_lt_trans O (f a) (f b) (f c)).
  - intros c. exact (cmp_eq_l O (f a) (f b) (f c)).
Qed.

Lemma order_flip {A} (cmp : A -> A -> comparison) : order cmp -> order (fun a b => cmp b a).
Proof.
  intros O. constructor.
  - intros a b. apply (cmp_opp O).
  - intros a b c H1 H2. exact (cmp_lt_trans O c b a H2 H1).
  - intros a b c H. exact (cmp_eq_r O a b c (cmp_eq_sym O b a H)).
Qed.

(* a comparison whose [Eq] is equality *)
Lemma eq_order {A} (cmp : A -> A -> comparison) :
  (forall a b, cmp a b = CompOpp (cmp b a)) ->
  (forall a b c, cmp a b = Lt -> cmp b c = Lt -> cmp a c = Lt) ->
  (forall a b, cmp a b = Eq -> a = b) -> order cmp.
Proof.
  intros Ho Ht He. constructor; [exact Ho|exact Ht|].
  intros a b c H. rewrite (He a b H). reflexivity.
Qed.

Lemma N_order : order N.compare.
Proof.
  apply eq_order; [exact (fun a b => N.compare_antisym b a)|exact N.lt_trans|exact N.compare_eq].
Qed.

(* Lexicographic product: a comparison of keys, then a tie-break.  The internal-key
   orders (Engine.icmp, ikey_compare, ikc_compare, tbl_ikey_compare: user key, then tag
   downwards), Edit.fe_compare (level, then number) and ManifestReplay.by_smallest
   (smallest key, then number) are of this shape. *)
Section Lex.
Context {X K : Type} (c1 : K -> K -> comparison) (key : X -> K) (c2 : X -> X -> comparison).

Definition lex (x y : X) : comparison :=
  match c1 (key x) (key y) with Eq => c2 x y | c => c end.

Lemma lex_lt_iff x y :
  lex x y = Lt <-> c1 (key x) (key y) = Lt \/ (c1 (key x) (key y) = Eq /\ c2 x y = Lt).
Proof.
  unfold lex. destruct (c1 (key x) (key y)); split; auto; intros [H|[H H']]; auto; discriminate.
Qed.

Hypothesis O1 : order c1.
Hypothesis O2 : order c2.

Lemma lex_order : order lex.
Proof.
  constructor; unfold lex.
  - intros x y. rewrite (cmp_opp O1 (key x) (key y)).
    destruct (c1 (key y) (key x)); [apply (cmp_opp O2)|reflexivity|reflexivity].
  - intros x y z Hxy Hyz. pose proof (cmp_trans3 O1 (key x) (key y) (key z)) as H.
    destruct (c1 (key x) (key y)); [| |discriminate Hxy];
      (destruct (c1 (key y) (key z)); [| |discriminate Hyz]); rewrite H; try reflexivity.
    exact (cmp_lt_trans O2 x y z Hxy Hyz).
  - intros x y z H. destruct (c1 (key x) (key y)) eqn:E; try discriminate H.
    rewrite (cmp_eq_l O1 _ _ (key z) E). destruct (c1 (key y) (key z)); [|reflexivity|reflexivity].
    exact (cmp_eq_l O2 x y z H).
Qed.
End Lex.

Lemma bytes_compare_order : order bytes_compare.
Proof.
  apply eq_order; [exact bytes_compare_antisym|exact bytes_compare_lt_trans|apply bytes_compare_eq_iff].
Qed.

Lemma bytes_compare_lt_gt : forall a b,
  bytes_compare a b = Lt <-> bytes_compare b a = Gt.
Proof. intros a b. symmetry. apply (cmp_gt_lt bytes_compare_order). Qed.

Lemma bytes_compare_gt_trans : forall a b c,
  bytes_compare a b = Gt -> bytes_compare b c = Gt -> bytes_compare a c = Gt.
Proof. exact (cmp_gt_trans bytes_compare_order). Qed.

Lemma bytes_compare_app_prefix : forall a x t,
  bytes_compare a (a ++ x :: t) = Lt.
Proof.
  induction a as [|y a IH]; intros x t; cbn [app bytes_compare].
  - reflexivity.
  - rewrite N.compare_refl. apply IH.
Qed.

Lemma bytes_compare_app_same : forall p a b,
  bytes_compare (p ++ a) (p ++ b) = bytes_compare a b.
Proof.
  induction p as [|y p IH]; intros a b; cbn [app bytes_compare].
  - reflexivity.
  - rewrite N.compare_refl. apply IH.
Qed.

Lemma bytes_leb_refl : forall a, bytes_leb a a = true.
Proof. intros a. unfold bytes_leb. rewrite bytes_compare_refl. reflexivity. Qed.

Lemma bytes_ltb_irrefl : forall a, bytes_ltb a a = false.
Proof. exact (cmp_ltb_irrefl bytes_compare_order). Qed.

Lemma bytes_ltb_trans : forall a b c,
  bytes_ltb a b = true -> bytes_ltb b c = true -> bytes_ltb a c = true.
Proof. exact (cmp_ltb_trans bytes_compare_order). Qed.

Lemma bytes_leb_ltb : forall a b, bytes_leb a b = negb (bytes_ltb b a).
Proof.
  intros a b. unfold bytes_leb, bytes_ltb.
  rewrite (bytes_compare_antisym b a).
  destruct (bytes_compare a b); reflexivity.
Qed.

Print Assumptions de64_le64.
Print Assumptions le32_de32.
Print Assumptions bytes_compare_lt_trans.
Print Assumptions bytes_compare_eq_iff.
