(* IterTests.v -- instances of the refinement theorems of the three layers (merger, db
   iterator, view as a sorted map) at small concrete inputs.  Computed: only the side
   conditions of those theorems on the inputs (sortedness, distinct keys, inv_b).
   The statements range over all scripts up to a length bound over a fixed command
   alphabet, as a test campaign would enumerate them. *)
From LCDB Require Import Base Cursor Engine EngineSpec EngineRead Merger DbIter.
From LCDB Require Import BaseProofs EngineStepsBase MergerProofs LiveViewProofs DbIterProofs
                         IteratorProofs.
Local Open Scope N_scope.

Definition obs_eqb (a b : obs (bytes * bytes)) : bool :=
  match a, b with
  | OSkip, OSkip => true
  | OInvalid, OInvalid => true
  | OAt (k, v), OAt (k', v') => bytes_eqb k k' && bytes_eqb v v'
  | _, _ => false
  end.

Definition entry_eqb (a b : entry) : bool :=
  bytes_eqb (ek a) (ek b) && (es a =? es b) && Bool.eqb (et a) (et b) && bytes_eqb (ev a) (ev b).

Definition obse_eqb (a b : obs entry) : bool :=
  match a, b with
  | OSkip, OSkip => true
  | OInvalid, OInvalid => true
  | OAt x, OAt y => entry_eqb x y
  | _, _ => false
  end.

Lemma obs_eqb_refl a : obs_eqb a a = true.
Proof. destruct a as [| |[k v]]; cbn [obs_eqb]; rewrite ?bytes_eqb_refl; reflexivity. Qed.

Lemma obse_eqb_refl a : obse_eqb a a = true.
Proof.
  destruct a as [| |x]; cbn [obse_eqb]; [reflexivity..|].
  unfold entry_eqb. rewrite !bytes_eqb_refl, N.eqb_refl, Bool.eqb_reflx. reflexivity.
Qed.

Fixpoint scripts {T} (cmds : list (cmd T)) (n : nat) : list (list (cmd T)) :=
  match n with
  | O => [[]]
  | S n' => [] :: flat_map (fun c => map (cons c) (scripts cmds n')) cmds
  end.

Definition alphabet (keys : list bytes) : list (cmd bytes) :=
  [CFirst; CLast; CNext; CPrev]
  ++ flat_map (fun k => [CSeek k; CSeekGt k; CSeekLe k; CSeekLt k]) keys.

Definition k0 : bytes := [96].
Definition ka : bytes := [97].
Definition kb : bytes := [98].
Definition kc : bytes := [99].
Definition kd : bytes := [100].

(* five entries: a live / deleted / overwritten mix *)
Definition run5 : list entry :=
  [mkE ka 5 true [5]; mkE ka 3 false []; mkE kb 4 false []; mkE kb 2 true [2]; mkE kc 1 true [1]].
Definition run5' : list entry :=
  [mkE ka 6 false []; mkE ka 1 true [1]; mkE kb 7 true [7]; mkE kc 9 true [9]; mkE kc 2 false []].

Definition dbiter_vs_view (ucmp : bytes -> bytes -> comparison) (l : list entry) (q : N)
           (sc : list (cmd bytes)) : bool :=
  list_eqb obs_eqb
    (run_script (dbiter_ops ucmp (cursor_ops (itge ucmp) (itcmp ucmp) l) (S (S (length l))) q)
                (d_init None) sc)
    (run_script (view_cursor ucmp (live_of_sorted ucmp q None l)) None sc).

(* the direct sorted-map reading of the same scripts *)
Definition view_vs_map (ucmp : bytes -> bytes -> comparison) (l : list entry) (q : N)
           (sc : list (cmd bytes)) : bool :=
  list_eqb obs_eqb
    (run_script (view_cursor ucmp (live_of_sorted ucmp q None l)) None sc)
    (map_script (kvcmp ucmp) (live_of_sorted ucmp q None l) None sc).

Lemma dbiter_vs_view_ok l q sc :
  sorted_run bytes_compare l = true -> dbiter_vs_view bytes_compare l q sc = true.
Proof.
  intros Hs. unfold dbiter_vs_view.
  rewrite (dbiter_is_view_cursor bytes_compare bytes_compare_total l q (S (S (length l))) Hs) by lia.
  apply list_eqb_refl, obs_eqb_refl.
Qed.

Lemma view_vs_map_ok l q sc :
  sorted_run bytes_compare l = true -> view_vs_map bytes_compare l q sc = true.
Proof.
  intros Hs. unfold view_vs_map.
  rewrite (@view_scripts_are_map_scripts bytes_compare bytes_compare_total).
  - apply list_eqb_refl, obs_eqb_refl.
  - apply (@live_view_sorted bytes_compare bytes_compare_total).
    exact (proj1 (@sorted_run_Srt bytes_compare bytes_compare_total l) Hs).
Qed.

Lemma forallb2_true {A B} (f : A -> B -> bool) la lb :
  (forall a b, f a b = true) -> forallb (fun a => forallb (f a) lb) la = true.
Proof. intros H. apply forallb_forall. intros a _. apply forallb_forall. intros b _. apply H. Qed.

Example test_dbiter_run5_all_scripts_len4 :
  forallb (fun q => forallb (dbiter_vs_view bytes_compare run5 q) (scripts (alphabet [ka; kb]) 4))
          [0; 2; 3; 4; 5] = true.
Proof. apply forallb2_true. intros q sc. apply dbiter_vs_view_ok. reflexivity. Qed.

Example test_dbiter_run5'_all_scripts_len4 :
  forallb (fun q => forallb (dbiter_vs_view bytes_compare run5' q) (scripts (alphabet [kb; kd]) 4))
          [1; 5; 6; 8; 9] = true.
Proof. apply forallb2_true. intros q sc. apply dbiter_vs_view_ok. reflexivity. Qed.

Example test_view_vs_map_run5 :
  forallb (fun q => forallb (view_vs_map bytes_compare run5 q) (scripts (alphabet [k0; ka; kb; kd]) 3))
          [0; 2; 3; 4; 5] = true.
Proof. apply forallb2_true. intros q sc. apply view_vs_map_ok. reflexivity. Qed.

Definition icmds (targets : list itarget) : list (cmd itarget) :=
  [CFirst; CLast; CNext; CPrev] ++ map CSeek targets.

Definition merger_vs_cursor (ucmp : bytes -> bytes -> comparison) (runs : list (list entry))
           (sc : list (cmd itarget)) : bool :=
  list_eqb obse_eqb
    (run_script (internal_ops ucmp) (m_init runs) sc)
    (run_script (cursor_ops (itge ucmp) (itcmp ucmp) (sort_entries ucmp (concat runs))) None sc).

Definition runs3 : list (list entry) :=
  [ [mkE ka 5 true [5]; mkE kc 4 false []];
    [];
    [mkE ka 3 false []; mkE kb 2 true [2]; mkE kd 6 true [6]];
    [mkE kb 7 true [7]] ].

Lemma runs3_ok : runs_ok bytes_compare runs3.
Proof.
  unfold runs3. repeat apply (@runs_ok_cons bytes_compare bytes_compare_total);
    try reflexivity; try exact (runs_ok_nil bytes_compare); repeat constructor; discriminate.
Qed.

Example test_merger_runs3_all_scripts_len5 :
  forallb (merger_vs_cursor bytes_compare runs3) (scripts (icmds [(kb, 9); (kb, 3); (kd, 1)]) 5) = true.
Proof.
  apply forallb_forall. intros sc _. unfold merger_vs_cursor.
  rewrite (@merger_is_cursor bytes_compare bytes_compare_total runs3 runs3_ok).
  apply list_eqb_refl, obse_eqb_refl.
Qed.

Definition db_vs_view (s : state) (q : N) (sc : list (cmd bytes)) : bool :=
  list_eqb obs_eqb
    (run_script (db_iter_ops bytes_compare s q) (db_iter_init s) sc)
    (run_script (view_cursor bytes_compare (live_view bytes_compare s q)) None sc).

Example test_db_iterator_ex_state_len3 :
  forallb (fun q => forallb (db_vs_view ex_state q) (scripts (alphabet [ka; kc]) 3))
          [20; 18; 13; 9; 3; 0] = true.
Proof.
  apply forallb2_true. intros q sc. unfold db_vs_view.
  rewrite (C07_iterator_thm bytes_compare bytes_compare_total ex_state q sc ex_inv).
  apply list_eqb_refl, obs_eqb_refl.
Qed.
