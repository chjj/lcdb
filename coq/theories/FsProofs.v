(* FsProofs.v -- the theorems about FsModel.v (record-level file / crash model):
   under the protocol rules R0..R7 ([wf_protocol])
     C17b  CURRENT always names a complete MANIFEST        (C17_current_complete)
     C05   recovery is total, drops at most a tail per log (C05_recovery_total_and_tail_only)
     C02   sync-acknowledged batches survive power loss    (C02_synced_durable, C02_database_exists)
     C03   a process crash loses nothing                   (C03_process_crash)
   by induction over the trace with the invariants Inv_struct (FsInv.v),
   Inv_dur (FsDur.v: every admissible namespace cut is [Good]) and Inv_trace
   (FsAck.v: logs, acknowledgements, flush watermark).

   Every theorem quantifies over all traces accepted by [wf_protocol], MANIFEST
   rollover at open and compaction edits that replace tables included.
   What the record level says about a batch whose log is below the recovered
   log_number is [flushed]: when the edit that raised log_number was appended the
   batch was literally contained in the tables that edit adds (rule R5).  That
   later compactions preserve its effect is the business of the engine model
   (Engine.v), not of this file.
   The unlinked-log clause of C02 needs rule R3's "no rename of CURRENT is waiting
   for a directory fsync" (lcdb since /repo 071621a, finding F5); the trace
   without that fsync is refuted by C02_unlink_before_dirsync_refuted.

   NOT PROVED here: idempotence of recovery (recovering again loses nothing
   further); a positional (event-index) characterisation of [acks] (the
   acknowledgement predicates are defined through the protocol state p_call). *)
From LCDB Require Import BaseProofs FsModel FsLemmas FsInv FsDur FsAck.
Local Open Scope N_scope.

Lemma wf_inv : forall tr, wf_protocol tr = true ->
  Inv_dur (prun tr) /\ Inv_struct (prun tr) /\ Inv_trace tr /\
  ops_wf (d_ops (fs_run tr)) (length (d_objs (fs_run tr))).
Proof.
  intros tr H. pose proof (Inv_dur_run _ H) as I. pose proof (id_struct _ I) as IS.
  pose proof (is_ops _ IS) as W. rewrite prun_disk in W. auto using Inv_trace_run.
Qed.

Lemma read_tables_ok : forall img fs,
  (forall f, In f fs -> exists ents, iget img (FTable (snd f)) = Some [PTable ents]) ->
  exists tabs, read_tables img fs = Some tabs.
Proof.
  intros img fs; induction fs as [|[l n] r IH]; intro H; cbn [read_tables]; [eauto|].
  destruct (H (l, n) (or_introl eq_refl)) as [ents He]. cbn [snd] in He.
  unfold read_table; rewrite He.
  destruct IH as [tabs Ht]; [intros f Hf; apply H; right; exact Hf|]. rewrite Ht; eauto.
Qed.

Lemma read_logs_fun : forall img ns (B : N -> list brec),
  (forall n, In n ns -> exists recs, iget img (FLog n) = Some recs /\ batches_of recs = Some (B n)) ->
  read_logs img ns = Some (map (fun n => (n, B n)) ns).
Proof.
  intros img ns B; induction ns as [|n r IH]; intro H; cbn [read_logs map]; [reflexivity|].
  destruct (H n (or_introl eq_refl)) as [recs [Hr Hb]]. rewrite Hr, Hb, IH; [reflexivity|].
  intros n' Hn'; apply H; right; exact Hn'.
Qed.

Lemma replay_prev : forall eds, Forall prev_ok eds -> mv_prev (replay eds) = None \/ mv_prev (replay eds) = Some 0.
Proof.
  intro eds; induction eds as [|e eds IH] using rev_ind; intro H; [left; reflexivity|].
  apply Forall_app in H. destruct H as [H1 H2]. inversion H2 as [|? ? Hp _]; subst.
  rewrite replay_snoc. cbn [apply_edit mv_prev]. destruct Hp as [-> | ->]; cbn [or_else]; auto.
Qed.

(* admissible cuts of the files *)
Definition cut_ok (d : disk) (cut : nat -> nat) : Prop :=
  forall o x, nth_error (d_objs d) o = Some x -> (o_synced x <= cut o <= length (o_recs x))%nat.

Lemma cut_written_ok : forall tr, cut_ok (fs_run tr) (cut_written (fs_run tr)).
Proof.
  intros tr o x Hx. unfold cut_written. rewrite Hx. pose proof (proj2 (run_shape tr) o x Hx). lia.
Qed.

Lemma cut_synced_ok : forall tr, cut_ok (fs_run tr) (cut_synced (fs_run tr)).
Proof.
  intros tr o x Hx. unfold cut_synced. rewrite Hx. pose proof (proj2 (run_shape tr) o x Hx). lia.
Qed.

Lemma iget_image_one : forall d k cut f o r, cut_ok d cut -> nsk d k f = Some o ->
  nth_error (d_objs d) o = Some (mkObj [r] 1) -> iget (image_of d k cut) f = Some [r].
Proof.
  intros d k cut f o r Hcut Hb Hx. rewrite (iget_image_bound _ _ _ _ _ _ Hb Hx). cbn [o_recs].
  pose proof (Hcut _ _ Hx) as Hc. cbn [o_synced o_recs length] in Hc.
  destruct (cut o) as [|c]; [lia|]. cbn [firstn]. rewrite firstn_nil. reflexivity.
Qed.

(* the file a log's name reaches in any cut of the directory: the log is one of p_logs (so its
   number is not 0), and its object holds the batches that the trace appended to it *)
Lemma log_file : forall tr k n o, wf_protocol tr = true -> nsk (fs_run tr) k (FLog n) = Some o ->
  In n (map fst (p_logs (prun tr))) /\ 0 < n /\
  exists x, nth_error (d_objs (fs_run tr)) o = Some x /\ batches_of (o_recs x) = Some (log_batches tr n).
Proof.
  intros tr k n o Hwf Hb. destruct (wf_inv _ Hwf) as [_ [IS [IT W]]].
  destruct (nsk_created _ _ W _ _ _ Hb ltac:(discriminate)) as [i [_ Hc]].
  destruct (created_obj _ _ _ _ W Hc) as [x Hx].
  assert (HnK : In n (map fst (p_logs (prun tr)))) by (rewrite <- prun_disk in Hc; eapply in_logs_of_created; eauto).
  split; [exact HnK|split].
  - pose proof (is_logs_sorted _ IS) as HK. inversion HK as [|? ? _ H0]; subst. rewrite Forall_forall in H0. exact (H0 _ HnK).
  - exists x. split; [exact Hx|exact (it_obj _ IT _ _ _ _ Hc Hx)].
Qed.

(* The logs that recovery reads in an image of an accepted trace, whatever the directory cut k, the
   file cuts and log_number lg: in order, those bound in k whose number is not below lg (none is
   log 0), each up to the cut of its file. *)
Lemma logs_read : forall tr k cut lg, wf_protocol tr = true ->
  exists segs, read_logs (image_of (fs_run tr) k cut)
                 (filter (fun n => (lg <=? n) || (n =? 0)) (image_logs (image_of (fs_run tr) k cut))) = Some segs /\
    StronglySorted N.lt (map fst segs) /\
    forall n bs, In (n, bs) segs <->
      lg <= n /\ exists o, nsk (fs_run tr) k (FLog n) = Some o /\ bs = firstn (cut o) (log_batches tr n).
Proof.
  intros tr k cut lg Hwf. set (d := fs_run tr). set (img := image_of d k cut).
  set (nums := filter (fun n => (lg <=? n) || (n =? 0)) (image_logs img)).
  assert (Hnums : forall n, In n nums <-> lg <= n /\ exists o, nsk d k (FLog n) = Some o).
  { intro n. unfold nums. rewrite filter_In, in_image_logs. split.
    - intros [[recs Hr] Hn]. destruct (iget_image_inv _ _ _ _ _ Hr) as [o [x [Hb _]]]. split; [|eauto].
      apply orb_true_iff in Hn. destruct Hn as [Hn|Hn]; [apply N.leb_le; exact Hn|].
      apply N.eqb_eq in Hn. destruct (log_file _ _ _ _ Hwf Hb) as [_ [H0 _]]. lia.
    - intros [Hn [o Hb]]. destruct (log_file _ _ _ _ Hwf Hb) as [_ [_ [x [Hx _]]]].
      split; [unfold img; rewrite (iget_image_bound _ _ _ _ _ _ Hb Hx); eauto|].
      apply orb_true_iff; left; apply N.leb_le; exact Hn. }
  set (B := fun n => match nsk d k (FLog n) with Some o => firstn (cut o) (log_batches tr n) | None => [] end).
  exists (map (fun n => (n, B n)) nums). split; [|split].
  - apply read_logs_fun. intros n Hn. apply Hnums in Hn. destruct Hn as [_ [o Hb]].
    destruct (log_file _ _ _ _ Hwf Hb) as [_ [_ [x [Hx Hbs]]]]. exists (firstn (cut o) (o_recs x)).
    split; [apply iget_image_bound; assumption|]. unfold B. rewrite Hb. apply batches_of_firstn; exact Hbs.
  - rewrite map_map. cbn [fst]. rewrite map_id. apply SS_filter, sort_N_sorted.
  - intros n bs. rewrite in_map_iff. unfold B. split.
    + intros [n' [E Hn']]. injection E as -> <-. apply Hnums in Hn'. destruct Hn' as [Hle [o Hb]].
      split; [exact Hle|]. exists o. rewrite Hb. auto.
    + intros [Hle [o [Hb ->]]]. exists n. rewrite Hb. split; [reflexivity|apply Hnums; eauto].
Qed.

(* What recovery returns on the image (k, cut) of an accepted trace.  log_number is above every
   unlinked log and not above the flush watermark; the logs replayed are, in order, exactly those
   bound in the cut k whose number is not below log_number, each up to the cut of its file. *)
Record recovered (tr : list fev) (k : nat) (cut : nat -> nat) (s : rstate) : Prop := {
  rc_cur : iget (image_of (fs_run tr) k cut) FCurrent = Some [PCurrent (r_manifest s)];
  rc_complete : complete_manifest (image_of (fs_run tr) k cut) (r_manifest s);
  rc_dead : forall n, In (DUnlink (FLog n)) (d_ops (fs_run tr)) -> n < r_log s;
  rc_cov : r_log s <= p_cov (prun tr);
  rc_sorted : StronglySorted N.lt (map fst (r_segs s));
  rc_segs : forall n bs, In (n, bs) (r_segs s) <->
      r_log s <= n /\ exists o, nsk (fs_run tr) k (FLog n) = Some o /\ bs = firstn (cut o) (log_batches tr n) }.

Theorem recover_good : forall tr k cut c, wf_protocol tr = true ->
  admissible (fs_run tr) k -> cut_ok (fs_run tr) cut -> nsk (fs_run tr) k FCurrent = Some c ->
  exists s, recover (image_of (fs_run tr) k cut) = Some s /\ recovered tr k cut s.
Proof.
  intros tr k cut c Hwf A Hcut Hc. destruct (wf_inv _ Hwf) as [I _]. rewrite <- prun_disk in A, Hc.
  destruct (id_good _ I k A c Hc) as [m [M [xM [V Hms]]]]. pose proof V as [V1 [V2 [V3 V4]]].
  destruct (view_manifest_typed _ (id_struct _ I) _ _ _ _ _ V) as [eds [He [Hs Hp]]].
  pose proof (fun ms L => exposed_log_le_cov _ _ _ ms L I V4) as Hcov.
  rewrite prun_disk in *. set (d := fs_run tr) in *.
  set (img := image_of d k cut).
  pose proof (iget_image_one _ _ _ _ _ _ Hcut V1 V2) as Hcur. fold img in Hcur.
  pose proof (iget_image_bound _ _ cut _ _ _ V3 V4) as Hman. fold img in Hman.
  pose proof (Hcut _ _ V4) as HcM. rewrite <- (edits_of_length _ _ He) in HcM.
  set (ms := replay (firstn (cut M) eds)).
  assert (Hexp : In ms (exposed xM)).
  { apply (in_exposed _ _ _ He Hs). exists (cut M). split; [lia|reflexivity]. }
  destruct (Hms _ Hexp) as [G1 [G2 G3]].
  destruct (proj1 (manifest_ok_iff _) G1) as [nx [lg [ls [Enx [Elg Els]]]]].
  assert (Hpv : match mv_prev ms with Some pv => pv | None => 0 end = 0).
  { destruct (replay_prev _ (Forall_firstn _ _ (cut M) Hp)) as [E|E]; fold ms in E; rewrite E; reflexivity. }
  destruct (read_tables_ok img (mv_files ms)) as [tabs Htabs].
  { intros f Hf. destruct (G2 f Hf) as [o [ents [Hb Hx]]]. exists ents. exact (iget_image_one _ _ _ _ _ _ Hcut Hb Hx). }
  destruct (logs_read tr k cut lg Hwf) as [segs [Hsegs [Hsort Hmem]]]. fold d img in Hsegs.
  eexists. split.
  - unfold recover. fold img. rewrite Hcur, Hman, (edits_of_firstn _ _ _ He). fold ms.
    rewrite Enx, Elg, Els, Htabs, Hpv, Hsegs. reflexivity.
  - constructor; cbn [r_manifest r_log r_segs]; fold d img.
    + exact Hcur.
    + exists (firstn (cut M) (o_recs xM)), (firstn (cut M) eds). fold ms. rewrite Htabs.
      split; [exact Hman|split; [apply edits_of_firstn; exact He|split; [exact G1|discriminate]]].
    + intros n Hin. specialize (G3 n Hin). unfold log_dead in G3. rewrite Elg in G3. apply N.ltb_lt; exact G3.
    + exact (Hcov _ _ Hexp Elg).
    + exact Hsort.
    + exact Hmem.
Qed.

Lemma crash_recovers : forall tr, wf_protocol tr = true -> forall img, crash_image tr img ->
  iget img FCurrent <> None ->
  exists k cut s, admissible (fs_run tr) k /\ cut_ok (fs_run tr) cut /\ img = image_of (fs_run tr) k cut /\
    recover img = Some s /\ recovered tr k cut s.
Proof.
  intros tr Hwf img [k [cut [A [Hcut ->]]]] Hcur.
  destruct (nsk (fs_run tr) k FCurrent) as [c|] eqn:Hb; [|elim Hcur; apply iget_image_unbound; exact Hb].
  destruct (recover_good tr k cut c Hwf A Hcut Hb) as [s [Hr R]]. exists k, cut, s. auto.
Qed.

Theorem C17_current_complete : forall tr, wf_protocol tr = true ->
  forall p img, crash_image (firstn p tr) img ->
  iget img FCurrent = None \/
  exists m, iget img FCurrent = Some [PCurrent m] /\ complete_manifest img m.
Proof.
  intros tr Hwf p img Hc. pose proof (wf_protocol_firstn _ p Hwf) as Hwf'.
  destruct (iget img FCurrent) as [l|] eqn:E; [|left; reflexivity]. right.
  destruct (crash_recovers _ Hwf' _ Hc) as [k [cut [s [_ [_ [-> [_ R]]]]]]]; [congruence|].
  exists (r_manifest s). rewrite <- E. split; [apply (rc_cur _ _ _ _ R)|apply (rc_complete _ _ _ _ R)].
Qed.

Lemma below_log_flushed : forall tr k cut s n b, wf_protocol tr = true -> recovered tr k cut s ->
  In b (log_batches tr n) -> n < r_log s -> flushed tr b.
Proof.
  intros tr k cut s n b Hwf R Hb Hn. destruct (wf_inv _ Hwf) as [_ [_ [IT _]]].
  pose proof (rc_cov _ _ _ _ R) as Hle. apply (it_flushed _ IT n b Hb). lia.
Qed.

Theorem C05_recovery_total_and_tail_only : forall tr, wf_protocol tr = true ->
  forall p img, crash_image (firstn p tr) img -> iget img FCurrent <> None ->
  exists s, recover img = Some s /\ per_segment_prefix (firstn p tr) s /\
    (forall n b, In b (log_batches (firstn p tr) n) -> n < r_log s -> flushed (firstn p tr) b).
Proof.
  intros tr Hwf p img Hc Hcur. pose proof (wf_protocol_firstn _ p Hwf) as Hwf'.
  destruct (crash_recovers _ Hwf' _ Hc Hcur) as [k [cut [s [_ [_ [_ [Hr R]]]]]]].
  exists s. split; [exact Hr|split; [split; [|split]|]].
  - intros n bs Hin. apply (rc_segs _ _ _ _ R) in Hin. destruct Hin as [_ [o [_ ->]]]. eauto.
  - exact (rc_sorted _ _ _ _ R).
  - intros n Hn. destruct (in_map_fst _ _ Hn) as [bs Hin]. left. apply (rc_segs _ _ _ _ R) in Hin. apply Hin.
  - intros n b. apply (below_log_flushed _ _ _ _ _ _ Hwf' R).
Qed.

(* R1 in the crash model: the log of a sync-acknowledged batch was created below the directory
   mark, and the batch is under the fsync of the log's object *)
Lemma acked_sync_log : forall tr id n b, wf_protocol tr = true -> In (id, true, n, b) (acks tr) ->
  exists i o x j, created_at (fs_run tr) i (FLog n) o /\ (i < d_dsync (fs_run tr))%nat /\
    nth_error (d_objs (fs_run tr)) o = Some x /\ (j < o_synced x)%nat /\ nth_error (log_batches tr n) j = Some b.
Proof.
  intros tr id n b Hwf Hack. destruct (wf_inv _ Hwf) as [_ [IS [IT _]]].
  destruct (proj2 (it_ack _ IT _ _ _ _ Hack) eq_refl) as [i [o [x [j [Hcr [Hx [Hj Hn]]]]]]]. exists i, o, x, j.
  split; [exact Hcr|split; [|auto]]. rewrite <- prun_disk in Hcr, Hx |- *.
  apply (is_typed _ IS _ _ _ _ Hcr Hx). lia.
Qed.

Theorem C02_synced_durable : forall tr, wf_protocol tr = true ->
  forall p img, crash_image (firstn p tr) img -> iget img FCurrent <> None ->
  exists s, recover img = Some s /\
    forall id b, acked_sync_before tr p id b \/ acked_and_log_unlinked_before tr p id b ->
                 applied (firstn p tr) s b.
Proof.
  intros tr Hwf p img Hc Hcur. pose proof (wf_protocol_firstn _ p Hwf) as Hwf'.
  destruct (crash_recovers _ Hwf' _ Hc Hcur) as [k [cut [s [A [Hcut [-> [Hr R]]]]]]].
  exists s. split; [exact Hr|].
  set (tr' := firstn p tr) in *. destruct (wf_inv _ Hwf') as [_ [_ [IT W]]].
  intros id b [[n Hack]|[n [sy [Hack Hunl]]]].
  - destruct (acked_sync_log _ _ _ _ Hwf' Hack) as [i [o [x [j [Hcr [Hi [Hx [Hj Hn]]]]]]]].
    assert (Hb : In b (log_batches tr' n)) by (eapply nth_error_In; exact Hn).
    (* a log that a cut does not show was unlinked, and then is below log_number *)
    destruct (nsk_bound_or_unlinked _ _ W _ _ _ Hcr Logic.I k ltac:(destruct A; lia) (proj2 A)) as [Hbo|[u [_ Hu]]];
      [|right; exists n; split; [exact Hb|apply (rc_dead _ _ _ _ R); eapply nth_error_In; exact Hu]].
    destruct (N.leb_spec (r_log s) n) as [Hle|Hlt]; [left|right; eauto].
    (* the log is replayed, at least up to its fsynced prefix *)
    apply in_flat_map. exists (n, firstn (cut o) (log_batches tr' n)). split; [apply (rc_segs _ _ _ _ R); eauto|].
    cbn [snd]. eapply in_firstn_nth_error; [exact Hn|]. pose proof (Hcut _ _ Hx). lia.
  - (* the log that held it has been unlinked *)
    right. exists n. split; [apply (it_ack _ IT _ _ _ _ Hack)|].
    apply (rc_dead _ _ _ _ R), (it_unl _ IT), Hunl.
Qed.

Theorem C02_database_exists : forall tr, wf_protocol tr = true ->
  forall p img id b, crash_image (firstn p tr) img -> acked_sync_before tr p id b ->
  iget img FCurrent <> None.
Proof.
  intros tr Hwf p img id b [k [cut [[A1 A2] [Hcut ->]]]] [n Hack]. pose proof (wf_protocol_firstn _ p Hwf) as Hwf'.
  set (tr' := firstn p tr) in *. destruct (wf_inv _ Hwf') as [I [_ [_ W]]].
  (* the log of a sync-acknowledged batch was created, durably, after CURRENT *)
  destruct (acked_sync_log _ _ _ _ Hwf' Hack) as [i [o [x [j [Hcr [Hi _]]]]]].
  rewrite <- prun_disk in Hcr. pose proof (id_logcur _ I _ _ _ Hcr) as Hcur. rewrite prun_disk in Hcur.
  assert (Hk : nsk (fs_run tr') k FCurrent <> None).
  { eapply nsk_current_mono; [exact W| |exact A2|exact Hcur]. lia. }
  destruct (nsk (fs_run tr') k FCurrent) as [c|] eqn:Ec; [|congruence].
  destruct (nsk_cur_created _ _ W _ _ Ec) as [i' [t Hc']]. destruct (created_obj _ _ _ _ W Hc') as [xc Hxc].
  rewrite (iget_image_bound _ _ _ _ _ _ Ec Hxc). discriminate.
Qed.

(* with the whole directory the logs replayed are all the logs from log_number on: one that the
   directory no longer has was unlinked, and is below it *)
Lemma replayed_log_numbers : forall tr cut s, wf_protocol tr = true ->
  recovered tr (length (d_ops (fs_run tr))) cut s ->
  map fst (r_segs s) = filter (fun n => r_log s <=? n) (map fst (p_logs (prun tr))).
Proof.
  intros tr cut s Hwf R. destruct (wf_inv _ Hwf) as [_ [IS [_ W]]].
  pose proof (is_logs_sorted _ IS) as HK. inversion HK as [|? ? HKs _]; subst.
  apply (SS_ext _ N.lt_irrefl N.lt_trans); [exact (rc_sorted _ _ _ _ R)|apply SS_filter; exact HKs|].
  intro n. rewrite filter_In, N.leb_le. split.
  - intro Hn. destruct (in_map_fst _ _ Hn) as [bs Hin]. apply (rc_segs _ _ _ _ R) in Hin.
    destruct Hin as [Hle [o [Hbo _]]]. split; [apply (log_file _ _ _ _ Hwf Hbo)|exact Hle].
  - intros [HnK Hle]. destruct (proj1 (in_logs_created _ IS _) HnK) as [i [o Hc]]. rewrite prun_disk in Hc.
    assert (Hi : (i < length (d_ops (fs_run tr)))%nat) by (apply nth_error_Some; unfold created_at in Hc; congruence).
    destruct (nsk_bound_or_unlinked _ _ W _ _ _ Hc I _ Hi (Nat.le_refl _)) as [Hbo|[u [_ Hu]]].
    + apply in_map_iff. eexists (n, _). split; [reflexivity|]. apply (rc_segs _ _ _ _ R). eauto.
    + pose proof (rc_dead _ _ _ _ R n (nth_error_In _ _ Hu)). lia.
Qed.

Theorem C03_process_crash : forall tr, wf_protocol tr = true -> forall p,
  iget (written_image (firstn p tr)) FCurrent <> None ->
  exists s old, recover (written_image (firstn p tr)) = Some s /\
    Forall (fun b => flushed (firstn p tr) b /\
                     exists n, In b (log_batches (firstn p tr) n) /\ n < r_log s) old /\
    (old ++ applied_batches s = acked_before tr p \/
     exists b, in_flight tr p b /\ old ++ applied_batches s = acked_before tr p ++ [b]).
Proof.
  intros tr Hwf p Hcur. pose proof (wf_protocol_firstn _ p Hwf) as Hwf'.
  unfold acked_before, in_flight. set (tr' := firstn p tr) in *.
  destruct (wf_inv _ Hwf') as [_ [IS [IT W]]].
  set (d := fs_run tr') in *. set (len := length (d_ops d)).
  assert (A : admissible d len) by (split; [apply (run_shape tr')|unfold len; lia]).
  unfold written_image in Hcur |- *. fold d len in Hcur |- *.
  destruct (nsk d len FCurrent) as [c|] eqn:Hb; [|elim Hcur; apply iget_image_unbound; exact Hb].
  destruct (recover_good tr' len (cut_written d) c Hwf' A (cut_written_ok tr') Hb) as [s [Hr R]]. fold d in Hr.
  set (L := r_log s). set (K := map fst (p_logs (prun tr'))). set (F := log_batches tr').
  assert (HKs : StronglySorted N.lt K).
  { pose proof (is_logs_sorted _ IS) as Hsrt. inversion Hsrt; subst. assumption. }
  (* the logs from log_number on are replayed, each of them whole *)
  assert (Happl : applied_batches s = flat_map F (filter (fun n => L <=? n) K)).
  { unfold L, K. rewrite <- (replayed_log_numbers _ _ _ Hwf' R). apply flat_map_by_key.
    intros n bs Hin. apply (rc_segs _ _ _ _ R) in Hin.
    destruct Hin as [_ [o [Hbo ->]]]. destruct (log_file _ _ _ _ Hwf' Hbo) as [_ [_ [x [Hx Hbs]]]].
    unfold cut_written. fold d in Hx. rewrite Hx, <- (batches_of_length _ _ Hbs). apply firstn_all. }
  set (old := flat_map F (filter (fun n => n <? L) K)).
  assert (Hsplit : logged tr' = old ++ applied_batches s).
  { rewrite (it_logged _ IT), Happl. unfold old. rewrite <- flat_map_app, <- (sorted_split K L HKs).
    apply flat_map_by_key. intros n bs Hin. apply (it_logs _ IT); exact Hin. }
  exists s, old. split; [exact Hr|split].
  - apply Forall_forall. intros b Hbo. unfold old in Hbo. apply in_flat_map in Hbo.
    destruct Hbo as [n [Hn Hbn]]. apply filter_In in Hn. destruct Hn as [_ Hn]. apply N.ltb_lt in Hn.
    split; [exact (below_log_flushed _ _ _ _ _ _ Hwf' R Hbn Hn)|exists n; split; [exact Hbn|exact Hn]].
  - rewrite <- Hsplit, <- (it_acks _ IT).
    destruct (p_call (prun tr')) as [[[[id ops] sy] [[n sq]|]]|] eqn:Ec; cbn [pending].
    + right. exists (sq, ops). split; [exists id, sy, n; reflexivity|reflexivity].
    + left. apply app_nil_r.
    + left. apply app_nil_r.
Qed.

Theorem rep_images_sound : forall tr img, In img (rep_images tr) -> crash_image tr img.
Proof.
  intros tr img H. destruct (run_shape tr) as [Hd Hs]. unfold rep_images in H.
  pose proof (cut_synced_ok tr) as Hsy. pose proof (cut_written_ok tr) as Hwr.
  unfold crash_image. set (d := fs_run tr) in *.
  assert (Hk : forall k, In k (map (fun i => (d_dsync d + i)%nat) (seq 0 (S (length (d_ops d) - d_dsync d)))) ->
                 (d_dsync d <= k <= length (d_ops d))%nat).
  { intros k Hin. apply in_map_iff in Hin. destruct Hin as [i [<- Hi]]. apply in_seq in Hi. lia. }
  apply in_app_or in H. destruct H as [H|H]; [|apply in_app_or in H; destruct H as [H|H]].
  - apply in_map_iff in H. destruct H as [k [<- Hin]]. exists k, (cut_synced d). auto.
  - apply in_map_iff in H. destruct H as [k [<- Hin]]. exists k, (cut_written d). auto.
  - apply in_map_iff in H. destruct H as [o0 [<- Hin]]. exists (length (d_ops d)), (one_less d o0).
    split; [lia|split; [|reflexivity]].
    intros o x Hx. unfold one_less. specialize (Hsy _ _ Hx). specialize (Hwr _ _ Hx).
    destruct (Nat.eqb o o0) eqn:E; [|exact Hwr].
    apply Nat.eqb_eq in E; subst o0. unfold cut_written in *. rewrite Hx in *. lia.
Qed.

(* Test data (hand-written traces shaped like lcdb's: create DB, reopen-style
   rollover to MANIFEST-2, one sync write, one plain write, then a flush / a
   second rollover done wrongly). *)
Definition ex_ed l p n s nw dl := mkMEdit nw dl l p n s.
Definition ex_open : list fev :=
  [ ECreate (FManifest 1); EAppend (FManifest 1) (PEdit (ex_ed (Some 0) None (Some 2) (Some 0) [] []));
    ESyncDir; ESync (FManifest 1);
    ECreate (FTmp 1); EAppend (FTmp 1) (PCurrent 1); ESync (FTmp 1); ERename (FTmp 1) FCurrent; ESyncDir;
    ECreate (FLog 3); ECreate (FManifest 2);
    EAppend (FManifest 2) (PEdit (ex_ed None None None None [] []));
    EAppend (FManifest 2) (PEdit (ex_ed (Some 3) (Some 0) (Some 4) (Some 0) [] []));
    ESyncDir; ESync (FManifest 2);
    ECreate (FTmp 2); EAppend (FTmp 2) (PCurrent 2); ESync (FTmp 2); ERename (FTmp 2) FCurrent; ESyncDir;
    EUnlink (FManifest 1) ].
Definition ex_w1 := [WPut [97] [1]].
Definition ex_w2 := [WPut [98] [2]; WDel [97]].
Definition ex_writes : list fev :=
  [ ECall 1 ex_w1 true; EAppend (FLog 3) (PBatch 1 ex_w1); ESync (FLog 3); EAck 1 true;
    ECall 2 ex_w2 false; EAppend (FLog 3) (PBatch 2 ex_w2); EAck 2 true ].
Definition ex_t := batch_entries 1 ex_w1 ++ batch_entries 2 ex_w2.
Definition ex_e6 := PEdit (ex_ed (Some 6) (Some 0) (Some 8) (Some 3) [(0%nat, 7)] []).

(* the protocol as lcdb performs it *)
Definition good_trace := ex_open ++ ex_writes ++
  [ ECreate (FLog 6); ECreate (FTable 7); EAppend (FTable 7) (PTable ex_t); ESync (FTable 7);
    EAppend (FManifest 2) ex_e6; ESyncDir; ESync (FManifest 2); EUnlink (FLog 3) ].
(* R2 violated: the table is not fsynced before the edit naming it *)
Definition bad_no_table_fsync := ex_open ++ ex_writes ++
  [ ECreate (FLog 6); ECreate (FTable 7); EAppend (FTable 7) (PTable ex_t);
    EAppend (FManifest 2) ex_e6; ESyncDir; ESync (FManifest 2); EUnlink (FLog 3) ].
(* R3 violated: the log is unlinked before the MANIFEST edit is fsynced *)
Definition bad_unlink_before_manifest_sync := ex_open ++ ex_writes ++
  [ ECreate (FLog 6); ECreate (FTable 7); EAppend (FTable 7) (PTable ex_t); ESync (FTable 7);
    EAppend (FManifest 2) ex_e6; EUnlink (FLog 3) ].
(* R4 violated: CURRENT is switched to a MANIFEST that is not fsynced *)
Definition bad_rename_before_manifest_sync := ex_open ++ ex_writes ++
  [ ECreate (FTable 5); EAppend (FTable 5) (PTable ex_t); ESync (FTable 5);
    ECreate (FLog 6); ECreate (FManifest 4);
    EAppend (FManifest 4) (PEdit (ex_ed None None None None [] []));
    EAppend (FManifest 4) (PEdit (ex_ed (Some 6) (Some 0) (Some 7) (Some 3) [(0%nat, 5)] []));
    ECreate (FTmp 4); EAppend (FTmp 4) (PCurrent 4); ESync (FTmp 4); ERename (FTmp 4) FCurrent; ESyncDir ].
(* finding F5 (lcdb before /repo 071621a): the old log is unlinked right after
   the rename of CURRENT, without a directory fsync in between *)
Definition bad_unlink_before_dirsync := ex_open ++ ex_writes ++
  [ ECreate (FTable 5); EAppend (FTable 5) (PTable ex_t); ESync (FTable 5);
    ECreate (FLog 6); ECreate (FManifest 4);
    EAppend (FManifest 4) (PEdit (ex_ed None None None None [] []));
    EAppend (FManifest 4) (PEdit (ex_ed (Some 6) (Some 0) (Some 7) (Some 3) [(0%nat, 5)] []));
    ESyncDir; ESync (FManifest 4);
    ECreate (FTmp 4); EAppend (FTmp 4) (PCurrent 4); ESync (FTmp 4); ERename (FTmp 4) FCurrent;
    EUnlink (FManifest 2); EUnlink (FLog 3) ].

(* positive control: accepted, both calls acknowledged, and no representative
   crash image of any prefix that contains the sync acknowledgement (event 24)
   loses the sync-acknowledged batch *)
Example good_trace_accepted :
  wf_protocol good_trace = true /\
  acks good_trace = [(1, true, 3, (1, ex_w1)); (2, false, 3, (2, ex_w2))] /\
  forallb (fun p => forallb (fun img => negb (lost_in img 3 (1, ex_w1)))
                            (rep_images (firstn p good_trace)))
          (seq 25 (length good_trace - 24)) = true.
Proof. vm_compute. repeat split. Qed.

(* the parts of a refutation that are evaluations (the membership claim is left); the witness is the i-th representative image *)
Ltac refute_with i :=
  split; [vm_compute; reflexivity|split; [vm_compute; reflexivity|split; [|
  eexists (nth i (rep_images _) []); split;
  [apply rep_images_sound; apply nth_In; vm_compute; lia|vm_compute; reflexivity]]]].

Example bad_trace_no_table_fsync_refuted :
  wf_protocol bad_no_table_fsync = false /\ first_violation bad_no_table_fsync = Some (2, 31) /\
  In (1, true, 3, (1, ex_w1)) (acks bad_no_table_fsync) /\
  exists img, crash_image bad_no_table_fsync img /\ lost_in img 3 (1, ex_w1) = true.
Proof. refute_with 0%nat. vm_compute; tauto. Qed.

Example bad_trace_unlink_before_manifest_sync_refuted :
  wf_protocol bad_unlink_before_manifest_sync = false /\
  first_violation bad_unlink_before_manifest_sync = Some (3, 33) /\
  In (1, true, 3, (1, ex_w1)) (acks bad_unlink_before_manifest_sync) /\
  exists img, crash_image bad_unlink_before_manifest_sync img /\ lost_in img 3 (1, ex_w1) = true.
Proof. refute_with 1%nat. vm_compute; tauto. Qed.

Example bad_trace_rename_before_manifest_sync_refuted :
  wf_protocol bad_rename_before_manifest_sync = false /\
  first_violation bad_rename_before_manifest_sync = Some (4, 38) /\
  In (1, true, 3, (1, ex_w1)) (acks bad_rename_before_manifest_sync) /\
  exists img, crash_image bad_rename_before_manifest_sync img /\ lost_in img 3 (1, ex_w1) = true.
Proof. refute_with 0%nat. vm_compute; tauto. Qed.

(* F5: what the missing directory fsync allowed.  The trace is rejected only by
   R3's "no pending rename" clause; the batch acknowledged WITHOUT sync whose
   log has been unlinked is lost in the crash image that keeps the old CURRENT. *)
Example C02_unlink_before_dirsync_refuted :
  wf_protocol bad_unlink_before_dirsync = false /\
  first_violation bad_unlink_before_dirsync = Some (3, 42) /\
  (In (2, false, 3, (2, ex_w2)) (acks bad_unlink_before_dirsync) /\
   In (EUnlink (FLog 3)) bad_unlink_before_dirsync) /\
  exists img, crash_image bad_unlink_before_dirsync img /\ lost_in img 3 (2, ex_w2) = true.
Proof. refute_with 0%nat. split; [vm_compute; tauto|apply (nth_error_In _ 42); reflexivity]. Qed.

(* lost_in is the negation of what C02 promises, for a batch that is in one log only *)
Lemma lost_in_not_applied : forall tr img n b s, lost_in img n b = true -> recover img = Some s ->
  In b (log_batches tr n) -> (forall m, In b (log_batches tr m) -> m = n) -> ~ applied tr s b.
Proof.
  intros tr img n b s H Hr Hb Huniq Ha. unfold lost_in in H. rewrite Hr in H.
  destruct (iget img FCurrent); [|discriminate]. apply andb_true_iff in H. destruct H as [H1 H2].
  destruct Ha as [Hin|[m [Hm Hlt]]].
  - apply negb_true_iff in H1.
    assert (existsb (brec_eqb b) (applied_batches s) = true).
    { apply existsb_exists. exists b. split; [exact Hin|apply brec_eqb_refl]. }
    congruence.
  - rewrite (Huniq _ Hm) in Hlt. apply negb_true_iff, N.ltb_ge in H2. lia.
Qed.
