(* EngineStepsBasic.v -- first the two ways a view is kept, for every step: the stored entries
   are the same (view_ext), or some go away (view_drop).  Then the steps OWrite, OSwitch,
   OSnapshot, ORelease: the invariant for all four; views, history agreement and the
   auxiliary invariants hist_bounded / seqs_pos for OWrite; the oldest readable sequence
   (smallest_le, smallest_cases). *)
From LCDB Require Import Base BaseProofs Engine EngineSpec EngineStepsBase EngineStepsInv.
From Coq Require Import Sorting.Sorted Permutation.
Require Import Lia.
Local Open Scope N_scope.

(* every ghost-history entry is at most last_seq; every stored entry has a sequence >= 1 *)
Definition hist_bounded (s : state) : Prop := forall e, In e (hist s) -> es e <= last_seq s.
Definition seqs_pos (s : state) : Prop := forall e, In e (all_entries s) -> 0 < es e.

Section Basic.
Variable ucmp : bytes -> bytes -> comparison.
Context {TO : total_order ucmp}.

Notation Cmp := (EngineStepsBase.Cmp ucmp).
Notation NO := (EngineStepsBase.NO ucmp).
Notation KD := (EngineStepsBase.KD ucmp).
Notation SInv := (EngineStepsInv.SInv ucmp).
Notation view := (EngineSpec.view ucmp).
Notation best := (Engine.best ucmp).

Lemma view_ext s s' k q :
  SInv s -> (forall e, In e (all_entries s') <-> In e (all_entries s)) ->
  view s' k q = view s k q.
Proof.
  intros HI H. unfold EngineSpec.view. f_equal. f_equal.
  apply (best_ext ucmp); auto. apply (SInv_KD ucmp); auto.
Qed.

(* Entries go away and the view at (k, q) stays: the entry that decides it is still there, or
   it is a deletion marker and what is left of its user key is newer (so not visible at q) *)
Lemma view_drop s s' k q :
  KD (all_entries s') -> (forall e, In e (all_entries s') -> In e (all_entries s)) ->
  (forall e, best (all_entries s) k q = Some e ->
     In e (all_entries s') \/
     (et e = false /\ forall e', In e' (all_entries s') -> ueq ucmp (ek e') (ek e) = true -> es e < es e')) ->
  view s' k q = view s k q.
Proof.
  intros HK Hsub Hw. unfold EngineSpec.view. pose proof (best_weak ucmp (all_entries s) k q) as Hb.
  destruct (best (all_entries s) k q) as [e|].
  - destruct Hb as (He & Hm & Hmax). destruct (Hw e eq_refl) as [He'|[Hdel Hnew]].
    + rewrite (best_is ucmp (all_entries s') k q (Some e) HK); [reflexivity|]. repeat split; auto.
    + rewrite (best_is ucmp (all_entries s') k q None HK).
      { cbn [result_of]. unfold result_of_entry. rewrite Hdel. reflexivity. }
      intros e' He'. destruct (matches ucmp k q e') eqn:Hm'; [exfalso|reflexivity].
      pose proof (Hmax e' (Hsub e' He') Hm') as Hle. apply matches_iff in Hm, Hm'.
      pose proof (Hnew e' He' (ueq_trans ucmp _ _ _ (proj1 Hm') (ueq_sym ucmp _ _ (proj1 Hm)))). lia.
  - rewrite (best_is ucmp (all_entries s') k q None HK); [reflexivity|]. intros e He. apply Hb, Hsub, He.
Qed.

Lemma seq_neq_Cmp a b : es a <> es b -> Cmp a b.
Proof. intros H. apply (ueq_seq_Cmp ucmp). intros _. exact H. Qed.

Lemma batch_entries_seq seq b e : In e (batch_entries seq b) -> seq <= es e < seq + nlen b.
Proof.
  revert seq. induction b as [|w r IH]; intros seq H; [destruct H|].
  rewrite nlen_cons.
  destruct w; cbn [batch_entries] in H; destruct H as [H|H]; subst; cbn [es]; try lia;
    apply IH in H; lia.
Qed.

Lemma batch_entries_FOP seq b : ForallOrdPairs (fun x y => es x < es y) (batch_entries seq b).
Proof.
  revert seq. induction b as [|w r IH]; intros seq; cbn [batch_entries]. constructor.
  destruct w; constructor; auto; apply Forall_forall; intros x Hx; apply batch_entries_seq in Hx;
    cbn [es]; lia.
Qed.

Lemma batch_entries_Cmp seq b : ForallOrdPairs Cmp (batch_entries seq b).
Proof.
  eapply FOP_impl; [|apply batch_entries_FOP]. intros x y _ _ H. cbn beta in H. apply seq_neq_Cmp. lia.
Qed.

Lemma batch_entries_KD seq b : KD (batch_entries seq b).
Proof.
  intros x y Hx Hy _ Hs.
  destruct (ForallOrdPairs_In (batch_entries_FOP seq b) x y Hx Hy) as [H|[H|H]]; auto; lia.
Qed.

Lemma write_all_entries s b e :
  In e (all_entries (do_write ucmp s b)) <->
  In e (batch_entries (last_seq s + 1) b) \/ In e (all_entries s).
Proof.
  unfold do_write, all_entries, imm_run. cbn [mem imm levels].
  rewrite !in_app_iff, fold_left_insert_In. tauto.
Qed.

Lemma write_SInv s b : SInv s -> SInv (do_write ucmp s b).
Proof.
  intros HI.
  set (new := batch_entries (last_seq s + 1) b).
  assert (Hnew: forall e, In e new -> last_seq s < es e <= last_seq s + nlen b).
  { intros e He. apply batch_entries_seq in He. lia. }
  (* the memtable after the write is newer than whatever the old one was newer than *)
  assert (Hmem: forall q, NO (mem s) q -> (forall e, In e q -> In e (all_entries s)) ->
                          NO (mem (do_write ucmp s b)) q).
  { intros q Hq Hsub o m Ho Hm Hk. cbn in Ho. rewrite fold_left_insert_In in Ho. destruct Ho as [Ho|Ho].
    - apply Hnew in Ho. pose proof (si_seq _ _ HI m (Hsub m Hm)). lia.
    - apply Hq; auto. }
  constructor; try (destruct HI; assumption).
  - unfold do_write. cbn [mem]. apply (fold_left_insert_Srt ucmp).
    + exact (si_mem _ _ HI).
    + apply batch_entries_Cmp.
    + intros x y Hx Hy. apply seq_neq_Cmp. apply Hnew in Hx.
      assert (es y <= last_seq s). { apply (si_seq _ _ HI). apply all_entries_tables. auto. }
      lia.
  - apply Hmem; [apply HI|]. intros e He. apply all_entries_tables. auto.
  - apply Hmem; [apply HI|]. intros e He. rewrite all_entries_eq, !in_app_iff. auto.
  - intros e He. apply write_all_entries in He. unfold do_write; cbn [last_seq].
    destruct He as [He|He]. apply Hnew in He. lia.
    pose proof (si_seq _ _ HI e He). lia.
  - intros q Hq. unfold do_write in *; cbn [last_seq snaps] in *.
    pose proof (si_snap _ _ HI q Hq). lia.
Qed.

Lemma write_old_views s b k q :
  SInv s -> q <= last_seq s -> view (do_write ucmp s b) k q = view s k q.
Proof.
  intros HI Hq. symmetry. apply view_drop; [apply (SInv_KD ucmp), HI|intros e He; apply write_all_entries; auto|].
  intros e Eb. apply best_Some in Eb. destruct Eb as (He & Hm & _). left.
  apply write_all_entries in He. destruct He as [He|He]; auto.
  apply batch_entries_seq in He. apply matches_iff in Hm. lia.
Qed.

Lemma write_hist_bounded s b : hist_bounded s -> hist_bounded (do_write ucmp s b).
Proof.
  intros H e He. unfold do_write in *. cbn [hist last_seq] in *.
  apply in_app_or in He. destruct He as [He|He].
  - apply in_rev in He. apply batch_entries_seq in He. lia.
  - specialize (H e He). lia.
Qed.

Lemma write_seqs_pos s b : seqs_pos s -> seqs_pos (do_write ucmp s b).
Proof.
  intros H e He. apply write_all_entries in He. destruct He as [He|He]; auto.
  apply batch_entries_seq in He. lia.
Qed.

Lemma write_readable s b q : readable (do_write ucmp s b) q -> readable s q.
Proof.
  unfold readable, smallest_snapshot, do_write. cbn [snaps last_seq].
  destruct (snaps s); auto. lia.
Qed.

Lemma write_hist_ok s b :
  SInv s -> hist_bounded s -> hist_ok ucmp s -> hist_ok ucmp (do_write ucmp s b).
Proof.
  intros HI HB HO k q Hq.
  apply write_readable in Hq. specialize (HO k q Hq).
  unfold EngineSpec.view, spec_get in *.
  set (new := batch_entries (last_seq s + 1) b).
  assert (Hnew: forall e, In e new -> last_seq s < es e).
  { intros e He. apply batch_entries_seq in He. lia. }
  assert (E1: best (all_entries (do_write ucmp s b)) k q = best (new ++ all_entries s) k q).
  { apply (best_ext ucmp).
    - pose proof (SInv_KD ucmp _ (write_SInv s b HI)) as HK.
      intros x y Hx Hy. apply HK; apply write_all_entries; apply in_app_or; auto.
    - intros e. rewrite write_all_entries, in_app_iff. tauto. }
  assert (E2: best (rev new) k q = best new k q).
  { apply (best_ext ucmp). apply batch_entries_KD. intros e. symmetry. apply in_rev. }
  rewrite E1. unfold do_write. cbn [hist]. fold new. rewrite !(best_app_newer ucmp), E2.
  - destruct (best new k q); [reflexivity|exact HO].
  - intros o m Ho Hm _ _. apply in_rev, Hnew in Ho. specialize (HB m Hm). lia.
  - intros o m Ho Hm _ _. apply Hnew in Ho. pose proof (si_seq _ _ HI m Hm). lia.
Qed.

Lemma switch_state s s' :
  do_switch s = Some s' ->
  imm s = None /\ s' = mkS [] (Some (mem s)) (levels s) (last_seq s) (snaps s) (next_file s) (hist s).
Proof.
  unfold do_switch. destruct (imm s); [discriminate|]. intros H; injection H as <-. auto.
Qed.

Lemma switch_all_entries s s' e :
  do_switch s = Some s' -> (In e (all_entries s') <-> In e (all_entries s)).
Proof.
  intros H. apply switch_state in H. destruct H as [E ->].
  unfold all_entries, imm_run. cbn [mem imm levels]. rewrite E.
  rewrite !in_app_iff. cbn [In]. tauto.
Qed.

Lemma switch_SInv s s' : SInv s -> do_switch s = Some s' -> SInv s'.
Proof.
  intros HI H. pose proof (fun e => proj1 (switch_all_entries s s' e H)) as Hsub.
  apply switch_state in H. destruct H as [E ->].
  constructor; try (destruct HI; assumption).
  - apply Srt_nil.
  - intros o m [].
  - intros o m [].
  - intros e He. apply (si_seq _ _ HI), Hsub, He.
Qed.

Lemma snapshot_SInv s : SInv s -> SInv (do_snapshot s).
Proof.
  intros HI. constructor; try (destruct HI; assumption).
  - intros q Hq. unfold do_snapshot in *. cbn [snaps last_seq] in *.
    apply in_app_or in Hq. destruct Hq as [Hq|[Hq|[]]]. apply (si_snap _ _ HI); auto. lia.
  - unfold do_snapshot. cbn [snaps]. apply SS_snoc. apply HI. apply (si_snap _ _ HI).
Qed.

Lemma remove_first_In q l l' x : remove_first q l = Some l' -> In x l' -> In x l.
Proof.
  revert l'. induction l as [|a r IH]; intros l' H Hx; cbn [remove_first] in H. discriminate.
  destruct (a =? q). injection H as <-. right; auto.
  destruct (remove_first q r) as [r'|]; [|discriminate]. injection H as <-.
  destruct Hx as [Hx|Hx]; [left|right]; auto. eapply IH; eauto.
Qed.

Lemma remove_first_sorted q l l' :
  remove_first q l = Some l' -> StronglySorted N.le l -> StronglySorted N.le l'.
Proof.
  revert l'. induction l as [|a r IH]; intros l' H HS; cbn [remove_first] in H. discriminate.
  apply StronglySorted_inv in HS. destruct HS as [HS Ha].
  destruct (a =? q). injection H as <-. auto.
  destruct (remove_first q r) as [r'|] eqn:E; [|discriminate]. injection H as <-.
  constructor; auto. rewrite Forall_forall in *. intros x Hx. apply Ha. eapply remove_first_In; eauto.
Qed.

(* the oldest readable sequence lies below every snapshot and below last_seq, and is one of them *)
Lemma smallest_le s x : SInv s -> In x (snaps s) \/ x = last_seq s -> smallest_snapshot s <= x.
Proof.
  intros HI Hx. unfold smallest_snapshot.
  pose proof (si_snsort _ _ HI) as HS. pose proof (si_snap _ _ HI) as HB.
  destruct (snaps s) as [|a r]; [destruct Hx as [[]| ->]; apply N.le_refl|].
  apply StronglySorted_inv in HS. destruct HS as [_ Ha]. rewrite Forall_forall in Ha.
  destruct Hx as [[<-|Hx]| ->]; [apply N.le_refl|apply Ha, Hx|apply HB; left; reflexivity].
Qed.

Lemma smallest_cases s : In (smallest_snapshot s) (snaps s) \/ smallest_snapshot s = last_seq s.
Proof. unfold smallest_snapshot. destruct (snaps s); [right|left; left]; reflexivity. Qed.

Lemma release_state s q s' :
  do_release s q = Some s' ->
  exists sn, remove_first q (snaps s) = Some sn /\
             s' = mkS (mem s) (imm s) (levels s) (last_seq s) sn (next_file s) (hist s).
Proof.
  unfold do_release. destruct (remove_first q (snaps s)) as [sn|]; [|discriminate].
  intros H; injection H as <-. eauto.
Qed.

Lemma release_SInv s q s' : SInv s -> do_release s q = Some s' -> SInv s'.
Proof.
  intros HI H. apply release_state in H. destruct H as (sn & E & ->).
  constructor; try (destruct HI; assumption).
  - intros x Hx. cbn [snaps last_seq] in *. apply (si_snap _ _ HI). eapply remove_first_In; eauto.
  - cbn [snaps]. exact (remove_first_sorted q _ _ E (si_snsort _ _ HI)).
Qed.

End Basic.
